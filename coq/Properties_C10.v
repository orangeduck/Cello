(* Properties_C10.v — property C10: equal values hash equally; hash is a function of the value;
   copy / assign give equal values; swap exchanges.  Each theorem is followed by Print Assumptions.
   The arguments are in HashFloat.v, HashProofs.v and HashTable.v and are instantiated here; the examples,
   the refutations by a witness and two short consequences (copy, histories) are proved in place.
   hash_m, hash_r, hash_seed, hash_tail_shape, float_hash_shape, float_cmp_form, memswap_plan,
   table_cmp_by_lookup, table_swap, table_primes, table_load_* come from Generated.v, re-extracted from the
   C source on every run.  The theorems hold for every admissible value of these parameters (the side
   conditions fh_normalising float_hash_shape = true, plan_ok memswap_plan = true, table_cmp_by_lookup = true
   are discharged by computation, `eq_refl`): if Float_Hash or Table_Cmp go back to their pinned shape, or
   memswap gets a loop structure that does not cover every byte once, the statements below no longer
   type-check against the lemmas. *)
From CelloV Require Import Generated RobinHood TableModel TableProofs HashModel HashFloat HashProofs HashTable.

(* eq(a,b) implies hash(a) = hash(b): all well-formed values (int64, non-NaN doubles, strings, types,
   Ref/Box, plain structs, Array/List/Tuple/Table/Tree of them, nested, across kinds) *)
Theorem eq_implies_equal_hash : forall a b : value,
  v_wf a = true -> v_wf b = true ->
  v_cmp table_cmp_by_lookup a b = Some 0%Z ->
  v_hash (hash_data hash_m hash_r hash_seed hash_tail_shape) float_hash_shape a =
  v_hash (hash_data hash_m hash_r hash_seed hash_tail_shape) float_hash_shape b.
Proof. exact (HashProofs.v_eq_hash (hash_data hash_m hash_r hash_seed hash_tail_shape) table_cmp_by_lookup float_hash_shape eq_refl). Qed.
Print Assumptions eq_implies_equal_hash.

Example eq_implies_equal_hash_nonvacuous :
  ex_a <> ex_b /\ v_wf ex_a = true /\ v_wf ex_b = true /\ v_cmp table_cmp_by_lookup ex_a ex_b = Some 0%Z.
Proof. split; [discriminate|]. vm_compute. auto. Qed.

Example eq_implies_equal_hash_nonvacuous_float_keys :
  ex_fa <> ex_fb /\ v_wf ex_fa = true /\ v_wf ex_fb = true /\ v_cmp table_cmp_by_lookup ex_fa ex_fb = Some 0%Z.
Proof. split; [discriminate|]. vm_compute. auto. Qed.

(* the model's hashes are 64-bit words (what the C type uint64_t holds) *)
Theorem hash_is_a_64_bit_word : forall a : value,
  v_wf a = true -> (v_hash (hash_data hash_m hash_r hash_seed hash_tail_shape) float_hash_shape a < M64)%N.
Proof. exact (HashProofs.v_hash_lt (hash_data hash_m hash_r hash_seed hash_tail_shape) float_hash_shape (HashProofs.hash_data_lt hash_m hash_r hash_seed hash_tail_shape) eq_refl). Qed.
Print Assumptions hash_is_a_64_bit_word.

(* the Float clause on bit patterns: Float_Cmp = 0 on non-NaN doubles only for identical doubles
   or two zeros (Flocq binary64 subtraction, round to nearest even) *)
Theorem float_cmp_zero_only_for_equal : forall a b : N,
  (a < M64)%N -> (b < M64)%N -> f_is_nan a = false -> f_is_nan b = false ->
  float_cmp a b = 0%Z -> a = b \/ (f_is_zero a = true /\ f_is_zero b = true).
Proof. exact HashFloat.float_cmp_zero. Qed.
Print Assumptions float_cmp_zero_only_for_equal.

(* whichever of its two shapes Float_Cmp has in the source (sign of the rounded difference, or the
   operands compared directly) it is the function float_cmp of the model, on ALL pairs of doubles *)
Theorem float_cmp_form_denotes_float_cmp : forall a b : N,
  float_cmp_of_form float_cmp_form a b = float_cmp a b.
Proof. exact (HashFloat.float_cmp_forms_agree float_cmp_form). Qed.
Print Assumptions float_cmp_form_denotes_float_cmp.

Example float_cmp_zero_nonvacuous :
  (0 < M64)%N /\ f_is_nan 0 = false /\ f_is_nan 9223372036854775808 = false /\ float_cmp 0 9223372036854775808 = 0%Z.
Proof. vm_compute. auto. Qed.

(* cmp(a,a) = 0 — what makes copies and self-lookups equal (inf - inf = NaN included) *)
Theorem cmp_reflexive : forall a : value,
  v_wf a = true -> v_cmp table_cmp_by_lookup a a = Some 0%Z.
Proof. exact (HashProofs.v_cmp_refl table_cmp_by_lookup). Qed.
Print Assumptions cmp_reflexive.

(* copy(a): exists for everything but Type objects, is eq to a both ways and hashes the same *)
Theorem copy_is_eq_and_hashes_equal : forall a c : value,
  v_wf a = true -> v_copy a = Some c ->
  v_cmp table_cmp_by_lookup c a = Some 0%Z /\ v_cmp table_cmp_by_lookup a c = Some 0%Z /\
  v_hash (hash_data hash_m hash_r hash_seed hash_tail_shape) float_hash_shape c =
  v_hash (hash_data hash_m hash_r hash_seed hash_tail_shape) float_hash_shape a.
Proof.
  intros a c W E. apply HashProofs.v_copy_id in E. subst.
  repeat split; apply (HashProofs.v_cmp_refl table_cmp_by_lookup a W).
Qed.
Print Assumptions copy_is_eq_and_hashes_equal.

Example copy_nonvacuous : v_wf (VMap KTable ex_m) = true /\ v_copy (VMap KTable ex_m) = Some (VMap KTable ex_m).
Proof. split; vm_compute; reflexivity. Qed.

(* assign(dst, src): the new dst hashes like src and is eq to it (a Box assigned from a Ref, or a Ref
   from a Box, holds the same address but the two types cannot be compared) *)
Theorem assign_is_eq_and_hashes_equal : forall dst src y : value,
  v_wf src = true -> v_assign dst src = Some y ->
  v_hash (hash_data hash_m hash_r hash_seed hash_tail_shape) float_hash_shape y =
  v_hash (hash_data hash_m hash_r hash_seed hash_tail_shape) float_hash_shape src /\
  (v_cmp table_cmp_by_lookup y src = Some 0%Z \/
   exists p, (y = VBox p /\ src = VRef p) \/ (y = VRef p /\ src = VBox p)).
Proof. exact (HashProofs.assign_eq_hash (hash_data hash_m hash_r hash_seed hash_tail_shape) table_cmp_by_lookup float_hash_shape). Qed.
Print Assumptions assign_is_eq_and_hashes_equal.

Example assign_nonvacuous :
  v_wf ex_b = true /\ v_assign (VSeq KArray (VInt 1 :: nil)) ex_b =
    Some (VSeq KArray (VFloat 0 :: VFloat 4607182418800017408 :: VStr (72 :: 105 :: nil)%N :: nil)).
Proof. split; vm_compute; reflexivity. Qed.

(* swap(a, b) on two values of the same type exchanges them (byte-wise swap of the structs) *)
Theorem swap_exchanges : forall a b a' b' : value,
  v_swap a b = Some (a', b') -> a' = b /\ b' = a.
Proof. exact HashProofs.swap_exchanges. Qed.
Print Assumptions swap_exchanges.

Example swap_nonvacuous : v_swap ex_a (VSeq KArray nil) = Some (VSeq KArray nil, ex_a).
Proof. exact (eq_refl _). Qed.

(* memswap (src/Assign.c), whatever loop structure the source has: its loops are read as a plan of
   (tag, width) steps (Generated.memswap_plan); the plan exchanges every byte below s exactly once, so
   two struct images of the same size are exchanged *)
Theorem memswap_exchanges_bytes : forall a b : list N,
  length a = length b -> run_plan memswap_plan (length a) a b = (b, a).
Proof. exact (HashProofs.plan_exchanges memswap_plan eq_refl). Qed.
Print Assumptions memswap_exchanges_bytes.

Example memswap_nonvacuous :
  run_plan memswap_plan 3 (1 :: 2 :: 3 :: nil)%N (7 :: 8 :: 9 :: nil)%N = ((7 :: 8 :: 9 :: nil)%N, (1 :: 2 :: 3 :: nil)%N).
Proof. exact (eq_refl _). Qed.

(* a word step that does not advance the cursor (the byte loop then exchanges those bytes back) is
   neither accepted nor correct *)
Theorem memswap_plan_without_advance_refuted :
  plan_ok ((0, 8) :: (2, 4) :: (0, 1) :: nil) = false /\
  run_plan ((0, 8) :: (2, 4) :: (0, 1) :: nil) 4 (1 :: 2 :: 3 :: 4 :: nil)%N (5 :: 6 :: 7 :: 8 :: nil)%N
    <> ((5 :: 6 :: 7 :: 8 :: nil)%N, (1 :: 2 :: 3 :: 4 :: nil)%N).
Proof. split; [reflexivity|]. vm_compute. discriminate. Qed.
Print Assumptions memswap_plan_without_advance_refuted.

(* Table equality and hash do not depend on the order of the bindings (= the slot order) *)
Theorem table_eq_independent_of_slot_order : forall (k k' : mkind) (mp mp' : list (value * value)),
  v_wf (VMap KTable mp) = true -> Permutation.Permutation mp mp' ->
  v_wf (VMap k' mp') = true /\
  v_cmp table_cmp_by_lookup (VMap KTable mp) (VMap k' mp') = Some 0%Z /\
  v_hash (hash_data hash_m hash_r hash_seed hash_tail_shape) float_hash_shape (VMap k mp) =
  v_hash (hash_data hash_m hash_r hash_seed hash_tail_shape) float_hash_shape (VMap k' mp').
Proof. exact (fun k k' mp mp' => HashProofs.map_perm_eq (hash_data hash_m hash_r hash_seed hash_tail_shape) table_cmp_by_lookup float_hash_shape eq_refl k k' mp mp' eq_refl). Qed.
Print Assumptions table_eq_independent_of_slot_order.

Example table_eq_nonvacuous :
  v_wf (VMap KTable ex_m) = true /\ Permutation.Permutation ex_m ex_m' /\ ex_m <> ex_m'.
Proof.
  split; [vm_compute; reflexivity|]. split; [|discriminate].
  apply Permutation.Permutation_sym. eapply Permutation.perm_trans; [apply Permutation.perm_swap|].
  apply Permutation.perm_skip, Permutation.perm_swap.
Qed.

(* slot level (TableModel): Table_Assign / copy of a table that satisfies the robin-hood invariant
   yields a table with the invariant and the same bindings in some order — any key type with
   Leibniz equality, any hash function, the displacement rule and prime table of the source *)
Theorem table_copy_same_bindings : forall (K V : Type) (keq : K -> K -> bool) (hash : K -> N) (src : table K V),
  (forall a b, keq a b = true <-> a = b) ->
  tinv K V hash src ->
  exists t', t_assign_from K V keq hash table_swap table_primes table_load_num table_load_den src = Some t' /\
    tinv K V hash t' /\ Permutation.Permutation (t_iter K V t') (t_iter K V src) /\ nitems K V t' = nitems K V src.
Proof. exact HashTable.table_copy_same_bindings. Qed.
Print Assumptions table_copy_same_bindings.

Example table_copy_nonvacuous :
  exists t, tinv Z Z zt_hash t /\ t_iter Z Z t = ((3%Z, 2%Z) :: (7%Z, 1%Z) :: nil).
Proof. exact HashTable.tinv_nonvacuous. Qed.

(* both levels together for Tables keyed by Int: copy(t) is eq to t in both directions, hashes the
   same and has the same length — for every slot-array state with the invariant, every hash function *)
Theorem int_table_copy_is_eq_and_hashes_equal : forall (hash : Z -> N) (t : table Z value),
  tinv Z value hash t -> entries_wf t ->
  exists t', t_assign_from Z value Z.eqb hash table_swap table_primes table_load_num table_load_den t = Some t' /\
    v_cmp table_cmp_by_lookup (VMap KTable (emb t')) (VMap KTable (emb t)) = Some 0%Z /\
    v_cmp table_cmp_by_lookup (VMap KTable (emb t)) (VMap KTable (emb t')) = Some 0%Z /\
    v_hash (hash_data hash_m hash_r hash_seed hash_tail_shape) float_hash_shape (VMap KTable (emb t')) =
    v_hash (hash_data hash_m hash_r hash_seed hash_tail_shape) float_hash_shape (VMap KTable (emb t)) /\
    length (emb t') = length (emb t).
Proof. exact (HashTable.int_table_copy_eq_hash (hash_data hash_m hash_r hash_seed hash_tail_shape) float_hash_shape eq_refl). Qed.
Print Assumptions int_table_copy_is_eq_and_hashes_equal.

Example int_table_copy_nonvacuous :
  exists t : table Z value, tinv Z value zt_hash t /\ entries_wf t /\
    emb t = ((VInt 3, VSeq KList (VFloat 0 :: nil)) :: (VInt 7, VStr (72 :: 105 :: nil)%N) :: nil).
Proof. exact HashTable.int_table_nonvacuous. Qed.

(* ... and, with C02's refinement theorem, for EVERY construction history (set / rem / get / mem /
   resize / copy from the empty table): the hypothesis on the state disappears *)
Theorem int_table_copy_after_any_history : forall (hash : Z -> N) (ops : list (op Z value)),
  let t := T_run Z value Z.eqb hash ops in
  entries_wf t ->
  exists t', t_assign_from Z value Z.eqb hash table_swap table_primes table_load_num table_load_den t = Some t' /\
    v_cmp table_cmp_by_lookup (VMap KTable (emb t')) (VMap KTable (emb t)) = Some 0%Z /\
    v_cmp table_cmp_by_lookup (VMap KTable (emb t)) (VMap KTable (emb t')) = Some 0%Z /\
    v_hash (hash_data hash_m hash_r hash_seed hash_tail_shape) float_hash_shape (VMap KTable (emb t')) =
    v_hash (hash_data hash_m hash_r hash_seed hash_tail_shape) float_hash_shape (VMap KTable (emb t)) /\
    length (emb t') = length (emb t).
Proof. exact (HashTable.int_table_history_copy (hash_data hash_m hash_r hash_seed hash_tail_shape) float_hash_shape eq_refl). Qed.
Print Assumptions int_table_copy_after_any_history.

(* hash and eq are functions of the bindings alone: two histories (other insertion orders, removals,
   reserves, copies, even other hash functions placing the keys) that leave the same bindings leave
   tables that are eq in both directions and hash the same *)
Theorem int_table_same_bindings_eq_and_hash : forall (hash1 hash2 : Z -> N) (ops1 ops2 : list (op Z value)),
  let t1 := T_run Z value Z.eqb hash1 ops1 in
  let t2 := T_run Z value Z.eqb hash2 ops2 in
  Permutation.Permutation (spec_run Z value Z.eqb ops1 nil) (spec_run Z value Z.eqb ops2 nil) ->
  entries_wf t1 ->
  v_cmp table_cmp_by_lookup (VMap KTable (emb t1)) (VMap KTable (emb t2)) = Some 0%Z /\
  v_cmp table_cmp_by_lookup (VMap KTable (emb t2)) (VMap KTable (emb t1)) = Some 0%Z /\
  v_hash (hash_data hash_m hash_r hash_seed hash_tail_shape) float_hash_shape (VMap KTable (emb t1)) =
  v_hash (hash_data hash_m hash_r hash_seed hash_tail_shape) float_hash_shape (VMap KTable (emb t2)).
Proof. exact (HashTable.int_table_histories_eq_hash (hash_data hash_m hash_r hash_seed hash_tail_shape) float_hash_shape eq_refl). Qed.
Print Assumptions int_table_same_bindings_eq_and_hash.

Example histories_nonvacuous :
  Permutation.Permutation (spec_run Z value Z.eqb hist1 nil) (spec_run Z value Z.eqb hist2 nil) /\
  hist1 <> hist2 /\ entries_wf (T_run Z value Z.eqb zt_hash hist1).
Proof. exact HashTable.histories_nonvacuous. Qed.

(* the copy of a reachable table can list its bindings in another order (why the pinned Table_Cmp failed);
   stated for the pinned configuration (prime table prefix, load 9/10, strict rule), not for the values in Generated.v *)
Theorem copy_changes_slot_order :
  t_iter Z Z witness_table = ((3%Z, 2%Z) :: (7%Z, 1%Z) :: nil) /\
  option_map (t_iter Z Z)
    (t_assign_from Z Z Z.eqb zt_hash pin_swap pin_primes 9%N 10%N witness_table)
  = Some ((7%Z, 1%Z) :: (3%Z, 2%Z) :: nil).
Proof. exact HashTable.copy_changes_order. Qed.
Print Assumptions copy_changes_slot_order.

(* the pinned variants are refuted *)
Theorem float_hash_raw_refuted :
  exists a b, v_wf (VFloat a) = true /\ v_wf (VFloat b) = true /\
              float_cmp a b = 0%Z /\ float_hash 0 a <> float_hash 0 b.
Proof. exact HashProofs.float_hash_raw_refuted. Qed.
Print Assumptions float_hash_raw_refuted.

Theorem table_walk_refuted :
  exists mp mp', v_wf (VMap KTable mp) = true /\ Permutation.Permutation mp mp' /\
                 v_cmp false (VMap KTable mp) (VMap KTable mp') <> Some 0%Z.
Proof. exact HashProofs.table_walk_refuted. Qed.
Print Assumptions table_walk_refuted.

(* histories of one object: a Hash instance that keeps no static state (as the source's do:
   hash_instances_stateless, string_hash_shape_ok below) returns at every call the hash of the value
   the object has at that call — whatever its address, its earlier values, the calls before *)
Theorem hash_depends_only_on_the_current_value : forall (calls : list hcall),
  run_hist unit (stateless_inst (hash_data hash_m hash_r hash_seed hash_tail_shape) float_hash_shape) tt calls =
  map (fun c => v_hash (hash_data hash_m hash_r hash_seed hash_tail_shape) float_hash_shape (hc_val c)) calls.
Proof. exact (HashProofs.stateless_history (hash_data hash_m hash_r hash_seed hash_tail_shape) float_hash_shape). Qed.
Print Assumptions hash_depends_only_on_the_current_value.

(* ... so two calls anywhere in any two histories on eq values return the same hash *)
Theorem eq_values_hash_equally_in_any_histories : forall (calls1 calls2 : list hcall) (i j : nat) (c1 c2 : hcall),
  nth_error calls1 i = Some c1 -> nth_error calls2 j = Some c2 ->
  v_wf (hc_val c1) = true -> v_wf (hc_val c2) = true ->
  v_cmp table_cmp_by_lookup (hc_val c1) (hc_val c2) = Some 0%Z ->
  nth_error (run_hist unit (stateless_inst (hash_data hash_m hash_r hash_seed hash_tail_shape) float_hash_shape) tt calls1) i =
  nth_error (run_hist unit (stateless_inst (hash_data hash_m hash_r hash_seed hash_tail_shape) float_hash_shape) tt calls2) j.
Proof.
  intros calls1 calls2 i j c1 c2 E1 E2 W1 W2 C.
  rewrite !HashProofs.stateless_history, (map_nth_error _ _ _ E1), (map_nth_error _ _ _ E2).
  f_equal. apply (HashProofs.v_eq_hash _ table_cmp_by_lookup float_hash_shape eq_refl); assumption.
Qed.
Print Assumptions eq_values_hash_equally_in_any_histories.

Example histories_of_one_object_nonvacuous :
  nth_error (mk_hcall 4096 (VStr (72 :: 105 :: nil)%N) :: mk_hcall 4096 (VStr (72 :: nil)%N) :: nil) 1
    = Some (mk_hcall 4096 (VStr (72 :: nil)%N)) /\ v_wf (VStr (72 :: nil)%N) = true.
Proof. exact (conj eq_refl eq_refl). Qed.

(* an instance that memoises the last hash by buffer address is refuted: the same
   address with the value changed in place returns the old hash *)
Theorem memoised_hash_refuted :
  exists calls, run_hist _ (memo_inst (fun d => N.of_nat (length d)) 1) None calls
                <> map (fun c => v_hash (fun d => N.of_nat (length d)) 1 (hc_val c)) calls.
Proof.
  exists (mk_hcall 4096 (VStr (72 :: 105 :: nil)%N) :: mk_hcall 4096 (VStr (72 :: nil)%N) :: nil).
  vm_compute. discriminate.
Qed.
Print Assumptions memoised_hash_refuted.

(* the code shapes the model encodes are still the ones in the source (tools/genx_hash.py): loop,
   finish of hash_data (its tail in one of the two modelled shapes); Int_Hash; the five XOR folds; swap's
   dispatch; copy = alloc + assign.  Float_Hash, Float_Cmp, memswap and Table_Cmp come as shape
   parameters (float_hash_shape, float_cmp_form, memswap_plan, table_cmp_by_lookup) used above *)
Theorem source_shapes_as_modelled :
  hash_data_shape_ok && (hash_tail_shape <=? 1) && int_hash_shape_ok && xor_fold_shape_ok
  && swap_shape_ok && copy_shape_ok && string_hash_shape_ok && hash_instances_stateless = true.
Proof. exact (eq_refl true). Qed.
Print Assumptions source_shapes_as_modelled.
