(* Properties_C20.v — property C20: File streams round-trip data and refuse use when closed.
   Each statement is followed by Print Assumptions.  The ledger invariant and the refinement are
   proved in FileProofs.v, the round trips as statements about the specification in FileRoundTrip.v
   and FileText.v; the proofs here instantiate those theorems, carry a statement about the
   specification over to the model of File.c (FileRoundTrip.runs_closed_model), or give a witness.
   The model is coq/FileModel.v (File.c over an explicit stdio model); `file_close_tests_closed` and
   `file_close_clears_always` are re-extracted from src/File.c on every run (Generated.v): the
   theorems are about File_Close AS FOUND IN THE SOURCE, and stop type-checking if it regresses.
   All statements hold for every byte type B, every zero byte, every classification of bytes
   and every set of creatable paths / of paths whose fclose fails. *)
From CelloV Require Import Generated FileModel FileProofs FileRoundTrip FileText FileExamples FileTie.
From Coq Require Import List ZArith.
Import ListNotations.

(* src/File.c still has the shape the model encodes (facts re-extracted from the source text) *)
Theorem file_c_has_the_modelled_shape :
  file_close_tests_closed = true /\ file_close_clears_always = true /\
  file_ops_guarded = true /\ file_del_open_shape = true /\ file_format_direct = true.
Proof. exact FileTie.file_c_shape. Qed.
Print Assumptions file_c_has_the_modelled_shape.

(* an operation on a File that is not open raises IOError, changes nothing (the world, which
   includes the ledger of stdio calls, is returned unchanged: no handle is touched) *)
Theorem closed_file_raises_ioerror :
  forall (B : Type) (zero : B) (is_ws is_digit is_sign : B -> bool) (creatable close_fails : nat -> bool)
         (w : world B) (o : op B) (i : nat),
  w_objs B w i = FObj None -> uses B o i ->
  step B zero is_ws is_digit is_sign creatable close_fails file_close_tests_closed file_close_clears_always w o
  = (w, ORaise B FIOError).
Proof. exact FileProofs.closed_op_raises. Qed.
Print Assumptions closed_file_raises_ioerror.

Example closed_file_raises_ioerror_nonvacuous :
  w_objs nat (w_init nat xfs0 xobjs0) 2 = FObj None /\ uses nat (ORead nat 2 5) 2 /\ uses nat (OClose nat 2) 2.
Proof. exact FileExamples.closed_file_exists. Qed.

(* for ALL histories of new/open/close/reopen/with/del/read/write/seek/tell/eof/flush/print/scan
   from a state without open streams: nothing undefined reaches stdio (no fclose(NULL), no use of
   a closed FILE pointer), every stream comes from one fopen and is closed at most once, a stream is
   still open iff exactly one File holds it; and no operation crashes *)
Theorem ledger_all_histories :
  forall (B : Type) (zero : B) (is_ws is_digit is_sign : B -> bool) (creatable close_fails : nat -> bool)
         (fs : fsys B) (objs : nat -> fobj) (ops : list (op B)),
  (forall i h, objs i <> FObj (Some h)) ->
  ledger_ok B (fst (run B zero is_ws is_digit is_sign creatable close_fails file_close_tests_closed file_close_clears_always (w_init B fs objs) ops)) /\
  Forall (not_crash B) (snd (run B zero is_ws is_digit is_sign creatable close_fails file_close_tests_closed file_close_clears_always (w_init B fs objs) ops)).
Proof. exact FileProofs.ledger_all_histories. Qed.
Print Assumptions ledger_all_histories.

Example ledger_all_histories_nonvacuous :
  let r := xrun true true [ONewOpen nat 0 0 MW; OOpen nat 0 1 MWp; OWith nat 0; OOpen nat 2 0 MR; OExit nat;
                           ONewOpen nat 1 3 MW; OClose nat 2; ODel nat 0] in
  w_trace nat (fst r) = [EvClose 2; EvClose 1; EvOpen 2; EvOpen 1; EvClose 0; EvOpen 0] /\
  snd r = [OkUnit nat; OkUnit nat; OkUnit nat; OkUnit nat; OkUnit nat; ORaise nat FIOError; OkUnit nat; OkUnit nat].
Proof. exact FileExamples.ledger_example. Qed.

(* sclose, del and leaving a with block close exactly once: whenever a history ends with no File
   open, every stream that was ever opened has been closed exactly once *)
Theorem all_closed_exactly_once :
  forall (B : Type) (zero : B) (is_ws is_digit is_sign : B -> bool) (creatable close_fails : nat -> bool)
         (fs : fsys B) (objs : nat -> fobj) (ops : list (op B)),
  (forall i h, objs i <> FObj (Some h)) ->
  let w := fst (run B zero is_ws is_digit is_sign creatable close_fails file_close_tests_closed file_close_clears_always (w_init B fs objs) ops) in
  (forall i h, w_objs B w i <> FObj (Some h)) ->
  forall h, h < w_nfiles B w ->
    count_open h (w_trace B w) = 1 /\ count_close h (w_trace B w) = 1.
Proof. exact FileProofs.all_closed_exactly_once. Qed.
Print Assumptions all_closed_exactly_once.

(* the invariant `inv` used as hypothesis below holds in every world reachable by any history *)
Theorem reachable_worlds_satisfy_inv :
  forall (B : Type) (zero : B) (is_ws is_digit is_sign : B -> bool) (creatable close_fails : nat -> bool)
         (fs : fsys B) (objs : nat -> fobj) (ops : list (op B)),
  (forall i h, objs i <> FObj (Some h)) ->
  inv B (fst (run B zero is_ws is_digit is_sign creatable close_fails file_close_tests_closed file_close_clears_always (w_init B fs objs) ops)).
Proof. exact FileProofs.reachable_inv. Qed.
Print Assumptions reachable_worlds_satisfy_inv.

(* the model of File.c (handles, NULL tests, ledger) refines the handle-free specification for
   ALL histories: same outcomes, same Files, same file system *)
Theorem model_refines_spec :
  forall (B : Type) (zero : B) (is_ws is_digit is_sign : B -> bool) (creatable close_fails : nat -> bool)
         (ops : list (op B)) (w : world B) (a : sworld B),
  inv B w -> sw_equiv B a (abs B w) ->
  snd (spec_run B zero is_ws is_digit is_sign creatable close_fails a ops) =
  snd (run B zero is_ws is_digit is_sign creatable close_fails file_close_tests_closed file_close_clears_always w ops) /\
  sw_equiv B (fst (spec_run B zero is_ws is_digit is_sign creatable close_fails a ops))
             (abs B (fst (run B zero is_ws is_digit is_sign creatable close_fails file_close_tests_closed file_close_clears_always w ops))).
Proof. exact FileProofs.run_refines. Qed.
Print Assumptions model_refines_spec.

Example model_refines_spec_nonvacuous :
  forall (B : Type) (fs : fsys B) (objs : nat -> fobj),
  (forall i h, objs i <> FObj (Some h)) -> inv B (w_init B fs objs) /\ sw_equiv B (abs B (w_init B fs objs)) (abs B (w_init B fs objs)).
Proof. exact (fun B fs objs H => conj (FileProofs.inv_init B fs objs H) (FileProofs.equiv_refl B (w_init B fs objs))). Qed.

(* frame: an operation aimed at one File (for `}` the File of the innermost with block) leaves the
   stream of every other File as it was (state, position, EOF flag), in every reachable world *)
Theorem other_files_untouched :
  forall (B : Type) (zero : B) (is_ws is_digit is_sign : B -> bool) (creatable close_fails : nat -> bool)
         (w : world B) (o : op B) (j : nat),
  inv B w -> target B (w_stack B w) o <> Some j ->
  abs_obj B (fst (step B zero is_ws is_digit is_sign creatable close_fails file_close_tests_closed file_close_clears_always w o))
          (w_objs B (fst (step B zero is_ws is_digit is_sign creatable close_fails file_close_tests_closed file_close_clears_always w o)) j)
  = abs_obj B w (w_objs B w j).
Proof. exact FileProofs.step_frame. Qed.
Print Assumptions other_files_untouched.

Example other_files_untouched_nonvacuous :
  let w := fst (xrun true true [OOpen nat 2 0 MWp; OWrite nat 2 [1; 2]]) in
  target nat (w_stack nat w) (ONewOpen nat 0 1 MW) <> Some 2 /\
  abs_obj nat w (w_objs nat w 2) = SOpen (mkS 0 2 false MWp) /\
  let w' := fst (run nat 0 xws xdigit xsign xcreat xfull true true w [ONewOpen nat 0 1 MW; OWrite nat 0 [5]; ODel nat 0]) in
  abs_obj nat w' (w_objs nat w' 2) = SOpen (mkS 0 2 false MWp).
Proof. exact FileExamples.frame_example. Qed.

(* bytes written with swrite in ANY chunking ds are read back identical with sread in ANY chunking
   ns (sum of sizes = bytes written; empty chunks allowed) after sclose + sopen, after ANY prefix
   history that leaves the File closed; stell is the number of bytes written / read; seof is
   false until a read runs into the end and true afterwards *)
Theorem write_read_roundtrip_reopen :
  forall (B : Type) (zero : B) (is_ws is_digit is_sign : B -> bool) (creatable close_fails : nat -> bool)
         (fs : fsys B) (objs : nat -> fobj) (pre : list (op B)) (i p : nat) (mw mr : mode)
         (ds : list (list B)) (ns : list nat),
  (forall j h, objs j <> FObj (Some h)) ->
  let w := fst (run B zero is_ws is_digit is_sign creatable close_fails file_close_tests_closed file_close_clears_always (w_init B fs objs) pre) in
  w_objs B w i = FObj None -> creatable p = true -> close_fails p = false ->
  trunc_mode mw -> from_start_mode mr -> list_sum ns = length (concat ds) ->
  snd (run B zero is_ws is_digit is_sign creatable close_fails file_close_tests_closed file_close_clears_always w
         (reopen_history B i p mw mr ds ns)) = reopen_outcome B ds ns /\
  concat (pieces B ns (concat ds)) = concat ds.
Proof.
  intros; split; [|now apply pieces_concat]. eapply runs_closed_model; eauto.
  apply (spec_append_reopen B zero is_ws is_digit is_sign creatable close_fails (OWrite B i) (wrote B));
    auto using write_runs, m_write_trunc.
Qed.
Print Assumptions write_read_roundtrip_reopen.

Example write_read_roundtrip_reopen_nonvacuous :
  let pre := [ONewOpen nat 0 1 MW; OWrite nat 0 [9; 9]; OClose nat 0] in
  let w := fst (xrun true true pre) in
  w_objs nat w 0 = FObj None /\
  snd (run nat 0 xws xdigit xsign xcreat xfull true true w
         (reopen_history nat 0 1 MWp MR [[1; 0]; []; [0; 2; 3]] [1; 0; 3; 1]))
  = [OkUnit nat; OkWrite nat 1; OkWrite nat 0; OkWrite nat 1; OkNum nat 5; OkUnit nat; OkUnit nat;
     OkRead nat 1 [1]; OkRead nat 0 []; OkRead nat 1 [0; 0; 2]; OkRead nat 1 [3];
     OkNum nat 5; OkBool nat false; OkRead nat 0 []; OkBool nat true].
Proof. exact FileExamples.roundtrip_example. Qed.

(* the same after seeking back (SEEK_SET 0, SEEK_CUR -len, SEEK_END -len) on a "w+" stream *)
Theorem write_read_roundtrip_seek :
  forall (B : Type) (zero : B) (is_ws is_digit is_sign : B -> bool) (creatable close_fails : nat -> bool)
         (fs : fsys B) (objs : nat -> fobj) (pre : list (op B)) (i p : nat) (off : Z) (o : origin)
         (ds : list (list B)) (ns : list nat),
  (forall j h, objs j <> FObj (Some h)) ->
  let w := fst (run B zero is_ws is_digit is_sign creatable close_fails file_close_tests_closed file_close_clears_always (w_init B fs objs) pre) in
  w_objs B w i = FObj None -> creatable p = true ->
  back_to_start (length (concat ds)) off o -> list_sum ns = length (concat ds) ->
  snd (run B zero is_ws is_digit is_sign creatable close_fails file_close_tests_closed file_close_clears_always w
         (seek_history B i p off o ds ns)) = seek_outcome B ds ns /\
  concat (pieces B ns (concat ds)) = concat ds.
Proof.
  intros; split; [|now apply pieces_concat]. eapply runs_closed_model; eauto using spec_roundtrip_seek.
Qed.
Print Assumptions write_read_roundtrip_seek.

Example write_read_roundtrip_seek_nonvacuous :
  let w := fst (xrun true true []) in
  back_to_start 3 (-3)%Z SeekEnd /\
  snd (run nat 0 xws xdigit xsign xcreat xfull true true w
         (seek_history nat 3 2 (-3)%Z SeekEnd [[5]; [6; 7]] [2; 1]))
  = [OkUnit nat; OkWrite nat 1; OkWrite nat 1; OkNum nat 3; OkUnit nat;
     OkRead nat 1 [5; 6]; OkRead nat 1 [7];
     OkNum nat 3; OkBool nat false; OkRead nat 0 []; OkBool nat true].
Proof. exact FileExamples.seek_example. Qed.

(* all seek origins and all offsets inside the file: after ANY history that leaves File i open on a
   readable stream, sseek to a target t (from the start, the current position or the end), then stell
   = t, seof = false, sread of n bytes that lie inside the file returns exactly content[t, t+n), stell = t+n *)
Theorem seek_tell_read_anywhere :
  forall (B : Type) (zero : B) (is_ws is_digit is_sign : B -> bool) (creatable close_fails : nat -> bool)
         (fs : fsys B) (objs : nat -> fobj) (pre : list (op B)) (i h : nat) (off : Z) (o : origin) (n t : nat),
  (forall j h', objs j <> FObj (Some h')) ->
  let w := fst (run B zero is_ws is_digit is_sign creatable close_fails file_close_tests_closed file_close_clears_always (w_init B fs objs) pre) in
  w_objs B w i = FObj (Some h) ->
  let s := f_st (w_files B w h) in
  let c := content B (w_fs B w) (s_path s) in
  m_read (s_mode s) = true ->
  seek_target (length c) (s_pos s) off o = Some (Z.of_nat t) -> 0 < n -> t + n <= length c ->
  snd (run B zero is_ws is_digit is_sign creatable close_fails file_close_tests_closed file_close_clears_always w
         [OSeek B i off o; OTell B i; OEof B i; ORead B i n; OTell B i]) =
    [OkUnit B; OkNum B t; OkBool B false; OkRead B 1 (firstn n (skipn t c)); OkNum B (t + n)].
Proof. exact FileRoundTrip.seek_tell_read_anywhere. Qed.
Print Assumptions seek_tell_read_anywhere.

Example seek_tell_read_anywhere_nonvacuous :
  let w := fst (xrun true true [ONewOpen nat 1 2 MWp; OWrite nat 1 [10; 11; 12; 13; 14; 15]; OSeek nat 1 1%Z SeekSet]) in
  w_objs nat w 1 = FObj (Some 0) /\
  m_read (s_mode (f_st (w_files nat w 0))) = true /\
  seek_target 6 (s_pos (f_st (w_files nat w 0))) (-4)%Z SeekEnd = Some (Z.of_nat 2) /\
  snd (run nat 0 xws xdigit xsign xcreat xfull true true w
         [OSeek nat 1 (-4)%Z SeekEnd; OTell nat 1; OEof nat 1; ORead nat 1 3; OTell nat 1])
  = [OkUnit nat; OkNum nat 2; OkBool nat false; OkRead nat 1 [12; 13; 14]; OkNum nat 5].
Proof. exact FileExamples.seek_anywhere_example. Qed.

(* text: records "[sign]digits SP word NL" written by print_to(f,0,"%ld %s\n",k,w) are scanned back
   identical by scan_from(f,0,"%ld %s\n",...) after sclose + sopen, after ANY prefix history that
   leaves the File closed; seof is true after the last record and one more scan_from raises
   FormatError.  For every classification of bytes with white space, digits, signs disjoint. *)
Theorem print_scan_roundtrip_reopen :
  forall (B : Type) (zero : B) (is_ws is_digit is_sign : B -> bool) (creatable close_fails : nat -> bool) (sp nl : B),
  (forall b, is_ws b = true -> is_digit b = false) ->
  (forall b, is_digit b = true -> is_sign b = false) ->
  (forall b, is_sign b = true -> is_ws b = false) ->
  is_ws sp = true -> is_ws nl = true ->
  forall (fs : fsys B) (objs : nat -> fobj) (pre : list (op B)) (i p : nat) (mw mr : mode) (rs : list (trec B)),
  (forall j h, objs j <> FObj (Some h)) ->
  let w := fst (run B zero is_ws is_digit is_sign creatable close_fails file_close_tests_closed file_close_clears_always (w_init B fs objs) pre) in
  w_objs B w i = FObj None -> creatable p = true -> close_fails p = false ->
  trunc_mode mw -> from_start_mode mr -> Forall (well_formed B is_ws is_digit is_sign) rs ->
  snd (run B zero is_ws is_digit is_sign creatable close_fails file_close_tests_closed file_close_clears_always w
         (text_history B sp nl i p mw mr rs)) = text_outcome B sp nl rs.
Proof. intros. eapply runs_closed_model; eauto using spec_text_roundtrip. Qed.
Print Assumptions print_scan_roundtrip_reopen.

Example print_scan_roundtrip_reopen_nonvacuous :
  (forall b, xws b = true -> xdigit b = false) /\ (forall b, xdigit b = true -> xsign b = false) /\
  (forall b, xsign b = true -> xws b = false) /\
  well_formed nat xws xdigit xsign xrec1 /\ well_formed nat xws xdigit xsign xrec2 /\
  snd (xrun true true (text_history nat 32 10 2 1 MW MR [xrec1; xrec2]))
  = [OkUnit nat; OkUnit nat; OkUnit nat; OkUnit nat; OkUnit nat;
     OkScan nat [45; 55] [119; 111]; OkScan nat [49; 50] [104; 101; 108; 108; 111];
     OkBool nat true; ORaise nat FFormatError].
Proof. exact (conj FileExamples.x_ws_not_digit (conj FileExamples.x_digit_not_sign (conj FileExamples.x_sign_not_ws FileExamples.text_example))). Qed.

(* the Format sink of File has NO length bound: whatever pieces of formatted text print_to / format_to
   hand to File_Format_To (any number, any lengths - also longer than any buffer), the file holds
   exactly their concatenation: after sclose + sopen, sread in ANY chunking returns it, stell = its length *)
Theorem print_read_roundtrip_any_length :
  forall (B : Type) (zero : B) (is_ws is_digit is_sign : B -> bool) (creatable close_fails : nat -> bool)
         (fs : fsys B) (objs : nat -> fobj) (pre : list (op B)) (i p : nat) (mw mr : mode)
         (ts : list (list B)) (ns : list nat),
  (forall j h, objs j <> FObj (Some h)) ->
  let w := fst (run B zero is_ws is_digit is_sign creatable close_fails file_close_tests_closed file_close_clears_always (w_init B fs objs) pre) in
  w_objs B w i = FObj None -> creatable p = true -> close_fails p = false ->
  trunc_mode mw -> from_start_mode mr -> list_sum ns = length (concat ts) ->
  snd (run B zero is_ws is_digit is_sign creatable close_fails file_close_tests_closed file_close_clears_always w
         (print_history B i p mw mr ts ns)) = print_outcome B ts ns /\
  concat (pieces B ns (concat ts)) = concat ts.
Proof.
  intros; split; [|now apply pieces_concat]. eapply runs_closed_model; eauto.
  apply (spec_append_reopen B zero is_ws is_digit is_sign creatable close_fails (OPrint B i) (printed B));
    auto using print_runs, m_write_trunc.
Qed.
Print Assumptions print_read_roundtrip_any_length.

Example print_read_roundtrip_any_length_nonvacuous :
  let w := fst (xrun true true [ONew nat 0]) in
  let ts := [repeat 7 300; []; [60; 62; 10]] in
  w_objs nat w 0 = FObj None /\ list_sum [256; 0; 47] = length (concat ts) /\
  snd (run nat 0 xws xdigit xsign xcreat xfull true true w (print_history nat 0 1 MW MR ts [256; 0; 47]))
  = [OkUnit nat; OkUnit nat; OkUnit nat; OkUnit nat; OkNum nat 303; OkUnit nat; OkUnit nat;
     OkRead nat 1 (repeat 7 256); OkRead nat 0 []; OkRead nat 1 (repeat 7 44 ++ [60; 62; 10]);
     OkNum nat 303; OkBool nat false; OkRead nat 0 []; OkBool nat true].
Proof. exact FileExamples.print_read_example. Qed.

(* the File_Close of the pinned tree is refuted on the same model (kept next to the positive
   theorems): without the closed test sclose twice calls fclose(NULL) (D19); keeping the handle
   when fclose fails makes del close the stream a second time (D22) *)
Theorem file_close_without_closed_test_refuted :
  exists ops, In (OCrash nat) (snd (xrun false true ops)) /\
              In EvCloseNull (w_trace nat (fst (xrun false true ops))).
Proof. exists [ONew nat 0; OClose nat 0]. vm_compute. split; auto. Qed.
Print Assumptions file_close_without_closed_test_refuted.

Theorem file_close_keeping_handle_on_error_refuted :
  exists ops, In (OCrash nat) (snd (xrun true false ops)) /\
              In (EvStale 0) (w_trace nat (fst (xrun true false ops))).
Proof. exists [ONewOpen nat 0 4 MW; OWrite nat 0 [7]; OClose nat 0; ODel nat 0]. vm_compute. split; auto. Qed.
Print Assumptions file_close_keeping_handle_on_error_refuted.
