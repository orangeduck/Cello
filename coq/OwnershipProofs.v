(* OwnershipProofs.v — proofs about the ownership model (C05).
   Main invariant, for EVERY history:   held ++ dead  is a permutation of  0 .. next-1,
   i.e. every token ever issued is either held by exactly one container position or was
   destructed exactly once; nothing else is held or destructed. *)
From Coq Require Import List Arith Bool ZArith Lia Permutation.
From CelloV Require Import ListFacts Ownership.
Import ListNotations.

Local Open Scope nat_scope.

Lemma toks_app a b : toks (a ++ b) = toks a ++ toks b.
Proof. apply flat_map_app. Qed.

Lemma ptoks_app a b : ptoks (a ++ b) = ptoks a ++ ptoks b.
Proof. apply flat_map_app. Qed.

Lemma tokvs_app a b : tokvs (a ++ b) = tokvs a ++ tokvs b.
Proof. unfold tokvs. apply flat_map_app. Qed.

Lemma toks_cons x l : toks (x :: l) = tok_of x ++ toks l.
Proof. reflexivity. Qed.

Lemma ptoks_cons a b l : ptoks ((a, b) :: l) = tok_of a ++ tok_of b ++ ptoks l.
Proof. symmetry. apply app_assoc. Qed.

Lemma tok_of_same a v : tok_of (mkcell (ctok a) v) = tok_of a.
Proof. reflexivity. Qed.

Lemma fst_tokv_of x : map fst (tokv_of x) = tok_of x.
Proof. unfold tokv_of, tok_of. destruct (ctok x); reflexivity. Qed.

Lemma fst_tokvs l : map fst (tokvs l) = toks l.
Proof.
  induction l as [|x l IH]; [reflexivity|].
  change (map fst (tokv_of x ++ tokvs l) = tok_of x ++ toks l).
  rewrite map_app, fst_tokv_of, IH. reflexivity.
Qed.

Lemma fst_ptokvs l : map fst (ptokvs l) = ptoks l.
Proof.
  induction l as [|[a b] l IH]; [reflexivity|].
  change (map fst ((tokv_of a ++ tokv_of b) ++ ptokvs l) = (tok_of a ++ tok_of b) ++ ptoks l).
  rewrite !map_app, !fst_tokv_of, IH. reflexivity.
Qed.

Lemma fst_cont_tokvs c : map fst (cont_tokvs c) = cont_toks c.
Proof. destruct c as [k l|k l|[x|]]; [apply fst_tokvs | apply fst_ptokvs | apply fst_tokv_of | reflexivity]. Qed.

Lemma toks_fresh_cells nx vs : toks (fresh_cells nx vs) = seq nx (length vs).
Proof.
  revert nx. induction vs as [|v vs IH]; intros nx; [reflexivity|].
  change (nx :: toks (fresh_cells (S nx) vs) = nx :: seq (S nx) (length vs)). rewrite IH. reflexivity.
Qed.

Lemma toks_repeat_zero n : toks (repeat (mkcell None 0%Z) n) = [].
Proof. induction n as [|n IH]; [reflexivity | exact IH]. Qed.

Lemma nth_error_split_at {A} (l : list A) i x :
  nth_error l i = Some x -> l = firstn i l ++ x :: skipn (S i) l.
Proof.
  revert i. induction l as [|y l IH]; intros [|i] H; simpl in *; try discriminate.
  - congruence.
  - f_equal. apply IH. exact H.
Qed.

Lemma toks_split l i x :
  nth_error l i = Some x -> toks l = toks (firstn i l) ++ tok_of x ++ toks (skipn (S i) l).
Proof. intros E. rewrite (nth_error_split_at l i x E) at 1. apply toks_app. Qed.

Lemma ptoks_split l i a b :
  nth_error l i = Some (a, b) ->
  ptoks l = ptoks (firstn i l) ++ tok_of a ++ tok_of b ++ ptoks (skipn (S i) l).
Proof. intros E. rewrite (nth_error_split_at l i (a, b) E) at 1. rewrite ptoks_app, ptoks_cons. reflexivity. Qed.

Lemma toks_firstn_skipn i l : toks l = toks (firstn i l) ++ toks (skipn i l).
Proof. rewrite <- toks_app, firstn_skipn. reflexivity. Qed.

Local Arguments skipn : simpl never.
Local Arguments firstn : simpl never.

(* a permutation between lists of tokens built with ++ and :: is settled by counting an arbitrary token x
   on both sides: permutations and equations among the hypotheses become equations between sums of
   count_occ, which lia compares.
   pc_cons: every a :: l with l not nil becomes [a] ++ l, so that count_occ_app splits all token lists down to
   singletons *)
Ltac pc_cons :=
  repeat match goal with
  | |- context [?a :: ?l] => lazymatch l with nil => fail | _ => change (a :: l) with ([a] ++ l) end
  | H : context [?a :: ?l] |- _ => lazymatch l with nil => fail | _ => change (a :: l) with ([a] ++ l) in H end
  end.
Ltac perm_hyps x :=
  repeat match goal with
  | H : Permutation ?a ?b |- _ =>
      let H' := fresh "Hc" in pose proof (proj1 (Permutation_count_occ Nat.eq_dec a b) H x) as H'; clear H;
      rewrite ?count_occ_app in H'
  | H : @eq (list nat) _ _ |- _ =>
      apply (f_equal (fun l => count_occ Nat.eq_dec l x)) in H; cbv beta in H; rewrite ?count_occ_app in H
  end.
Ltac perm_solve :=
  pc_cons; apply (proj2 (Permutation_count_occ Nat.eq_dec _ _));
  let x := fresh "x" in intros x; perm_hyps x; rewrite ?count_occ_app; simpl count_occ in *; lia.

(* a container-level result is BALANCED w.r.t. the old token list when
   new tokens ++ killed  is a permutation of  old tokens ++ freshly issued *)
Definition balanced (old : list nat) (new : list nat) (kill : list (nat * Z)) (nx nx' : nat) : Prop :=
  exists n, nx' = nx + n /\ Permutation (new ++ map fst kill) (old ++ seq nx n).

(* the token lists of both sides and the issued tokens, as sums of their parts
   (one pass suffices: each lemma's redexes are laid bare by the lemmas before it) *)
Ltac toks_sum :=
  rewrite ?map_app, ?fst_tokv_of, ?fst_tokvs, ?fst_ptokvs, ?toks_app, ?toks_cons, ?ptoks_app, ?ptoks_cons,
    ?toks_fresh_cells, ?toks_repeat_zero, ?tok_of_same, ?app_nil_r.
(* issue n tokens; what is left is a permutation, settled by counting *)
Ltac bal n := exists n; split; [cbn; lia|]; cbn [r_val r_kill]; toks_sum; cbn [tok_of fresh ctok seq]; perm_solve.

Lemma balanced_keep old nx : balanced old old [] nx nx.
Proof. bal 0. Qed.

Lemma balanced_trans old mid new k1 k2 n1 n2 n3 :
  balanced old mid k1 n1 n2 -> balanced mid new k2 n2 n3 -> balanced old new (k1 ++ k2) n1 n3.
Proof.
  intros (a & -> & P1) (b & -> & P2). exists (a + b). split; [lia|]. rewrite map_app, seq_app. perm_solve.
Qed.

Definition seq_bal (l : list cell) (r : res (list cell)) (nx : nat) : Prop :=
  balanced (toks l) (toks (r_val r)) (r_kill r) nx (r_next r).
Definition map_bal (l : list (cell * cell)) (r : res (list (cell * cell))) (nx : nat) : Prop :=
  balanced (ptoks l) (ptoks (r_val r)) (r_kill r) nx (r_next r).

Lemma s_push_bal l v nx : seq_bal l (s_push l v nx) nx.
Proof. unfold s_push. bal 1. Qed.

Lemma s_pop_bal l nx : seq_bal l (s_pop l nx) nx.
Proof.
  unfold s_pop. destruct l as [|x l _] using rev_ind; [apply balanced_keep|].
  rewrite rev_unit, removelast_last. bal 0.
Qed.

Lemma s_push_at_bal k l i v nx : seq_bal l (s_push_at k l i v nx) nx.
Proof.
  unfold s_push_at. destruct (match k with KList => _ | _ => _ end); [|apply balanced_keep].
  pose proof (toks_firstn_skipn i l) as Hl. bal 1.
Qed.

Lemma s_pop_at_bal l i nx : seq_bal l (s_pop_at l i nx) nx.
Proof.
  unfold s_pop_at. destruct (nth_error l i) as [x|] eqn:E; [|apply balanced_keep].
  pose proof (toks_split l i x E) as Hl. bal 0.
Qed.

Lemma s_set_bal l i v nx : seq_bal l (s_set l i v nx) nx.
Proof.
  unfold s_set. destruct (nth_error l i) as [x|] eqn:E; [|apply balanced_keep].
  pose proof (toks_split l i x E) as Hl. unfold tok_of in Hl. destruct (ctok x); [bal 0 | bal 1].
Qed.

Lemma s_rem_bal l v nx : seq_bal l (s_rem l v nx) nx.
Proof. unfold s_rem. destruct (find_val l v); [apply s_pop_at_bal | apply balanced_keep]. Qed.

Lemma s_concat_bal l vs nx : seq_bal l (s_concat l vs nx) nx.
Proof. unfold s_concat. bal (length vs). Qed.

Lemma s_resize_bal k l n nx : seq_bal l (s_resize k l n nx) nx.
Proof.
  unfold s_resize. pose proof (toks_firstn_skipn n l) as Hl.
  destruct (n <? length l); [bal 0|]. destruct k; try apply balanced_keep.
  destruct (n =? 0); [apply balanced_keep | unfold keep; bal 0].
Qed.

Lemma ins_cell_perm x l : Permutation (ins_cell x l) (x :: l).
Proof.
  induction l as [|y l IH]; simpl; [apply Permutation_refl|].
  destruct (Z.leb (cval x) (cval y)); [apply Permutation_refl|].
  eapply Permutation_trans; [apply perm_skip; exact IH|apply perm_swap].
Qed.

Lemma s_sort_perm l : Permutation (s_sort l) l.
Proof.
  induction l as [|x l IH]; simpl; [apply Permutation_refl|].
  eapply Permutation_trans; [apply ins_cell_perm|apply perm_skip; exact IH].
Qed.

Lemma s_sort_bal l nx : seq_bal l (keep (s_sort l) nx) nx.
Proof.
  exists 0. split; [cbn; lia|]. cbn. rewrite !app_nil_r. apply Permutation_flat_map, s_sort_perm.
Qed.

Lemma s_assign_bal l vs nx : seq_bal l (s_assign l vs nx) nx.
Proof. unfold s_assign. bal (length vs). Qed.

Lemma m_set_bal kd l k v nx : map_bal l (m_set kd l k v nx) nx.
Proof.
  unfold m_set. destruct (m_find l k) as [i|]; [|bal 2].
  destruct (nth_error l i) as [[a b]|] eqn:E; [|apply balanced_keep].
  pose proof (ptoks_split l i a b E) as Hl.
  assert (Hnew : map_bal l (mkR (firstn i l ++ (fresh nx k, fresh (S nx) v) :: skipn (S i) l)
                                (tokv_of a ++ tokv_of b) 0 (S (S nx))) nx) by bal 2.
  destruct kd; try exact Hnew. bal 0.
Qed.

Lemma m_rem_bal l k nx : map_bal l (m_rem l k nx) nx.
Proof.
  unfold m_rem. destruct (m_find l k) as [i|]; [|apply balanced_keep].
  destruct (nth_error l i) as [[a b]|] eqn:E; [|apply balanced_keep].
  pose proof (ptoks_split l i a b E) as Hl. bal 0.
Qed.

Lemma m_set_all_bal kd kvs : forall l nx kill,
  let r := m_set_all kd l kvs nx kill in
  exists k2, r_kill r = kill ++ k2 /\ balanced (ptoks l) (ptoks (r_val r)) k2 nx (r_next r).
Proof.
  induction kvs as [|[k v] kvs IH]; intros l nx kill; simpl.
  - exists []. rewrite app_nil_r. auto using balanced_keep.
  - destruct (IH (r_val (m_set kd l k v nx)) (r_next (m_set kd l k v nx)) (kill ++ r_kill (m_set kd l k v nx)))
      as (k2 & Hk & Hb).
    exists (r_kill (m_set kd l k v nx) ++ k2). rewrite Hk, app_assoc.
    split; [reflexivity|]. eapply balanced_trans; [apply m_set_bal | exact Hb].
Qed.

Lemma m_assign_bal kd l kvs nx : map_bal l (m_assign kd l kvs nx) nx.
Proof.
  unfold m_assign, map_bal. destruct (m_set_all_bal kd kvs [] nx (ptokvs l)) as (k2 & -> & n & -> & Hp).
  exists n. split; [reflexivity|]. cbn in Hp. toks_sum. perm_solve.
Qed.

Definition otoks (oc : option cont) : list nat := match oc with Some c => cont_toks c | None => [] end.

Lemma held_app a b : held (a ++ b) = held a ++ held b.
Proof. apply flat_map_app. Qed.

Lemma held_upd cs c x old :
  nth_error cs c = Some old ->
  Permutation (held (upd cs c x) ++ otoks old) (held cs ++ otoks x).
Proof.
  revert c. induction cs as [|y cs IH]; intros [|c] H; simpl in *; try discriminate.
  - injection H as ->. fold (otoks x). fold (otoks old). perm_solve.
  - fold (otoks y). specialize (IH c H). perm_solve.
Qed.

Definition Inv (w : world) : Prop :=
  Permutation (held (conts w) ++ map fst (dead w)) (seq 0 (next w)).

Lemma getc_nth w c x : getc w c = Some x -> nth_error (conts w) c = Some (Some x).
Proof.
  unfold getc. destruct (nth_error (conts w) c) as [[y|]|]; intros H; try discriminate. congruence.
Qed.

(* map entries and boxed objects always carry a token (only List_Resize makes token-less cells) *)
Definition has_tok (c : cell) : Prop := ctok c <> None.
Definition wf_pairs (l : list (cell * cell)) : Prop := Forall (fun kv => has_tok (fst kv) /\ has_tok (snd kv)) l.
Definition wf_cont (c : cont) : Prop :=
  match c with
  | CSeq _ _ => True
  | CMap _ l => wf_pairs l
  | CBox (Some x) => has_tok x
  | CBox None => True
  end.
Definition wf_ocont (oc : option cont) : Prop := match oc with Some c => wf_cont c | None => True end.
Definition WF (w : world) : Prop := Forall wf_ocont (conts w).

(* an operation leaves the world alone, appends a new container, or replaces the contents of its
   target; in the last two cases the accounting equation holds and map entries keep their tokens *)
Inductive step_form (w : world) (o : op) : world -> Prop :=
| SF_same : step_form w o w
| SF_new x kill nx zk :
    target o = None -> balanced [] (cont_toks x) kill (next w) nx -> wf_cont x ->
    step_form w o (mkW (conts w ++ [Some x]) nx (dead w ++ kill) zk)
| SF_put c xold ox kill nx zk :
    target o = Some c -> getc w c = Some xold ->
    balanced (cont_toks xold) (otoks ox) kill (next w) nx -> (wf_cont xold -> wf_ocont ox) ->
    step_form w o (mkW (upd (conts w) c ox) nx (dead w ++ kill) zk).

Lemma has_tok_fresh nx v : has_tok (fresh nx v).
Proof. discriminate. Qed.

Lemma m_set_wf kd l k v nx : wf_pairs l -> wf_pairs (r_val (m_set kd l k v nx)).
Proof.
  intros H. unfold m_set. destruct (m_find l k) as [i|]; simpl.
  - destruct (nth_error l i) as [[a b]|] eqn:E; [|exact H].
    rewrite (nth_error_split_at l i _ E) in H. apply Forall_app in H as [Hf H]. apply Forall_cons_iff in H as [[Ha Hb] Hs].
    destruct kd; simpl; (apply Forall_app; split; [exact Hf|]); (constructor; [|exact Hs]);
      simpl; auto using has_tok_fresh.
  - apply Forall_app. split; [exact H|]. constructor; [|constructor]. simpl. auto using has_tok_fresh.
Qed.

Lemma m_rem_wf l k nx : wf_pairs l -> wf_pairs (r_val (m_rem l k nx)).
Proof.
  intros H. unfold m_rem. destruct (m_find l k) as [i|]; [|exact H].
  destruct (nth_error l i) as [[a b]|] eqn:E; [|exact H]. simpl.
  rewrite (nth_error_split_at l i _ E) in H. apply Forall_app in H as [Hf H]. apply Forall_cons_iff in H as [_ Hs].
  apply Forall_app. auto.
Qed.

Lemma m_set_all_wf kd kvs : forall l nx kill, wf_pairs l -> wf_pairs (r_val (m_set_all kd l kvs nx kill)).
Proof.
  induction kvs as [|[k v] kvs IH]; intros l nx kill H; simpl; [exact H|].
  apply IH. apply m_set_wf. exact H.
Qed.

Section StepForm.
  Variables (w : world) (o : op).

  Lemma sf_new x nx zk :
    target o = None -> balanced [] (cont_toks x) [] (next w) nx -> wf_cont x ->
    step_form w o (mkW (conts w ++ [Some x]) nx (dead w) zk).
  Proof. rewrite <- (app_nil_r (dead w)). apply SF_new. Qed.

  Lemma sf_new_map k kvs :
    target o = None ->
    let r := m_set_all k [] kvs (next w) [] in
    step_form w o (mkW (conts w ++ [Some (CMap k (r_val r))]) (r_next r) (dead w ++ r_kill r) (zdead w)).
  Proof.
    intros Ht r. destruct (m_set_all_bal k kvs [] (next w) []) as (k2 & Hk & Hb).
    apply SF_new; [exact Ht | fold r in Hk; rewrite Hk; exact Hb | apply m_set_all_wf; constructor].
  Qed.

  Lemma sf_seq c k k' l r :
    target o = Some c -> getc w c = Some (CSeq k' l) -> seq_bal l r (next w) ->
    step_form w o (put_seq w c k r).
  Proof. intros Ht G Hb. eapply SF_put; eauto. Qed.

  Lemma sf_map c k k' l r :
    target o = Some c -> getc w c = Some (CMap k' l) -> map_bal l r (next w) ->
    (wf_pairs l -> wf_pairs (r_val r)) -> step_form w o (put_map w c k r).
  Proof. intros Ht G Hb Hw. eapply SF_put; eauto. Qed.
End StepForm.

Lemma bal_fresh_cells nx vs : balanced [] (toks (fresh_cells nx vs)) [] nx (nx + length vs).
Proof. bal (length vs). Qed.

#[local] Hint Resolve s_push_bal s_pop_bal s_push_at_bal s_pop_at_bal s_set_bal s_rem_bal s_concat_bal
  s_resize_bal s_sort_bal s_assign_bal m_set_bal m_rem_bal m_assign_bal m_set_wf m_rem_wf : balance.

Lemma step_has_form w o : step_form w o (step w o).
Proof.
  destruct o as [k vs|k kvs|v|c v|c|c i v|c i|c i v|c v|c d|c n|c|c d|d|c|c k v|c k]; cbn [step].
  (* OPush .. ORem, OMSet, OMRem: one container-level operation on the target *)
  4-9, 16-17: destruct (getc w c) as [[k' l|k' l|b]|] eqn:G; try apply SF_same;
    (eapply sf_seq || eapply sf_map); eauto with balance.
  - destruct (is_seq_kind k); [|apply SF_same]. apply sf_new; [reflexivity | apply bal_fresh_cells | exact I].
  - destruct (is_seq_kind k); [apply SF_same|]. apply sf_new_map. reflexivity.
  - apply sf_new; [reflexivity | bal 1 | apply has_tok_fresh].
  - destruct (c =? d); [apply SF_same|].
    destruct (getc w c) as [[k l|k l|b]|] eqn:G; try apply SF_same.
    destruct (getc w d) as [[k' l'|k' l'|b']|]; try apply SF_same. eapply sf_seq; eauto with balance.
  - destruct (getc w c) as [[k l|k l|b]|] eqn:G; try apply SF_same.
    + eapply sf_seq; eauto with balance.
    + destruct (n =? 0); [|apply SF_same]. eapply sf_map; eauto; [bal 0 | constructor].
  - destruct (getc w c) as [[[] l|k l|b]|] eqn:G; try apply SF_same. eapply sf_seq; eauto with balance.
  - destruct (c =? d); [apply SF_same|].
    destruct (getc w c) as [[k l|k l|b]|] eqn:G; try apply SF_same;
      (destruct (getc w d) as [[k' l'|k' l'|b']|]; try apply SF_same).
    + eapply sf_seq; eauto with balance.
    + eapply sf_map; eauto with balance. intros _. apply m_set_all_wf. constructor.
  - destruct (getc w d) as [[k l|k l|b]|]; try apply SF_same.
    + apply sf_new; [reflexivity | apply bal_fresh_cells | exact I].
    + apply sf_new_map. reflexivity.
  - destruct (getc w c) as [x|] eqn:G; [|apply SF_same].
    eapply (SF_put _ _ c x None); eauto; [|exact (fun _ => I)].
    exists 0. split; [lia|]. rewrite fst_cont_tokvs. cbn. rewrite !app_nil_r. apply Permutation_refl.
Qed.

Lemma step_inv w o : Inv w -> Inv (step w o).
Proof.
  unfold Inv. intros HI. destruct (step_has_form w o) as [|x kill nx zk _ (n & -> & Hp) _|c xold ox kill nx zk _ G (n & -> & Hp) _];
    [exact HI | |]; cbn [conts next dead]; rewrite map_app, seq_app.
  - rewrite held_app. unfold held at 2. cbn [flat_map]. rewrite app_nil_r. cbn in Hp. perm_solve.
  - pose proof (held_upd (conts w) c ox (Some xold) (getc_nth _ _ _ G)) as Hu. cbn [otoks] in Hu. perm_solve.
Qed.

Lemma run_invariant (P : world -> Prop) :
  P w_init -> (forall w o, P w -> P (step w o)) -> forall ops, P (run ops).
Proof.
  intros H0 Hstep ops. unfold run. revert H0. generalize w_init.
  induction ops as [|o ops IH]; intros w H; simpl; auto.
Qed.

Theorem run_inv ops : Inv (run ops).
Proof. apply run_invariant; [apply Permutation_refl | exact step_inv]. Qed.

Lemma world_eta w : w = mkW (conts w) (next w) (dead w) (zdead w).
Proof. destruct w; reflexivity. Qed.

Lemma count_seq n t : count_occ Nat.eq_dec (seq 0 n) t = if t <? n then 1 else 0.
Proof.
  destruct (Nat.ltb_spec t n).
  - apply NoDup_count_occ'; [apply seq_NoDup | apply in_seq; lia].
  - apply count_occ_not_In. rewrite in_seq. lia.
Qed.

Theorem ownership_exactly_once ops :
  let w := run ops in
  NoDup (held (conts w)) /\                                   (* no element is held twice (deep copies, no duplication) *)
  NoDup (map fst (dead w)) /\                                 (* no element is destructed twice *)
  (forall t, In t (held (conts w)) -> ~ In t (map fst (dead w))) /\   (* never destructed while contained *)
  (forall t, In t (map fst (dead w)) -> t < next w) /\        (* only issued tokens are destructed *)
  (forall t, t < next w -> In t (held (conts w)) \/ In t (map fst (dead w))) /\   (* nothing is dropped *)
  length (held (conts w)) + length (dead w) = next w.          (* live = issued - destructed = held *)
Proof.
  (* a token below next w occurs once in held ++ dead, any other token not at all *)
  intros w. pose proof (run_inv ops) as HI. fold w in HI. unfold Inv in HI.
  assert (C : forall t, count_occ Nat.eq_dec (held (conts w)) t + count_occ Nat.eq_dec (map fst (dead w)) t =
                        if t <? next w then 1 else 0)
    by (intros t; rewrite <- count_occ_app, <- count_seq; apply Permutation_count_occ, HI).
  apply Permutation_length in HI. rewrite app_length, map_length, seq_length in HI.
  repeat split; [apply (NoDup_count_occ Nat.eq_dec) | apply (NoDup_count_occ Nat.eq_dec) | | | | exact HI].
  all: intros t; specialize (C t); rewrite ?(count_occ_In Nat.eq_dec); destruct (Nat.ltb_spec t (next w)); lia.
Qed.

(* `upd` here is Ownership.upd, which is ListFacts.upd by conversion; the ListFacts lemmas apply as they stand *)
Theorem step_frame w o j :
  j < length (conts w) -> target o <> Some j -> nth_error (conts (step w o)) j = nth_error (conts w) j.
Proof.
  intros Hj Ht. destruct (step_has_form w o) as [| |c xold ox kill nx zk Hc]; cbn [conts].
  - reflexivity.
  - apply nth_error_app1, Hj.
  - apply nth_error_upd_ne. congruence.
Qed.

Lemma step_wf w o : WF w -> WF (step w o).
Proof.
  unfold WF. intros HW. destruct (step_has_form w o) as [|x kill nx zk _ _ Hx|c xold ox kill nx zk _ G _ Hx];
    cbn [conts].
  - exact HW.
  - apply Forall_app. auto.
  - apply Forall_upd; [exact HW|]. apply Hx. apply getc_nth, nth_error_In in G.
    exact (proj1 (Forall_forall _ _) HW _ G).
Qed.

Lemma run_wf ops : WF (run ops).
Proof. apply run_invariant; [constructor | exact step_wf]. Qed.

Lemma toks_zeros l : length (toks l) + zeros l = length l.
Proof.
  induction l as [|x l IH]; [reflexivity|].
  rewrite toks_cons, app_length. unfold zeros in *. simpl. unfold tok_of. destruct (ctok x); simpl; lia.
Qed.

Lemma wf_pairs_len l : wf_pairs l -> length (ptoks l) = 2 * length l.
Proof.
  induction 1 as [|[a b] l [Ha Hb] _ IH]; [reflexivity|].
  rewrite ptoks_cons, !app_length, IH. unfold tok_of, has_tok in *. cbn [fst snd] in *.
  destruct (ctok a); [|congruence]. destruct (ctok b); [|congruence]. simpl. lia.
Qed.

Lemma cont_count c : wf_cont c -> length (cont_toks c) + cont_zeros c = cont_len c.
Proof.
  destruct c as [k l|k l|[x|]]; simpl; intros H.
  - apply toks_zeros.
  - rewrite (wf_pairs_len l H). lia.
  - unfold tok_of. unfold has_tok in H. destruct (ctok x); [reflexivity|congruence].
  - reflexivity.
Qed.

Lemma held_count cs : Forall wf_ocont cs -> length (held cs) + total_zeros cs = total_len cs.
Proof.
  induction 1 as [|[c|] cs Hc _ IH]; [reflexivity| |exact IH].
  change (held (Some c :: cs)) with (cont_toks c ++ held cs). simpl. rewrite app_length.
  pose proof (cont_count c Hc). lia.
Qed.

(* at every moment the number of live elements equals the sum of the container lengths
   (keys and values both counted), zero-filled List elements counted apart *)
Theorem live_equals_lengths ops :
  let w := run ops in
  next w - length (dead w) = length (held (conts w)) /\
  length (held (conts w)) + total_zeros (conts w) = total_len (conts w).
Proof.
  intros w. split.
  - destruct (ownership_exactly_once ops) as [_ [_ [_ [_ [_ H]]]]]. fold w in H. lia.
  - apply held_count. exact (run_wf ops).
Qed.

(* copies are deep: the tokens of a fresh copy are disjoint from everything held before *)
Theorem copy_is_deep ops d :
  let w := run ops in let w' := step w (OCopy d) in
  forall t, In t (held (conts w)) -> In t (held (conts w')) /\
  (forall x, nth_error (conts w') (length (conts w)) = Some (Some x) -> ~ In t (cont_toks x)).
Proof.
  intros w w' t Ht.
  assert (ND : NoDup (held (conts w'))).
  { pose proof (ownership_exactly_once (ops ++ [OCopy d])) as H. unfold run in H. rewrite fold_left_app in H. apply H. }
  revert ND. unfold w'. destruct (step_has_form w (OCopy d)) as [|x kill nx zk|c xold ox kill nx zk Hc]; cbn [conts];
    intros ND; [| |discriminate Hc].
  - split; [exact Ht|]. intros x Hn.
    assert (length (conts w) < length (conts w)) by (apply nth_error_Some; congruence). lia.
  - rewrite held_app in *. split; [apply in_or_app; auto|].
    intros y Hn. rewrite nth_error_app_len in Hn. injection Hn as <-.
    (* t occurs in the old containers, and at most once in all *)
    rewrite (NoDup_count_occ Nat.eq_dec) in ND. specialize (ND t). rewrite count_occ_app in ND.
    cbn [held flat_map] in ND. rewrite app_nil_r in ND.
    apply (count_occ_In Nat.eq_dec) in Ht. apply (count_occ_not_In Nat.eq_dec). lia.
Qed.

(* a history with signed indices is a history of plain operations (Ownership.resolve) *)
Lemma srun_is_run ss : exists ops, srun ss = run ops /\ length ops = length ss.
Proof.
  induction ss as [|s ss IH] using rev_ind.
  - exists []. split; reflexivity.
  - destruct IH as [ops [E L]]. exists (ops ++ [resolve (run ops) s]). split.
    + unfold srun, run in *. rewrite !fold_left_app. cbn [fold_left]. rewrite E. reflexivity.
    + rewrite !app_length, L. reflexivity.
Qed.

Lemma srun_transfer (P : world -> Prop) : (forall ops, P (run ops)) -> forall ss, P (srun ss).
Proof. intros H ss. destruct (srun_is_run ss) as [ops [-> _]]. apply H. Qed.
