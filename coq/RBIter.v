(* RBIter.v — proofs about the Tree model (RBTree.v), part 3: ITERATION.
   Tree_Iter_Init/Next (leftmost, then successor by right-subtree-leftmost or climbing while
   coming from the right) enumerate exactly the keys of the in-order list; Tree_Iter_Last/Prev
   enumerate its reverse; the caller's loop needs at most nitems+1 rounds (fuel adequacy).
   Independent of colours and of the key order. *)
From Coq Require Import List Arith Lia.
From CelloV Require Import RBTree RBProofs.
Import ListNotations.

Section Iter.
  Variables K V : Type.

  Notation tree := (tree K V).
  Notation pos := (pos K V).
  Notation inorder := (inorder K V).
  Notation pl := (pl K V).
  Notation pr := (pr K V).
  Notation kv := (K * V)%type.

  Definition keys (l : list kv) : list K := map fst l.

  Lemma inorder_nil : forall t : tree, inorder t = [] -> t = E.
  Proof. destruct t; simpl; auto. intros H. destruct (inorder t1); discriminate. Qed.

  (* the position is a node and L is what forward iteration has still to visit, the node included /
     what backward iteration has still to visit, in forward order *)
  Definition next_from (ps : pos) (L : list kv) : Prop :=
    exists c l k v r p, ps = (T c l k v r, p) /\ L = (k, v) :: inorder r ++ pr p.
  Definition prev_from (ps : pos) (L : list kv) : Prop :=
    exists c l k v r p, ps = (T c l k v r, p) /\ L = pl p ++ inorder l ++ [(k, v)].

  (* Tree_Iter_Init / Tree_Iter_Last walk down like Tree_Minimum / Tree_Maximum:
     leftmost and min_node, rightmost and max_node have the same body in RBTree.v *)
  Lemma leftmost_from : forall t q, t <> E -> next_from (leftmost K V t q) (inorder t ++ pr q).
  Proof.
    intros t q Hne. destruct (min_node_spec K V t Hne) as (k & v & _ & H).
    destruct (H q) as (c & r & q' & H1 & H2 & _). exists c, E, k, v, r, q'. auto.
  Qed.

  Lemma rightmost_from : forall t q, t <> E -> prev_from (rightmost K V t q) (pl q ++ inorder t).
  Proof.
    intros t q Hne. destruct (max_node_spec K V t Hne) as (k & v & _ & H).
    destruct (H q) as (c & l & q' & H1 & H2 & _). exists c, l, k, v, E, q'. auto.
  Qed.

  Lemma climb_next_spec : forall p (t : tree),
    match climb_next K V t p with None => pr p = [] | Some ps => next_from ps (pr p) end.
  Proof. induction p as [|[[] c k v s] p IH]; intros t; simpl; try apply IH; auto. exists c, t, k, v, s, p. auto. Qed.

  Lemma climb_prev_spec : forall p (t : tree),
    match climb_prev K V t p with None => pl p = [] | Some ps => prev_from ps (pl p) end.
  Proof. induction p as [|[[] c k v s] p IH]; intros t; simpl; try apply IH; auto. exists c, s, k, v, t, p. auto. Qed.

  Lemma iter_next_spec : forall c l k v r p,
    exists nx, iter_next K V (T c l k v r, p) = Ok nx /\
      match nx with None => inorder r ++ pr p = [] | Some ps => next_from ps (inorder r ++ pr p) end.
  Proof.
    intros c l k v r p. unfold iter_next. destruct r as [|rc rl rk rv rr]; (eexists; split; [reflexivity|]).
    - apply climb_next_spec.
    - apply (leftmost_from _ (F K V DR c k v l :: p)). discriminate.
  Qed.

  Lemma iter_prev_spec : forall c l k v r p,
    exists nx, iter_prev K V (T c l k v r, p) = Ok nx /\
      match nx with None => pl p ++ inorder l = [] | Some ps => prev_from ps (pl p ++ inorder l) end.
  Proof.
    intros c l k v r p. unfold iter_prev. destruct l as [|lc ll lk lv lr]; (eexists; split; [reflexivity|]).
    - rewrite app_nil_r. apply climb_prev_spec.
    - apply (rightmost_from _ (F K V DL c k v r :: p)). discriminate.
  Qed.

  Lemma iter_loop_next : forall fuel ps L, next_from ps L -> length L <= fuel ->
    iter_loop K V (iter_next K V) fuel (Some ps) = Ok (keys L).
  Proof.
    induction fuel as [|f IH]; intros ps L (c & l & k & v & r & p & -> & ->) Hl; simpl in Hl; [lia|].
    cbn [iter_loop]. destruct (iter_next_spec c l k v r p) as ([ps'|] & -> & Hs); cbn [rbind].
    - rewrite (IH ps' _ Hs) by lia. reflexivity.
    - rewrite Hs. destruct f; reflexivity.
  Qed.

  Lemma iter_loop_prev : forall fuel ps L, prev_from ps L -> length L <= fuel ->
    iter_loop K V (iter_prev K V) fuel (Some ps) = Ok (rev (keys L)).
  Proof.
    induction fuel as [|f IH]; intros ps L (c & l & k & v & r & p & -> & ->) Hl;
      rewrite app_assoc, app_length in Hl; simpl in Hl; [lia|].
    rewrite app_assoc. unfold keys. rewrite map_app, rev_app_distr.
    cbn [iter_loop]. destruct (iter_prev_spec c l k v r p) as ([ps'|] & -> & Hs); cbn [rbind].
    - rewrite (IH ps' _ Hs) by lia. reflexivity.
    - rewrite Hs. destruct f; reflexivity.
  Qed.

  Lemma iter_forward_spec : forall t : rbt K V,
    nitems K V t = length (inorder (root K V t)) ->
    iter_forward K V t = Ok (keys (inorder (root K V t))).
  Proof.
    intros [rt [|n]] Hn; simpl in Hn; unfold iter_forward, iter_init; cbn [nitems root].
    - symmetry in Hn. apply length_zero_iff_nil in Hn as ->. reflexivity.
    - destruct rt as [|c l k v r]; [discriminate|]. cbn [rbind]. apply iter_loop_next; [|lia].
      rewrite <- (app_nil_r (inorder _)). now apply (leftmost_from _ []).
  Qed.

  Lemma iter_backward_spec : forall t : rbt K V,
    nitems K V t = length (inorder (root K V t)) ->
    iter_backward K V t = Ok (rev (keys (inorder (root K V t)))).
  Proof.
    intros [rt [|n]] Hn; simpl in Hn; unfold iter_backward, iter_last; cbn [nitems root].
    - symmetry in Hn. apply length_zero_iff_nil in Hn as ->. reflexivity.
    - destruct rt as [|c l k v r]; [discriminate|]. cbn [rbind]. apply iter_loop_prev; [|lia].
      now apply (rightmost_from (T c l k v r) []).
  Qed.
End Iter.
