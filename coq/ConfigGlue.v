(* ConfigGlue.v — property C18: the hypotheses of the configuration theorems discharged from what other
   properties prove (no new model, only translations and instantiations).

   Part 1 (C08): the cache-soundness hypothesis `cache_ok` of ConfigProofs follows from the invariant `inv` of
           the dispatch model (DispatchProofs); restated directly over that model: with the wiring generated
           from Type.c and with no cache at all, every lookup history from a cold type returns the same
           (declared) instances.
   Part 2 (C01): the register-machine heap of Config.v is translated into a heap graph of HeapGraph.v (nodes =
           bound addresses, contents = the stored references as words of a plain struct, every node
           registered and none root-flagged, stack = the registers); reachability is preserved; the collector
           of MarkSweep.v run on the translation, with the freed addresses removed, is `collector_safe` by
           `MarkSweepProofs.collect_safe_thm`, so that collector transparency holds for it without hypothesis.
   Part 3 (C04/C12): the Array bodies of Config.v under the default build compute exactly `spec_step KArray`
           of SeqModels.v (the abstract sequence C04's memory-level model `a_step` is proved to refine along
           every history, raising the documented exception outside the contract), so the configuration
           theorems for Array speak about the model that is compared with the library.

   The modules of the other properties are only `Require`d (not imported): their names are used qualified. *)
From Coq Require Import List Arith Bool ZArith NArith String Lia.
From CelloV Require Import Generated Config ConfigProofs.
From CelloV Require Dispatch DispatchProofs HeapGraph MarkSweep MarkSweepProofs.
Import ListNotations.

Lemma cfg_wiring_nodup : NoDup (map fst cfg_cache_wiring).
Proof. exact (nodupb_spec _ (proj1 cache_wiring_audited)). Qed.

Lemma cfg_wiring_bound : forall i c, In (i, c) cfg_cache_wiring -> i < cello_cache_num.
Proof.
  intros i c H. destruct cache_wiring_audited as (_ & Hb & _).
  rewrite forallb_forall in Hb. apply Hb, andb_prop in H as [H _]. apply Nat.ltb_lt, H.
Qed.

(* cache on (any wiring whose slots are distinct and inside the ncache cache words) and cache off (no wiring, no cache
   words) in C08's dispatch model: every history of lookups from a cold type succeeds in both and returns the same
   list, the instance the type declares for each class.  sn, rr: C08's two entry-shape parameters (NULL not stored;
   word re-read) *)
Lemma cache_on_off_agree :
  forall cn w ncache sn rr, NoDup (map fst w) -> (forall i c, In (i, c) w -> i < ncache) ->
  forall D h, exists Ton Toff,
    Dispatch.run_history cn w sn rr (Dispatch.cold_type ncache D) h
      = Some (Ton, map (fun kc => DispatchProofs.dspec cn D (snd kc)) h) /\
    Dispatch.run_history cn [] sn rr (Dispatch.cold_type 0 D) h
      = Some (Toff, map (fun kc => DispatchProofs.dspec cn D (snd kc)) h).
Proof.
  intros cn w ncache sn rr Hn Hb D h.
  destruct (DispatchProofs.every_history_from_cold cn w sn rr ncache Hn Hb D h) as [Ton [Hon _]].
  destruct (DispatchProofs.every_history_from_cold cn [] sn rr 0 (NoDup_nil _) (fun i c (H : In (i, c) []) => match H with end) D h)
    as [Toff [Hoff _]].
  eauto.
Qed.

(* the wiring generated from Type_Instance, CELLO_CACHE_NUM words *)
Theorem cache_on_off_agree_for_the_generated_wiring :
  forall (cn : Dispatch.cls -> string) (sn rr : bool)   (* sn, rr: C08's two entry-shape parameters (NULL not stored; word re-read): any *)
         (D : list (string * Dispatch.inst)) (h : list (Dispatch.kind * Dispatch.cls)),
  exists Ton Toff,
    Dispatch.run_history cn cfg_cache_wiring sn rr (Dispatch.cold_type cello_cache_num D) h
      = Some (Ton, map (fun kc => DispatchProofs.dspec cn D (snd kc)) h) /\
    Dispatch.run_history cn [] sn rr (Dispatch.cold_type 0 D) h
      = Some (Toff, map (fun kc => DispatchProofs.dspec cn D (snd kc)) h).
Proof. intros cn sn rr. exact (cache_on_off_agree cn _ _ sn rr cfg_wiring_nodup cfg_wiring_bound). Qed.

(* the same for the wiring as C08 itself reads it off the source (class = index among the builtin objects) *)
Theorem cache_on_off_agree_for_c08_wiring :
  forall (sn rr : bool) (D : list (string * Dispatch.inst)) (h : list (Dispatch.kind * Dispatch.cls)),
  exists Ton Toff,
    Dispatch.run_history DispatchProofs.cn_b DispatchProofs.wiring_b sn rr (Dispatch.cold_type cello_cache_num D) h
      = Some (Ton, map (fun kc => DispatchProofs.dspec DispatchProofs.cn_b D (snd kc)) h) /\
    Dispatch.run_history DispatchProofs.cn_b [] sn rr (Dispatch.cold_type 0 D) h
      = Some (Toff, map (fun kc => DispatchProofs.dspec DispatchProofs.cn_b D (snd kc)) h).
Proof.
  intros sn rr. exact (cache_on_off_agree _ _ _ sn rr DispatchProofs.wiring_b_nodup DispatchProofs.wiring_b_bound).
Qed.

(* the two models read the wiring and the declaration alike *)
Lemma slot_of_wired : forall c, slot_of c = Dispatch.wired_slot cfg_cache_wiring c.
Proof.
  intro c. unfold slot_of. induction cfg_cache_wiring as [| [i l] r IH]; simpl; [reflexivity |].
  rewrite (Nat.eqb_sym c l). destruct (Nat.eqb l c); [reflexivity | exact IH].
Qed.

Lemma scan_decl_lookup : forall dl c, scan dl c = Dispatch.decl_lookup dl c.
Proof. induction dl as [| [c' i] r IH]; intro c; simpl; [reflexivity |]. rewrite IH. reflexivity. Qed.

(* C08's invariant of a type record implies the soundness hypothesis of the configuration theorems for the
   same cache words seen as a Config.tyobj (classes with pairwise distinct names, as C08 needs for the reading
   by class identity) *)
Theorem c08_invariant_gives_sound_caches :
  forall (cn : Dispatch.cls -> string) (dl : list (Dispatch.cls * Dispatch.inst)) (ncache : nat) (T : Dispatch.trec),
  (forall c c', In c' (map fst dl) -> cn c' = cn c -> c' = c) ->
  DispatchProofs.inv cn cfg_cache_wiring ncache (map (fun d => (cn (fst d), snd d)) dl) T ->
  cache_ok (mkTy (Dispatch.cache T) dl).
Proof.
  intros cn dl ncache T Hnames (Hd & (Hlen & Hc) & Hm) c i x Hs Hn. simpl in *.
  rewrite slot_of_wired in Hs.
  specialize (Hc i x c Hn Hs).
  rewrite (DispatchProofs.dspec_decl_lookup cn dl c (Hnames c)) in Hc.
  rewrite scan_decl_lookup. exact Hc.
Qed.

(* hence: after ANY history of lookups in C08's model, started from the cold type a declaration builds, the
   cache words are sound in the sense the configuration theorems need — the hypothesis `types_ok` of
   config_independent / history_config_independent is what the dispatch code maintains by itself *)
Theorem sound_caches_after_every_lookup_history :
  forall (cn : Dispatch.cls -> string) (sn rr : bool) (dl : list (Dispatch.cls * Dispatch.inst)) (h : list (Dispatch.kind * Dispatch.cls)),
  (forall c c', In c' (map fst dl) -> cn c' = cn c -> c' = c) ->
  exists T' r, Dispatch.run_history cn cfg_cache_wiring sn rr (Dispatch.type_of_decl cn cello_cache_num dl) h = Some (T', r) /\
               cache_ok (mkTy (Dispatch.cache T') dl) /\
               r = map (fun kc => scan dl (snd kc)) h.
Proof.
  intros cn sn rr dl h Hnames. unfold Dispatch.type_of_decl.
  destruct (DispatchProofs.every_history_from_cold cn cfg_cache_wiring sn rr cello_cache_num
              cfg_wiring_nodup cfg_wiring_bound (map (fun d => (cn (fst d), snd d)) dl) h) as [T' [Hr Hinv]].
  exists T', (map (fun kc => DispatchProofs.dspec cn (map (fun d => (cn (fst d), snd d)) dl) (snd kc)) h).
  split; [exact Hr |]. split.
  - eapply c08_invariant_gives_sound_caches; eassumption.
  - apply map_ext. intros [k c]. simpl.
    rewrite (DispatchProofs.dspec_decl_lookup cn dl c (Hnames c)). symmetry. apply scan_decl_lookup.
Qed.

Local Open Scope N_scope.

(* addresses of the register machine as word-aligned non-NULL machine words *)
Definition gw (a : addr) : HeapGraph.word := 8 * N.of_nat (S a).

Local Arguments gw : simpl never.
Local Arguments HeapGraph.nset : simpl never.
Local Arguments HeapGraph.nget : simpl never.
Local Arguments HeapGraph.nempty : simpl never.

Lemma gw_nonzero : forall a, gw a <> 0.
Proof. intro a. unfold gw. lia. Qed.
Lemma gw_inj : forall a b, gw a = gw b -> a = b.
Proof. intros a b H. unfold gw in H. lia. Qed.
Lemma gw_mod8 : forall a, gw a mod 8 = 0.
Proof. intro a. unfold gw. rewrite N.mul_comm. apply N.mod_mul. discriminate. Qed.

(* an object of the register machine is a plain struct: the collector looks at each of its words *)
Definition emb_obj (o : gobj) : HeapGraph.contents := HeapGraph.Words (map gw (fields o)).

(* the two translations below are one fold, with the contents resp. the root flag as payload: emb_heap and
   emb_reg are convertible with emb_map emb_obj and emb_map (fun _ => false), so the lemmas about them are
   instances of those about emb_map *)
Definition emb_map {A} (f : gobj -> A) : heap -> HeapGraph.nmap A :=
  fix emb (h : heap) :=
    match h with
    | [] => HeapGraph.nempty
    | (a, o) :: t => HeapGraph.nset (gw a) (f o) (emb t)
    end.

Fixpoint emb_heap (h : heap) : HeapGraph.heap :=
  match h with
  | [] => HeapGraph.nempty
  | (a, o) :: t => HeapGraph.nset (gw a) (emb_obj o) (emb_heap t)       (* newest binding first: it wins *)
  end.

(* every bound address is a registered, not root-flagged entry *)
Fixpoint emb_reg (h : heap) : HeapGraph.registry :=
  match h with
  | [] => HeapGraph.nempty
  | (a, _) :: t => HeapGraph.nset (gw a) false (emb_reg t)
  end.

Definition emb_stack (rs : roots) : list HeapGraph.word :=
  flat_map (fun r : option addr => match r with Some a => [gw a] | None => [] end) rs.

Definition emb_keys (h : heap) : list HeapGraph.word := map (fun e : addr * gobj => gw (fst e)) h.
Definition emb_order (h : heap) : list HeapGraph.word := nodup N.eq_dec (emb_keys h).
Definition emb_max (h : heap) : N := fold_right N.max 0 (emb_keys h).

Lemma nget_emb_map : forall {A} (f : gobj -> A) h a,
  HeapGraph.nget (gw a) (emb_map f h) = option_map f (hget h a).
Proof.
  induction h as [| [x o] t IH]; intro a; simpl; [apply MarkSweepProofs.nget_nempty |].
  destruct (Nat.eqb_spec a x) as [-> | E].
  - apply MarkSweepProofs.nget_nset_same, gw_nonzero.
  - rewrite MarkSweepProofs.nget_nset_other; [apply IH | intros H%gw_inj; contradiction].
Qed.

Lemma nget_emb_map_inv : forall {A} (f : gobj -> A) h p c, HeapGraph.nget p (emb_map f h) = Some c ->
  exists a o, p = gw a /\ hget h a = Some o /\ c = f o.
Proof.
  induction h as [| [x o] t IH]; intros p c H; simpl in H.
  - rewrite MarkSweepProofs.nget_nempty in H. discriminate.
  - destruct (N.eq_dec p (gw x)) as [-> | E].
    + rewrite MarkSweepProofs.nget_nset_same in H by apply gw_nonzero. injection H as <-.
      exists x, o. simpl. rewrite Nat.eqb_refl. auto.
    + rewrite MarkSweepProofs.nget_nset_other in H by exact E.
      destruct (IH p c H) as (a & o' & -> & Hg & Hc). exists a, o'. simpl.
      destruct (Nat.eqb_spec a x) as [-> | _]; [contradiction | auto].
Qed.

Lemma nget_emb_heap : forall h a, HeapGraph.nget (gw a) (emb_heap h) = option_map emb_obj (hget h a).
Proof. exact (nget_emb_map emb_obj). Qed.

Lemma nget_emb_heap_inv : forall h p c, HeapGraph.nget p (emb_heap h) = Some c ->
  exists a o, p = gw a /\ hget h a = Some o /\ c = emb_obj o.
Proof. exact (nget_emb_map_inv emb_obj). Qed.

Lemma nget_emb_reg : forall h a,
  HeapGraph.nget (gw a) (emb_reg h) = match hget h a with Some _ => Some false | None => None end.
Proof. exact (nget_emb_map (fun _ => false)). Qed.

Lemma nget_emb_reg_inv : forall h p r, HeapGraph.nget p (emb_reg h) = Some r ->
  r = false /\ exists a o, p = gw a /\ hget h a = Some o.
Proof. intros h p r (a & o & Hp & Hg & Hr)%(nget_emb_map_inv (fun _ => false)). eauto. Qed.

Lemma registered_emb : forall h a, HeapGraph.registered (emb_reg h) (gw a) = true <-> hget h a <> None.
Proof.
  intros h a. unfold HeapGraph.registered. rewrite nget_emb_reg. destruct (hget h a); split; intro; congruence.
Qed.

Lemma registered_emb_inv : forall h p, HeapGraph.registered (emb_reg h) p = true ->
  exists a o, p = gw a /\ hget h a = Some o.
Proof.
  intros h p H. unfold HeapGraph.registered in H.
  destruct (HeapGraph.nget p (emb_reg h)) as [r |] eqn:E; [| discriminate]. apply (nget_emb_reg_inv h p r E).
Qed.

Lemma is_root_emb : forall h p, HeapGraph.is_root (emb_reg h) p = false.
Proof.
  intros h p. unfold HeapGraph.is_root.
  destruct (HeapGraph.nget p (emb_reg h)) as [r |] eqn:E; [| reflexivity]. apply (nget_emb_reg_inv h p r E).
Qed.

Lemma keys_hget : forall h a, In (gw a) (emb_keys h) <-> hget h a <> None.
Proof.
  induction h as [| [x o] t IH]; intro a; simpl; [split; [intros [] | congruence] |].
  destruct (Nat.eqb_spec a x) as [-> | E]; [split; [discriminate | auto] |].
  rewrite <- IH. split; [intros [H%gw_inj | H]; [congruence | exact H] | auto].
Qed.

Lemma keys_form : forall h p, In p (emb_keys h) -> exists a, p = gw a.
Proof. intros h p ([a o] & <- & _)%in_map_iff. eauto. Qed.

Lemma le_fold_max : forall l p, In p l -> p <= fold_right N.max 0 l.
Proof.
  induction l as [| x t IH]; simpl; intros p H; [destruct H |].
  destruct H as [<- | H]; [apply N.le_max_l |]. etransitivity; [exact (IH p H) | apply N.le_max_r].
Qed.

(* the hypotheses of C01's theorem hold for every translated heap *)
Lemma emb_range_ok : forall h, HeapGraph.range_ok (emb_reg h) 0 (emb_max h).
Proof.
  intros h p (a & o & -> & Hg)%registered_emb_inv.
  split; [apply gw_mod8 |]. split; [lia |]. apply le_fold_max, keys_hget. congruence.
Qed.

Lemma emb_order_ok : forall h, HeapGraph.order_ok (emb_reg h) (emb_order h).
Proof.
  intro h. split; [apply NoDup_nodup |]. intro p. unfold emb_order. rewrite nodup_In. split.
  - intro H. destruct (keys_form h p H) as [a ->]. apply registered_emb, keys_hget, H.
  - intros (a & o & -> & Hg)%registered_emb_inv. apply keys_hget. congruence.
Qed.

Lemma emb_wf : forall h, HeapGraph.wf (emb_heap h) (emb_reg h) [].
Proof.
  intro h. constructor.
  - intros p (a & o & -> & Hg)%registered_emb_inv. rewrite nget_emb_heap, Hg. discriminate.
  - intros p c (a & o & _ & _ & ->)%nget_emb_heap_inv q [].
  - intros e [].
Qed.

Lemma emb_no_raw : forall h p, HeapGraph.is_raw (emb_heap h) (emb_reg h) p = false.
Proof.
  intros h p. unfold HeapGraph.is_raw.
  destruct (HeapGraph.nget p (emb_heap h)) as [c |] eqn:E; [| reflexivity].
  apply nget_emb_heap_inv in E as (a & o & -> & Hg & _).
  rewrite (proj2 (registered_emb h a)) by congruence. reflexivity.
Qed.

Lemma emb_raw_wf : forall h, HeapGraph.raw_wf (emb_heap h) (emb_reg h).
Proof.
  intro h. exists (fun _ => 0%nat). split; [intro p; apply Nat.le_0_l |].
  intros p c q Hraw. rewrite emb_no_raw in Hraw. discriminate.
Qed.

(* reachability is preserved by the translation *)
Lemma emb_reach : forall h rs a, reach h rs a ->
  HeapGraph.reach (emb_heap h) (emb_reg h) [] (emb_stack rs) (gw a).
Proof.
  intros h rs a H. induction H as [r a Hr | a o i b Ha IH Ho Hi].
  - apply HeapGraph.reach_stack, in_flat_map.
    exists (Some a). split; [eapply nth_error_In; exact Hr | left; reflexivity].
  - apply HeapGraph.reach_step with (p := gw a) (c := emb_obj o); [exact IH | | |].
    + apply registered_emb. congruence.
    + rewrite nget_emb_heap, Ho. reflexivity.
    + apply HeapGraph.pts_word, in_map. eapply nth_error_In; exact Hi.
Qed.

(* C01's collector model in its repaired form (both switches true: TLS traced recursively, registered pointers
   marked once — the form MarkSweepProofs.collect_safe_thm is proved for; whether GC.c has that form is C01's
   obligation, which reads the switches off the source) run on the translated heap; the freed addresses are removed from the register machine's heap *)
Definition c01_collect (_ : nat) (h : heap) (rs : roots) : heap :=
  match MarkSweep.collect true true (emb_heap h) (emb_reg h) 0 (emb_max h)
          (MarkSweep.fuel_of (emb_heap h) (emb_reg h) (emb_order h)) (emb_order h) [] (emb_stack rs) with
  | HeapGraph.Ok (_, fin) => filter (fun e : addr * gobj => negb (existsb (N.eqb (gw (fst e))) fin)) h
  | _ => h
  end.

Lemma hget_filter_none : forall (P : addr * gobj -> bool) h a, hget h a = None -> hget (filter P h) a = None.
Proof.
  induction h as [| [x o] t IH]; intros a H; simpl in *; [reflexivity |].
  destruct (Nat.eqb a x) eqn:E; [discriminate |].
  destruct (P (x, o)); simpl; rewrite ?E; auto.
Qed.

(* … and it is safe in the sense the transparency theorem needs: MarkSweepProofs.collect_safe_thm, through the translation *)
Theorem c01_collect_safe : collector_safe c01_collect.
Proof.
  intros n h rs a Ha. unfold c01_collect.
  destruct (MarkSweepProofs.collect_safe_thm (emb_heap h) (emb_reg h) 0 (emb_max h) (emb_order h) [] (emb_stack rs)
              (emb_range_ok h) (emb_order_ok h) (emb_wf h) (emb_raw_wf h)) as (rg' & fin & -> & Hkeep & _).
  destruct (hget h a) as [o |] eqn:Hg; [| apply hget_filter_none, Hg].
  rewrite <- Hg. apply (hget_filter (fun x => negb (existsb (N.eqb (gw x)) fin))).
  destruct (Hkeep (gw a)) as [Hn _]; [apply registered_emb; congruence | apply emb_reach, Ha |].
  apply negb_true_iff, not_true_is_false. intros (q & Hq & <-%N.eqb_eq)%existsb_exists. contradiction.
Qed.

Local Close Scope N_scope.

Theorem collector_transparent_for_c01 : forall (ops : list gop) (s : gstate) (c1 c2 : config),
  snd (grun_cfg c1 c01_collect 0 ops s) = snd (grun_cfg c2 c01_collect 0 ops s).
Proof. intros. apply gc_config_independent, c01_collect_safe. Qed.

(* the modelled collector is not the identity: on this program it frees three of the four bindings *)
Lemma c01_collect_frees :
  let ops := [GAlloc 0 5%Z []; GAlloc 1 6%Z [(0, [])]; GDrop 0; GRead (1, [0]); GWrite (1, [0]) 9%Z;
              GMove 2 (1, [0]); GRead (2, []); GAlloc 1 7%Z []; GRead (1, []); GDrop 2; GRead (1, []); GRead (1, [])] in
  snd (grun true c01_collect 0 ops g_empty)
    = [GUnit; GUnit; GUnit; GVal 5%Z; GUnit; GUnit; GVal 9%Z; GUnit; GVal 7%Z; GUnit; GVal 7%Z; GVal 7%Z] /\
  List.length (gheap (fst (grun true c01_collect 0 ops g_empty))) = 1 /\
  List.length (gheap (fst (grun false c01_collect 0 ops g_empty))) = 4.
Proof. vm_compute. repeat split; reflexivity. Qed.

From CelloV Require SeqModels SeqTheorems.

Module SM := SeqModels.

(* the sequence operations of Config.v as operations of SeqModels.v (Array_Len has no counterpart there:
   C04 states len as the observation `nitems = length (a_abs a)`, theorem array_len_iter) *)
Definition tr (o : aop) : SM.sop Z :=
  match o with
  | AGet i => SM.SGet Z i
  | ASet i v => SM.SSet Z i v
  | APush v => SM.SPush Z v
  | APushAt v i => SM.SPushAt Z i v
  | APop => SM.SPop Z
  | APopAt i => SM.SPopAt Z i
  | AMem v => SM.SMem Z v
  | ARem v => SM.SRem Z v
  | ALen => SM.SCopy Z               (* excluded by no_len below *)
  end.

Definition no_len (h : list aop) : bool := forallb (fun o => match o with ALen => false | _ => true end) h.

(* outcomes: IndexOutOfBoundsError / ValueError are the same exception objects; mem returns a truth value *)
Definition conv (o : aop) (r : outcome Z) : SM.out Z :=
  match r with
  | ODone => SM.OUnit Z
  | OVal v => match o with AMem _ => SM.OBool Z (negb (v =? 0)%Z) | _ => SM.OVal Z v end
  | ORaise XIndexOutOfBounds => SM.ORaise Z TableModel.IndexError
  | ORaise XValueError => SM.ORaise Z TableModel.ValueError
  | ORaise _ => SM.ORaise Z TableModel.ClassError
  | OCrash => SM.OCrash Z
  end.

Definition aspec_step := SM.spec_step Z Z.eqb Z.ltb 0%Z SM.KArray.

Lemma set_nth_replace_at : forall (s : aseq) n v, (n < List.length s)%nat -> Config.set_nth s n v = SM.replace_at Z n v s.
Proof.
  unfold SM.replace_at. induction s as [| x t IH]; intros n v H; simpl in *; [lia |].
  destruct n; simpl; [reflexivity |]. f_equal. apply IH. lia.
Qed.

Lemma insert_nth_insert_at : forall (s : aseq) n v, (n <= List.length s)%nat -> insert_nth s n v = SM.insert_at Z n v s.
Proof.
  unfold SM.insert_at. induction s as [| x t IH]; intros n v H; simpl in *.
  - assert (n = 0)%nat by lia. subst. reflexivity.
  - destruct n; simpl; [reflexivity |]. f_equal. apply IH. lia.
Qed.

Lemma remove_nth_remove_at : forall (s : aseq) n, remove_nth s n = SM.remove_at Z n s.
Proof.
  unfold SM.remove_at. induction s as [| x t IH]; intros n; simpl.
  - destruct n; reflexivity.
  - destruct n; simpl; [reflexivity |]. f_equal. apply IH.
Qed.

(* Array_Mem / Array_Rem search with `index_of`; C04's specification says `existsb` and `remove_first` *)
Lemma index_of_spec : forall (s : aseq) v k,
  match index_of s v k with
  | Some j => (k <= j)%nat /\ existsb (fun x => Z.eqb x v) s = true /\
              remove_nth s (j - k) = SM.remove_first Z Z.eqb v s
  | None => existsb (fun x => Z.eqb x v) s = false
  end.
Proof.
  induction s as [| x t IH]; intros v k; simpl; [reflexivity |].
  destruct (Z.eqb x v); [rewrite Nat.sub_diag; auto |].
  specialize (IH v (S k)). destruct (index_of t v (S k)) as [j |]; [| exact IH].
  destruct IH as (Hle & He & Hr). replace (j - k)%nat with (S (j - S k)) by lia.
  simpl. rewrite Hr. auto with arith.
Qed.

Lemma index_of_existsb : forall (s : aseq) v k,
  existsb (fun x => Z.eqb x v) s = match index_of s v k with Some _ => true | None => false end.
Proof. intros s v k. generalize (index_of_spec s v k). destruct (index_of s v k); tauto. Qed.

Lemma index_of_remove_first : forall (s : aseq) v k j, index_of s v k = Some j ->
  (k <= j)%nat /\ remove_nth s (j - k) = SM.remove_first Z Z.eqb v s.
Proof. intros s v k j H. generalize (index_of_spec s v k). rewrite H. tauto. Qed.

Local Open Scope Z_scope.

(* the two specifications of the Array operations agree: `aspec` (None outside the contract) and C04's
   `spec_step KArray` (the documented exception outside it) *)
Lemma aspec_is_spec_step : forall (o : aop) (s : aseq), o <> ALen ->
  aspec_step s (tr o) =
  match aspec o s with Some (s', r) => (s', conv o r) | None => (s, SM.ORaise Z TableModel.IndexError) end.
Proof.
  intros o s Hlen. unfold aspec_step, SM.spec_step, SM.in_range, SM.push_at_pos.
  (* C04's range test `inb n (norm n k)` is `in_range (wrap k n) n` by definition, and so is `aspec`'s by wrap_range *)
  destruct o as [i | i v | v | v i | | i | | v | v]; try congruence; cbn [tr aspec]; unfold zlen;
    change (SM.inb ?n (SM.norm ?n ?k)) with (in_range (wrap k (Z.of_nat n)) (Z.of_nat n));
    change (SM.norm ?n ?k) with (wrap k (Z.of_nat n));
    rewrite ?Nat2Z.inj_add, <- ?wrap_range by lia; change (Z.of_nat 1) with 1%Z.
  - destruct (in_range _ _) eqn:E; [| reflexivity]. destruct (item_in_range s _ E) as (v & -> & _). reflexivity.
  - destruct (in_range _ _) eqn:E; [| reflexivity]. apply in_range_spec in E. cbn. rewrite set_nth_replace_at by lia. reflexivity.
  - reflexivity.
  - destruct (in_range _ _) eqn:E; [| reflexivity]. apply in_range_spec in E. cbn. rewrite insert_nth_insert_at by lia. reflexivity.
  - destruct s; reflexivity.
  - destruct (in_range _ _); [| reflexivity]. cbn. rewrite remove_nth_remove_at. reflexivity.
  - rewrite (index_of_existsb s v 0). destruct (index_of s v 0); reflexivity.
  - rewrite (index_of_existsb s v 0). destruct (index_of s v 0) as [j |] eqn:E; [| reflexivity].
    destruct (index_of_remove_first s v 0%nat j E) as [_ Hr]. rewrite Nat.sub_0_r in Hr. cbn. rewrite Hr. reflexivity.
Qed.

(* one call: the body of Config.v run by the DEFAULT build computes spec_step KArray — in the contract the
   result, outside it the documented exception and an unchanged sequence *)
Lemma abody_default_is_spec_step : forall (o : aop) (s : aseq) (T : types),
  o <> ALen ->
  aspec_step s (tr o) = (rst aseq Z (run aseq Z cfg_default (abody o) s T), conv o (rout aseq Z (run aseq Z cfg_default (abody o) s T))).
Proof.
  intros o s T Hlen. rewrite (aspec_is_spec_step o s Hlen). pose proof (abody_cases o s T) as M.
  destruct (aspec o s) as [[s' r] |]; destruct M as (_ & _ & M); rewrite M; reflexivity.
Qed.
Local Close Scope Z_scope.

Fixpoint spec_run (s : aseq) (ops : list (SM.sop Z)) : aseq * list (SM.out Z) :=
  match ops with
  | [] => (s, [])
  | o :: r => let '(s', x) := aspec_step s o in let '(s'', xs) := spec_run s' r in (s'', x :: xs)
  end.

Definition conv_all (h : list aop) (rs : list (outcome Z)) : list (SM.out Z) :=
  map (fun p : aop * outcome Z => conv (fst p) (snd p)) (combine h rs).

Lemma tr_not_sort : forall o, match tr o with SM.SSort _ => False | _ => True end.
Proof. destruct o; exact I. Qed.

Lemma conv_crash : forall o r, conv o r <> SM.OCrash Z -> is_crash Z r = false.
Proof. intros o r H. destruct r; try reflexivity. destruct H. reflexivity. Qed.

(* the default build's run of a history (Config.v) IS the specification's run of C04 *)
Lemma default_run_is_spec_run : forall (h : list aop) (s : aseq) (T : types),
  no_len h = true ->
  spec_run s (map tr h) =
    (hst aseq Z (run_history aseq Z aop abody cfg_default h s T),
     conv_all h (hout aseq Z (run_history aseq Z aop abody cfg_default h s T))).
Proof.
  induction h as [| o h IH]; intros s T Hn; [reflexivity |].
  cbn [no_len forallb] in Hn. apply andb_prop in Hn as [Ho Hn].
  rewrite run_history_cons. cbv zeta. rewrite abody_default_no_crash. cbn [map spec_run].
  rewrite (abody_default_is_spec_step o s T) by (intros ->; discriminate).
  rewrite (IH _ (rty aseq Z (run aseq Z cfg_default (abody o) s T)) Hn). reflexivity.
Qed.

(* C04's memory-level model of Array.c (cells, nitems, nslots, memmove, realloc), capacity rules from the source *)
Definition c04_step := SM.a_step Z Z.eqb Z.ltb array_grow_cond array_shrink_cond array_grow_size array_shrink_size.

Fixpoint a_run (a : SM.array Z) (ops : list (SM.sop Z)) : SM.array Z * list (SM.out Z) :=
  match ops with
  | [] => (a, [])
  | o :: r => let '(a', xs) := a_run (fst (c04_step a o)) r in (a', snd (c04_step a o) :: xs)
  end.

Definition sort_free (ops : list (SM.sop Z)) : Prop := Forall (fun o => match o with SM.SSort _ => False | _ => True end) ops.

Lemma zltb_asym : forall x y, Z.ltb x y = true -> Z.ltb y x = false.
Proof. intros x y H. apply Z.ltb_lt in H. apply Z.ltb_ge. lia. Qed.
Lemma zltb_trans : forall x y z, Z.ltb x y = true -> Z.ltb y z = true -> Z.ltb x z = true.
Proof. intros x y z H1 H2. apply Z.ltb_lt in H1, H2. apply Z.ltb_lt. lia. Qed.

(* C04 + C12 (SeqTheorems.array_refines_list_all), read as an equation between runs *)
Lemma c04_run_is_spec_run : forall ops a, SM.a_inv Z a -> sort_free ops ->
  SM.a_inv Z (fst (a_run a ops)) /\
  (SM.a_abs Z (fst (a_run a ops)), snd (a_run a ops)) = spec_run (SM.a_abs Z a) ops.
Proof.
  induction ops as [| o r IH]; intros a Hinv Hsf; [auto |].
  inversion Hsf as [| ? ? Ho Hr]; subst.
  destruct (SeqTheorems.array_refines_list_all Z Z.eqb Z.ltb 0%Z zltb_asym zltb_trans (o :: r) a Hinv I)
    as (Hinv' & Hok & _).
  fold c04_step in Hinv', Hok.
  assert (Hs : aspec_step (SM.a_abs Z a) o = (SM.a_abs Z (fst (c04_step a o)), snd (c04_step a o)))
    by (destruct o; try exact Hok; destruct Ho).
  cbn [a_run spec_run]. rewrite Hs. destruct (IH _ Hinv' Hr) as [Hi <-].
  destruct (a_run (fst (c04_step a o)) r) as [a' xs]. auto.
Qed.

Lemma map_tr_sort_free : forall h, sort_free (map tr h).
Proof. induction h as [| o h IH]; constructor; [apply tr_not_sort | exact IH]. Qed.

(* on EVERY history the DEFAULT build follows C04/C12's model: outside the contract the documented exception,
   nothing changed — only the unchecked builds leave it there *)
Theorem array_default_build_agrees_with_c04_model_on_every_history :
  forall (h : list aop) (a : SM.array Z),
  no_len h = true -> SM.a_inv Z a ->
  fst (arun cfg_default h (SM.a_abs Z a)) = SM.a_abs Z (fst (a_run a (map tr h))) /\
  conv_all h (snd (arun cfg_default h (SM.a_abs Z a))) = snd (a_run a (map tr h)).
Proof.
  intros h a Hn Hinv.
  pose proof (default_run_is_spec_run h (SM.a_abs Z a) [] Hn) as Hd.
  destruct (c04_run_is_spec_run (map tr h) a Hinv (map_tr_sort_free h)) as [_ Hc].
  rewrite <- Hc in Hd. rewrite arun_eq. injection Hd as -> ->. split; reflexivity.
Qed.

(* the Array configuration theorem, about C04's model: start from ANY state of the memory-level model that
   satisfies its invariant; for a history on which no bounds test fires, EVERY build of Config.v computes the
   sequence contents and the outcomes that C04's model of Array.c computes *)
Theorem array_every_build_agrees_with_c04_model :
  forall (h : list aop) (a : SM.array Z) (c : config),
  no_len h = true -> SM.a_inv Z a -> afires h (SM.a_abs Z a) = false ->
  fst (arun c h (SM.a_abs Z a)) = SM.a_abs Z (fst (a_run a (map tr h))) /\
  conv_all h (snd (arun c h (SM.a_abs Z a))) = snd (a_run a (map tr h)).
Proof.
  intros h a c Hn Hinv Hf. rewrite (array_config_independent h (SM.a_abs Z a) c cfg_default Hf).
  apply array_default_build_agrees_with_c04_model_on_every_history; assumption.
Qed.

(* non-vacuity: a concrete state of C04's model and a history with negative indices, rem and mem *)
Example c04_glue_example :
  let a := SM.a_new Z [4; 5; 6]%Z in
  let h := [APush 7; APushAt 9 (-1); AGet (-5); APopAt 1; AMem 9; ARem 9; APop; ASet (-1) 8]%Z in
  no_len h = true /\ afires h (SM.a_abs Z a) = false /\
  arun (cfg_build true true true) h (SM.a_abs Z a) =
    ([4; 8]%Z, [ODone; ODone; OVal 4%Z; ODone; OVal 1%Z; ODone; ODone; ODone]) /\
  SM.a_abs Z (fst (a_run a (map tr h))) = [4; 8]%Z.
Proof. vm_compute. repeat split; reflexivity. Qed.
