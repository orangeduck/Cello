(* CmpProofs.v — proofs about the cmp models of Values.v (property C09): the order laws "at an element"
   (ok_at) and their lifting through (key, value) pairs and through the lexicographic walk of the container
   comparisons; Float_Cmp against the IEEE comparison and the extended-real order (Flocq, FloatDiff.v); the
   order abstraction on which the translated bodies of Int_Cmp, Float_Cmp and the six predicates are
   verified (aeval, arun_sound); the reference order is a total order on every sort and cmp computes it
   (value_ok, value_cmp_is_order, by induction over the value universe); lookups in keyed containers; the
   walks of a Tuple given with its item pointers.
   Assumptions: only those of the classical real numbers of Coq (through Flocq), as printed by Print Assumptions. *)
From Coq Require Import List ZArith NArith Bool Lia Reals Lra.
From Flocq Require Import Core IEEE754.BinarySingleNaN IEEE754.Bits.
From CelloV Require Import Generated Values FloatDiff.
Import ListNotations.
Local Open Scope Z_scope.

(* The laws speak of one left operand x against all y, z of the domain, so that they can be proved by
   induction on x alone: in the nested induction over `value` the hypothesis is only available for
   the sub-values of the left operand. *)
Section OrderAt.
  Context {A : Type}.
  Variable D : A -> Prop.                 (* the domain the laws quantify over *)
  Variable eqv : A -> A -> Prop.          (* "equal values" *)
  Variable c : A -> A -> comparison.

  Record ok_at (x : A) : Prop := {
    ok_refl : c x x = Eq;
    ok_anti : forall y, D y -> c y x = CompOpp (c x y);
    ok_trans : forall y z, D y -> D z -> c x y = Lt -> c y z <> Gt -> c x z = Lt;
    ok_eq : forall y z, D y -> D z -> c x y = Eq -> c x z = c y z;
    ok_eqv : forall y, D y -> (c x y = Eq <-> eqv x y)
  }.
End OrderAt.
Arguments ok_refl {A D eqv c x}.
Arguments ok_anti {A D eqv c x}.
Arguments ok_trans {A D eqv c x}.
Arguments ok_eq {A D eqv c x}.
Arguments ok_eqv {A D eqv c x}.

(* the order laws at a point are carried along a representation relation [rep], from (DB, eqvB, cB) to (DA, eqvA, cA) *)
Section Transfer.
  Context {A B : Type}.
  Variables (DA : A -> Prop) (eqvA : A -> A -> Prop) (cA : A -> A -> comparison).
  Variables (DB : B -> Prop) (eqvB : B -> B -> Prop) (cB : B -> B -> comparison).
  Variable rep : A -> B -> Prop.
  Hypothesis rep_total : forall y, DA y -> exists y', rep y y' /\ DB y'.
  Hypothesis rep_c : forall y y' z z', rep y y' -> rep z z' -> cA y z = cB y' z'.
  Hypothesis rep_eqv : forall y y' z z', rep y y' -> rep z z' -> (eqvA y z <-> eqvB y' z').

  Lemma ok_at_transfer : forall x x', rep x x' -> ok_at DB eqvB cB x' -> ok_at DA eqvA cA x.
  Proof.
    intros x x' Rx O. split.
    - rewrite (rep_c _ _ _ _ Rx Rx). apply O.
    - intros y (y' & Ry & Dy')%rep_total.
      rewrite (rep_c _ _ _ _ Ry Rx), (rep_c _ _ _ _ Rx Ry). apply O, Dy'.
    - intros y z (y' & Ry & Dy')%rep_total (z' & Rz & Dz')%rep_total.
      rewrite (rep_c _ _ _ _ Rx Ry), (rep_c _ _ _ _ Ry Rz), (rep_c _ _ _ _ Rx Rz). apply O; assumption.
    - intros y z (y' & Ry & Dy')%rep_total (z' & Rz & Dz')%rep_total.
      rewrite (rep_c _ _ _ _ Rx Ry), (rep_c _ _ _ _ Ry Rz), (rep_c _ _ _ _ Rx Rz). apply O; assumption.
    - intros y (y' & Ry & Dy')%rep_total.
      rewrite (rep_c _ _ _ _ Rx Ry), (rep_eqv _ _ _ _ Rx Ry). apply O, Dy'.
  Qed.
End Transfer.

Section PairLift.
  Context {K V : Type}.
  Variables (DK : K -> Prop) (ek : K -> K -> Prop) (ck : K -> K -> comparison).
  Variables (DV : V -> Prop) (ev : V -> V -> Prop) (cv : V -> V -> comparison).
  Definition pair_dom (p : K * V) : Prop := DK (fst p) /\ DV (snd p).

  Theorem pair_lift : forall k v, ok_at DK ek ck k -> ok_at DV ev cv v ->
    ok_at pair_dom (pair_rel ek ev) (pair_ord ck cv) (k, v).
  Proof.
    intros k v Hk Hv. split; simpl.
    - rewrite (ok_refl Hk). apply (ok_refl Hv).
    - intros [k' v'] [Dk Dv]. simpl. rewrite (ok_anti Hk k' Dk).
      destruct (ck k k'); simpl; try reflexivity. apply (ok_anti Hv v' Dv).
    - intros [k1 v1] [k2 v2] [Dk1 Dv1] [Dk2 Dv2]. simpl in *.
      destruct (ck k k1) eqn:C1; try discriminate.
      + rewrite (ok_eq Hk k1 k2 Dk1 Dk2 C1).
        destruct (ck k1 k2); try congruence. apply (ok_trans Hv v1 v2); assumption.
      + intros _ H. rewrite (ok_trans Hk k1 k2 Dk1 Dk2 C1); [reflexivity|].
        destruct (ck k1 k2); congruence.
    - intros [k1 v1] [k2 v2] [Dk1 Dv1] [Dk2 Dv2]. simpl in *.
      destruct (ck k k1) eqn:C1; try discriminate.
      rewrite (ok_eq Hk k1 k2 Dk1 Dk2 C1).
      destruct (ck k1 k2); try reflexivity. apply (ok_eq Hv); assumption.
    - intros [k' v'] [Dk Dv]. simpl in *.
      rewrite <- (ok_eqv Hk k' Dk), <- (ok_eqv Hv v' Dv).
      destruct (ck k k'); (split; [intros H | intros [H1 H2]]); try discriminate; auto.
  Qed.
End PairLift.

Section LexLift.
  Context {A : Type}.
  Variables (D : A -> Prop) (eqv : A -> A -> Prop) (c : A -> A -> comparison).

  (* the parallel walk with the length tie-break inherits every order law.
     A non-empty list is its head and its tail compared key-then-value (pair_lift); the empty list
     is below every other. *)
  Theorem lex_lift : forall xs, Forall (ok_at D eqv c) xs ->
    ok_at (Forall D) (all2 eqv) (lex_compare c) xs.
  Proof.
    assert (PD : forall y ys, Forall D (y :: ys) -> pair_dom D (Forall D) (y, ys))
      by (intros y ys H; exact (conj (Forall_inv H) (Forall_inv_tail H))).
    induction 1 as [|x xs Hx _ IH].
    - split.
      + reflexivity.
      + intros [|y ys] _; reflexivity.
      + intros [|y ys] [|z zs] _ _; simpl; congruence.
      + intros [|y ys] zs _ _; [reflexivity | discriminate].
      + intros [|y ys] _; simpl; intuition discriminate.
    - pose proof (pair_lift _ _ _ _ _ _ x xs Hx IH) as P. split.
      + apply (ok_refl P).
      + intros [|y ys] Dy; [reflexivity|]. apply (ok_anti P (y, ys)), PD, Dy.
      + intros [|y ys] [|z zs] Dy Dz; [simpl; congruence .. |]. apply (ok_trans P (y, ys) (z, zs)); auto.
      + intros [|y ys] [|z zs] Dy Dz; [simpl; congruence .. |]. apply (ok_eq P (y, ys) (z, zs)); auto.
      + intros [|y ys] Dy; [simpl; intuition discriminate|]. apply (ok_eqv P (y, ys)), PD, Dy.
  Qed.
End LexLift.

Section FloatCmp.
Local Open Scope R_scope.
Local Instance prec53_gt_0 : FLX.Prec_gt_0 53 := eq_refl _.
Local Instance prec53_lt_emax : Prec_lt_emax 53 1024 := eq_refl _.
Local Instance fexp64_valid : Valid_exp (SpecFloat.fexp 53 1024) := fexp_correct 53 1024 prec53_gt_0.
Local Instance fexp64_monotone : Monotone_exp (SpecFloat.fexp 53 1024) := fexp_monotone 53 1024.

(* extended-real key of a non-NaN binary64: infinities sit just outside the finite range *)
Definition fkey (x : bfloat) : R :=
  match x with
  | B754_infinity false => bpow radix2 1024
  | B754_infinity true => - bpow radix2 1024
  | _ => B2R x
  end.

Lemma fkey_finite : forall x : bfloat, is_finite x = true -> fkey x = B2R x.
Proof. intros [s|s| |s m e H]; try discriminate; reflexivity. Qed.

Lemma fkey_bound : forall x : bfloat, is_finite x = true -> - bpow radix2 1024 < fkey x < bpow radix2 1024.
Proof. intros x Hx. rewrite (fkey_finite x Hx). apply Rabs_lt_inv, abs_B2R_lt_emax. Qed.

(* against an infinity: a finite double lies strictly inside the range *)
Lemma Bcompare_fkey_inf : forall (x : bfloat) s, is_nan x = false ->
  Bcompare x (B754_infinity s) = Some (Rcompare (fkey x) (fkey (B754_infinity s))).
Proof.
  intros x s Nx. pose proof (bpow_gt_0 radix2 1024) as P. destruct (is_finite x) eqn:Fx.
  - pose proof (fkey_bound x Fx) as Bx.
    destruct s; [rewrite Rcompare_Gt by (cbn [fkey]; lra) | rewrite Rcompare_Lt by (cbn [fkey]; lra)];
      destruct x as [|[]| |[]]; try discriminate; reflexivity.
  - destruct x as [|[]| |]; try discriminate; destruct s; cbn [fkey];
      [rewrite Rcompare_Eq | rewrite Rcompare_Lt | rewrite Rcompare_Gt | rewrite Rcompare_Eq]; trivial; lra.
Qed.

Lemma Bcompare_fkey : forall x y : bfloat, is_nan x = false -> is_nan y = false ->
  Bcompare x y = Some (Rcompare (fkey x) (fkey y)).
Proof.
  intros x y Nx Ny. destruct (is_finite y) eqn:Fy; [destruct (is_finite x) eqn:Fx|].
  - rewrite (fkey_finite x Fx), (fkey_finite y Fy). apply Bcompare_correct; assumption.
  - destruct x as [| | |]; try discriminate.
    rewrite Bcompare_swap, Rcompare_sym, Bcompare_fkey_inf by exact Ny. reflexivity.
  - destruct y as [| | |]; try discriminate. apply Bcompare_fkey_inf, Nx.
Qed.

Lemma z_of_ocmp_ord : forall o, z_of_ocmp o = z_of_cmp (ord_of o).
Proof. intros [[]|]; reflexivity. Qed.

(* all operands, NaN included *)
Lemma float_cmp_sub_ord : forall x y : bfloat, float_cmp_sub x y = z_of_cmp (float_ord x y).
Proof. intros x y. unfold float_cmp_sub. rewrite z_of_ocmp_ord. apply f_equal, Bminus_compare. Qed.

(* the sign of the rounded difference is the IEEE comparison (non-NaN operands) *)
Lemma float_cmp_sub_ocmp : forall x y : bfloat, is_nan x = false -> is_nan y = false ->
  float_cmp_sub x y = z_of_ocmp (Bcompare x y).
Proof. intros x y _ _. rewrite float_cmp_sub_ord, z_of_ocmp_ord. reflexivity. Qed.

Theorem float_cmp_sub_correct : forall x y : bfloat, is_nan x = false -> is_nan y = false ->
  float_cmp_sub x y = z_of_cmp (float_ord x y).
Proof. intros x y _ _. apply float_cmp_sub_ord. Qed.
End FloatCmp.

Lemma float_ord_fkey : forall x y : bfloat, is_nan x = false -> is_nan y = false ->
  float_ord x y = Rcompare (fkey x) (fkey y).
Proof. intros x y Nx Ny. unfold float_ord. rewrite (Bcompare_fkey x y Nx Ny). reflexivity. Qed.

Lemma Bcompare_float_ord : forall x y : bfloat, is_nan x = false -> is_nan y = false ->
  Bcompare x y = Some (float_ord x y).
Proof. intros x y Nx Ny. rewrite (float_ord_fkey x y Nx Ny). apply Bcompare_fkey; assumption. Qed.

(* An expression over two operands x y of an ordered scalar type, which only COMPARES them (and, when
   the algebra allows it, tests the sign of their difference), depends on x and y only through the
   ordering c of x against y.  `aeval` evaluates an expression on that abstraction; `aeval_sound` shows
   that the concrete evaluation agrees.  So a translated function is verified for ALL operands by three
   computations (c = Lt, Eq, Gt), whatever equivalent form the C text has. *)
Inductive aval := AOp0 | AOp1 | AD01 | AD10 | AC (z : Z).

Definition strict (o : cop) : bool := match o with OpLt | OpGt => true | _ => false end.

Section Abstract.
  Variable diff_ok : bool.          (* may the sign of x - y be read as the order of x and y (strict tests only) *)
  Variable c : comparison.          (* the order of operand 0 against operand 1 *)

  Definition acmp2 (o : cop) (a b : aval) : option aval :=
    match a, b with
    | AOp0, AOp0 | AOp1, AOp1 => Some (AC (b2z (cop_test o (Some Eq))))
    | AOp0, AOp1 => Some (AC (b2z (cop_test o (Some c))))
    | AOp1, AOp0 => Some (AC (b2z (cop_test o (Some (CompOpp c)))))
    | AD01, AC 0 => if strict o then Some (AC (b2z (cop_test o (Some c)))) else None
    | AD10, AC 0 => if strict o then Some (AC (b2z (cop_test o (Some (CompOpp c))))) else None
    | AC 0, AD01 => if strict o then Some (AC (b2z (cop_test o (Some (CompOpp c))))) else None
    | AC 0, AD10 => if strict o then Some (AC (b2z (cop_test o (Some c)))) else None
    | AC x, AC y => Some (AC (b2z (cop_test o (Some (x ?= y)))))
    | _, _ => None
    end.

  Fixpoint aeval (env : list aval) (e : cexp) : option aval :=
    match e with
    | CVar n => nth_error env n
    | CInt z => Some (AC z)
    | CSub a b =>
        match aeval env a, aeval env b with
        | Some AOp0, Some AOp1 => if diff_ok then Some AD01 else None
        | Some AOp1, Some AOp0 => if diff_ok then Some AD10 else None
        | Some (AC x), Some (AC y) => Some (AC (wrap32 (x - y)))
        | _, _ => None
        end
    | CCmp o a b =>
        match aeval env a, aeval env b with
        | Some u, Some v => acmp2 o u v
        | _, _ => None
        end
    | CCond k a b =>
        match aeval env k with
        | Some (AC z) => if z =? 0 then aeval env b else aeval env a
        | _ => None
        end
    | CNot a => match aeval env a with Some (AC z) => Some (AC (b2z (z =? 0))) | _ => None end
    | CAnd a b =>
        match aeval env a, aeval env b with
        | Some (AC x), Some (AC y) => Some (AC (b2z (negb (x =? 0) && negb (y =? 0))))
        | _, _ => None
        end
    | COr a b =>
        match aeval env a, aeval env b with
        | Some (AC x), Some (AC y) => Some (AC (b2z (negb (x =? 0) || negb (y =? 0))))
        | _, _ => None
        end
    | CCast32 a => match aeval env a with Some (AC z) => Some (AC (wrap32 z)) | _ => None end
    end.

  Fixpoint abind (env : list aval) (locals : list cexp) : option (list aval) :=
    match locals with
    | [] => Some env
    | l :: r => match aeval env l with Some v => abind (env ++ [v]) r | None => None end
    end.
  Definition arun (p : cprog) : option Z :=
    match abind [AOp0; AOp1] (fst p) with
    | Some env => match aeval env (snd p) with Some (AC z) => Some z | _ => None end
    | None => None
    end.

  Variable A : calg.
  Variables x y : cT A.
  Hypothesis H01 : c_cmp A x y = Some c.
  Hypothesis H10 : c_cmp A y x = Some (CompOpp c).
  Hypothesis H00 : c_cmp A x x = Some Eq.
  Hypothesis H11 : c_cmp A y y = Some Eq.
  Hypothesis HD : diff_ok = true -> forall o, strict o = true ->
    cop_test o (c_cmp A (c_sub A x y) (c_zero A)) = cop_test o (Some c) /\
    cop_test o (c_cmp A (c_sub A y x) (c_zero A)) = cop_test o (Some (CompOpp c)) /\
    cop_test o (c_cmp A (c_zero A) (c_sub A x y)) = cop_test o (Some (CompOpp c)) /\
    cop_test o (c_cmp A (c_zero A) (c_sub A y x)) = cop_test o (Some c).

  (* the concrete value an abstract value stands for; a difference is only formed when diff_ok holds *)
  Definition conc (a : aval) : cval A :=
    match a with
    | AOp0 => VOp x | AOp1 => VOp y
    | AD01 => VOp (c_sub A x y) | AD10 => VOp (c_sub A y x)
    | AC z => VC z
    end.
  Definition aok (a : aval) : Prop :=
    match a with AD01 | AD10 => diff_ok = true | _ => True end.

  Lemma acmp2_sound : forall o u v r, aok u -> aok v -> acmp2 o u v = Some r ->
    ceval A [conc u; conc v] (CCmp o (CVar 0) (CVar 1)) = Some (conc r) /\ aok r.
  Proof.
    intros o u v r Ou Ov H.
    enough (S : match acmp2 o u v with
                | Some r => ceval A [conc u; conc v] (CCmp o (CVar 0) (CVar 1)) = Some (conc r) /\ aok r
                | None => True
                end) by (rewrite H in S; exact S).
    clear H. destruct u as [| | | |zu], v as [| | | |zv]; try exact I; cbv [acmp2 ceval conc nth_error aok].
    (* two operands *)
    1-4: rewrite ?H00, ?H01, ?H10, ?H11; split; [reflexivity | exact I].
    (* a difference or an operand against a C int: only the difference against the literal 0, strict tests only *)
    1-2: destruct zv as [| |]; try exact I.
    3-6: destruct zu as [| |]; try exact I.
    1-4: destruct (strict o) eqn:So; [|exact I];
      destruct (HD ltac:(assumption) o So) as (E1 & E2 & E3 & E4); rewrite ?E1, ?E2, ?E3, ?E4;
      split; [reflexivity | exact I].
    (* two C ints *)
    destruct zu; split; reflexivity || exact I.
  Qed.

  Lemma int_inv : forall {B} (o : option aval) (k : Z -> option B) r,
    match o with Some (AC z) => k z | _ => None end = Some r -> exists z, o = Some (AC z) /\ k z = Some r.
  Proof. intros B [[| | | |z]|] k r H; try discriminate H. eauto. Qed.

  (* in H the abstract value of the subexpression e must be a C int z; then (IH) so is the concrete one *)
  Local Ltac int_sub H IH e :=
    let E := fresh "E" in
    apply int_inv in H as (?z & E & H); rewrite (proj1 (IH _ _ ltac:(eassumption) E)).

  Lemma aeval_sound : forall e aenv av, Forall aok aenv -> aeval aenv e = Some av ->
    ceval A (map conc aenv) e = Some (conc av) /\ aok av.
  Proof.
    induction e; intros aenv av F H; simpl in H |- *.
    - split; [apply map_nth_error, H|]. apply (proj1 (Forall_forall _ _) F), (nth_error_In _ _ H).
    - injection H as <-. simpl; auto.
    - destruct (aeval aenv e1) as [u|] eqn:E1; [|discriminate H].
      destruct (aeval aenv e2) as [v|] eqn:E2; [|destruct u; discriminate H].
      rewrite (proj1 (IHe1 _ _ F E1)), (proj1 (IHe2 _ _ F E2)).
      destruct u; try discriminate H; destruct v; try discriminate H;
        try (destruct diff_ok eqn:Dk; [|discriminate H]); injection H as <-; simpl; auto.
    - destruct (aeval aenv e1) as [u|] eqn:E1; [|discriminate H].
      destruct (aeval aenv e2) as [v|] eqn:E2; [|discriminate H].
      destruct (IHe1 _ _ F E1) as [-> Ou], (IHe2 _ _ F E2) as [-> Ov]. apply acmp2_sound; assumption.
    - int_sub H IHe1 e1. simpl. destruct (z =? 0); [apply IHe3 | apply IHe2]; assumption.
    - int_sub H IHe e. injection H as <-. simpl; auto.
    - int_sub H IHe1 e1. int_sub H IHe2 e2. injection H as <-. simpl; auto.
    - int_sub H IHe1 e1. int_sub H IHe2 e2. injection H as <-. simpl; auto.
    - int_sub H IHe e. injection H as <-. simpl; auto.
  Qed.

  Lemma abind_sound : forall locals aenv aenv', Forall aok aenv -> abind aenv locals = Some aenv' ->
    cbind A (map conc aenv) locals = Some (map conc aenv') /\ Forall aok aenv'.
  Proof.
    induction locals as [|l r IH]; intros aenv aenv' F H; simpl in *.
    - injection H as <-. auto.
    - destruct (aeval aenv l) as [v|] eqn:E; [|discriminate].
      destruct (aeval_sound l aenv v F E) as [-> Ov].
      change [conc v] with (map conc [v]). rewrite <- map_app.
      apply IH; [apply Forall_app; auto | exact H].
  Qed.

  Theorem arun_sound : forall p z, arun p = Some z -> crun A p x y = Some z.
  Proof.
    intros [locals body] z. unfold arun, crun. simpl.
    destruct (abind [AOp0; AOp1] locals) as [aenv|] eqn:E; [|discriminate].
    destruct (abind_sound locals [AOp0; AOp1] aenv) as [C F]; [repeat constructor | exact E |].
    simpl in C. rewrite C.
    destruct (aeval aenv body) as [[| | | |z']|] eqn:E2; try discriminate. intros [= <-].
    rewrite (proj1 (aeval_sound body aenv _ F E2)). reflexivity.
  Qed.
End Abstract.

Lemma all2_eq : forall {A} (xs ys : list A), all2 eq xs ys <-> xs = ys.
Proof.
  induction xs as [|x xs IH]; destruct ys as [|y ys]; simpl; try (intuition discriminate).
  rewrite IH. split; [intros [-> ->]; reflexivity | intros [= -> ->]; auto].
Qed.

Lemma Z_ok : forall x : Z, ok_at (fun _ => True) eq Z.compare x.
Proof.
  intros x. split.
  - apply Z.compare_refl.
  - intros y _. apply Z.compare_antisym.
  - intros y z _ _. rewrite !Z.compare_lt_iff, Z.compare_le_iff. lia.
  - intros y z _ _ ->%Z.compare_eq. reflexivity.
  - intros y _. apply Z.compare_eq_iff.
Qed.

Lemma N_ok : forall x : N, ok_at (fun _ => True) eq N.compare x.
Proof.
  intros x. split.
  - apply N.compare_refl.
  - intros y _. apply N.compare_antisym.
  - intros y z _ _. rewrite !N.compare_lt_iff, N.compare_le_iff. lia.
  - intros y z _ _ ->%N.compare_eq. reflexivity.
  - intros y _. apply N.compare_eq_iff.
Qed.

Lemma bytes_ok : forall x : bytes, ok_at (fun _ => True) eq bytes_ord x.
Proof.
  intros x.
  apply (ok_at_transfer _ _ _ (Forall (fun _ : N => True)) (all2 eq) (lex_compare N.compare) eq) with (x' := x).
  - intros y _. exists y. split; [reflexivity|]. apply Forall_forall. trivial.
  - intros y y' z z' -> ->. reflexivity.
  - intros y y' z z' -> ->. symmetry. apply all2_eq.
  - reflexivity.
  - apply lex_lift, Forall_forall. intros n _. apply N_ok.
Qed.

Lemma float_ok : forall x : bfloat, is_nan x = false ->
  ok_at (fun f : bfloat => is_nan f = false) float_eqv float_ord x.
Proof.
  intros x Nx. split.
  - rewrite float_ord_fkey by assumption. apply Rcompare_Eq. reflexivity.
  - intros y Ny. rewrite !float_ord_fkey by assumption. apply Rcompare_sym.
  - intros y z Ny Nz. rewrite !float_ord_fkey by assumption. intros H1 H2.
    apply Rcompare_Lt_inv in H1. apply Rcompare_Lt.
    destruct (Rcompare_spec (fkey y) (fkey z)); try congruence; lra.
  - intros y z Ny Nz. rewrite !float_ord_fkey by assumption. intros ->%Rcompare_Eq_inv. reflexivity.
  - intros y Ny. apply Bcompare_Eq; assumption.
Qed.

Section ValueInd.
  Variable P : value -> Prop.
  Hypothesis HInt : forall z, P (VInt z).
  Hypothesis HFloat : forall f, P (VFloat f).
  Hypothesis HStr : forall s, P (VStr s).
  Hypothesis HType : forall s, P (VType s).
  Hypothesis HStruct : forall t b, P (VStruct t b).
  Hypothesis HSeq : forall k xs, Forall P xs -> P (VSeq k xs).
  Hypothesis HTree : forall kvs, Forall (fun kv : value * value => P (fst kv) /\ P (snd kv)) kvs -> P (VTree kvs).
  Fixpoint value_ind' (v : value) : P v :=
    match v with
    | VInt z => HInt z
    | VFloat f => HFloat f
    | VStr s => HStr s
    | VType s => HType s
    | VStruct t b => HStruct t b
    | VSeq k xs => HSeq k xs (list_ind (Forall P) (Forall_nil _) (fun x _ => Forall_cons x (value_ind' x)) xs)
    | VTree kvs =>
        HTree kvs (list_ind (Forall _) (Forall_nil _)
                     (fun kv _ => Forall_cons kv (conj (value_ind' (fst kv)) (value_ind' (snd kv)))) kvs)
    end.
End ValueInd.

Definition dom (s : sort) (v : value) : Prop := has_sort s v = true.

Lemma dom_float : forall f, dom SFloat (VFloat f) -> is_nan f = false.
Proof. intros f. apply negb_true_iff. Qed.

Lemma dom_struct : forall t n t' b, dom (SStruct t n) (VStruct t' b) ->
  t' = t /\ length b = n /\ (n =? 0)%nat = false.
Proof.
  unfold dom; simpl. intros t n t' b H. apply andb_true_iff in H. destruct H as [H H3].
  apply andb_true_iff in H. destruct H as [H1 H2].
  apply N.eqb_eq in H1. apply Nat.eqb_eq in H2. apply negb_true_iff in H3. auto.
Qed.

Lemma dom_seq : forall e k xs, dom (SSeq e) (VSeq k xs) -> Forall (dom e) xs.
Proof. intros e k xs H. apply Forall_forall, forallb_forall, H. Qed.

Lemma dom_tree : forall ks vs kvs, dom (STree ks vs) (VTree kvs) -> Forall (pair_dom (dom ks) (dom vs)) kvs.
Proof.
  intros ks vs kvs H. apply Forall_forall. intros [k v] I.
  apply andb_true_iff, (proj1 (forallb_forall _ _) H (k, v) I).
Qed.

(* a sort whose values are the images of a constructor inherits the laws of the argument type *)
Lemma ok_at_image : forall {B} (C : B -> value) s DB eqvB cB,
  (forall y, dom s y -> exists y', y = C y' /\ DB y') ->
  (forall y z, value_ord (C y) (C z) = cB y z) ->
  (forall y z, value_eqv (C y) (C z) <-> eqvB y z) ->
  forall x, ok_at DB eqvB cB x -> ok_at (dom s) value_eqv value_ord (C x).
Proof.
  intros B C s DB eqvB cB T Hc He x.
  apply (ok_at_transfer _ _ _ DB eqvB cB (fun v y => v = C y) T).
  - intros y y' z z' -> ->. apply Hc.
  - intros y y' z z' -> ->. apply He.
  - reflexivity.
Qed.

Theorem value_ok : forall a s, dom s a -> ok_at (dom s) value_eqv value_ord a.
Proof.
  induction a as [z|f|b|b|t b|k xs IH|kvs IH] using value_ind'; intros [| | | |tid n|e|ks vs] Ds; try discriminate Ds.
  - apply (ok_at_image VInt _ (fun _ => True) eq Z.compare); try reflexivity; [|apply Z_ok].
    intros [] Dy; try discriminate; eauto.
  - apply (ok_at_image VFloat _ (fun x => is_nan x = false) float_eqv float_ord); try reflexivity;
      [|apply float_ok, dom_float, Ds].
    intros [] Dy; try discriminate; eauto using dom_float.
  - apply (ok_at_image VStr _ (fun _ => True) eq bytes_ord); try reflexivity; [|apply bytes_ok].
    intros [] Dy; try discriminate; eauto.
  - apply (ok_at_image VType _ (fun _ => True) eq bytes_ord); try reflexivity; [|apply bytes_ok].
    intros [] Dy; try discriminate; eauto.
  - destruct (dom_struct _ _ _ _ Ds) as [-> _].
    apply (ok_at_image (VStruct tid) _ (fun _ => True) eq bytes_ord); try reflexivity; [| |apply bytes_ok].
    + intros [] Dy; try discriminate. destruct (dom_struct _ _ _ _ Dy) as [-> _]. eauto.
    + simpl. intuition congruence.
  - (* the container kind is ignored by the order *)
    apply (ok_at_transfer _ _ _ (Forall (dom e)) (all2 value_eqv) (lex_compare value_ord)
             (fun v l => exists k', v = VSeq k' l)) with (x' := xs).
    + intros [] Dy; try discriminate. eauto using dom_seq.
    + intros y y' z z' [ky ->] [kz ->]. reflexivity.
    + intros y y' z z' [ky ->] [kz ->]. reflexivity.
    + eauto.
    + apply lex_lift. apply dom_seq in Ds. rewrite Forall_forall in *. auto.
  - apply (ok_at_image VTree _ (Forall (pair_dom (dom ks) (dom vs))) (all2 (pair_rel value_eqv value_eqv))
             (lex_compare (pair_ord value_ord value_ord))); try reflexivity.
    + intros [] Dy; try discriminate. eauto using dom_tree.
    + apply lex_lift. apply dom_tree in Ds. rewrite Forall_forall in *.
      intros [k v] I. destruct (IH _ I), (Ds _ I). apply pair_lift; auto.
Qed.

Definition code_is_compare (diff_ok : bool) (code : option cprog) : Prop :=
  exists p, code = Some p /\ arun diff_ok Lt p = Some (-1) /\ arun diff_ok Eq p = Some 0 /\ arun diff_ok Gt p = Some 1.

(* Int_Cmp: the translated body, verified on the three orderings, is Z order on all of Z *)
Lemma int_run_by_order : forall p a b z, arun false (a ?= b) p = Some z -> crun int_alg p a b = Some z.
Proof.
  intros p a b. apply (arun_sound false (a ?= b) int_alg a b); simpl.
  - reflexivity.
  - rewrite Z.compare_antisym. reflexivity.
  - rewrite Z.compare_refl. reflexivity.
  - rewrite Z.compare_refl. reflexivity.
  - discriminate.
Qed.

(* computed on the code translated from the working tree's src/Num.c (Generated.int_cmp_code) *)
Lemma int_cmp_code_verified : code_is_compare false int_cmp_code.
Proof. eexists. split; [reflexivity|]. vm_compute. repeat split. Qed.

Lemma int_cmp_correct : forall a b, int_cmp a b = z_of_cmp (a ?= b).
Proof.
  intros a b. destruct int_cmp_code_verified as (p & E & HL & HE & HG).
  unfold int_cmp. rewrite E, (int_run_by_order p a b (z_of_cmp (a ?= b))); [reflexivity|].
  destruct (a ?= b); assumption.
Qed.

(* Float_Cmp: same, with the sign of the rounded difference allowed (float_cmp_sub_ord) *)
Lemma float_run_by_order : forall p (x y : bfloat) z, is_nan x = false -> is_nan y = false ->
  arun true (float_ord x y) p = Some z -> crun float_alg p x y = Some z.
Proof.
  intros p x y z Nx Ny.
  (* a strict test of u - v against 0, on either side, is that test of the order of u and v *)
  assert (DS : forall u v : bfloat, forall o, strict o = true ->
            cop_test o (Bcompare (float_sub u v) fzero) = cop_test o (Some (float_ord u v)) /\
            cop_test o (Bcompare fzero (float_sub u v)) = cop_test o (Some (CompOpp (float_ord u v)))).
  { intros u v o So. pose proof (float_cmp_sub_ord u v) as G. unfold float_cmp_sub in G.
    rewrite (@Bcompare_swap 53 1024 (float_sub u v) fzero).
    destruct o; try discriminate So;
      destruct (Bcompare (float_sub u v) fzero) as [[]|], (float_ord u v); try discriminate G; split; reflexivity. }
  apply (arun_sound true (float_ord x y) float_alg x y); simpl.
  - apply Bcompare_float_ord; assumption.
  - rewrite Bcompare_swap, (Bcompare_float_ord x y Nx Ny). reflexivity.
  - rewrite <- (ok_refl (float_ok x Nx)). apply Bcompare_float_ord; assumption.
  - rewrite <- (ok_refl (float_ok y Ny)). apply Bcompare_float_ord; assumption.
  - intros _ o So. destruct (DS x y o So) as [D1 D2], (DS y x o So) as [D3 D4].
    rewrite (ok_anti (float_ok x Nx) y Ny) in D3, D4. rewrite CompOpp_involutive in D4. auto.
Qed.

Lemma float_cmp_code_verified : code_is_compare true float_cmp_code.
Proof. eexists. split; [reflexivity|]. vm_compute. repeat split. Qed.

Theorem float_cmp_correct : forall x y : bfloat, is_nan x = false -> is_nan y = false ->
  float_cmp x y = z_of_cmp (float_ord x y).
Proof.
  intros x y Nx Ny. destruct float_cmp_code_verified as (p & E & HL & HE & HG).
  unfold float_cmp. rewrite E, (float_run_by_order p x y (z_of_cmp (float_ord x y)) Nx Ny); [reflexivity|].
  destruct (float_ord x y); assumption.
Qed.

(* the predicates of Cmp.c: translated bodies over r = cmp(self, obj) and 0 *)
Definition pred_abs (i : nat) (c : comparison) : bool :=
  match i with
  | 0%nat => match c with Eq => true | _ => false end
  | 1%nat => match c with Eq => false | _ => true end
  | 2%nat => match c with Lt => true | _ => false end
  | 3%nat => match c with Gt => true | _ => false end
  | 4%nat => match c with Gt => false | _ => true end
  | _ => match c with Lt => false | _ => true end
  end.

Lemma pred_default_abs : forall i r, pred_default i r = pred_abs i (r ?= 0).
Proof. intros [|[|[|[|[|i]]]]] [|r|r]; reflexivity. Qed.

Lemma pred_codes_verified : exists l, pred_codes = Some l /\
  forall c, map (aeval false c [AOp0; AOp1]) l = map (fun i => Some (AC (b2z (pred_abs i c)))) [0; 1; 2; 3; 4; 5]%nat.
Proof. eexists. split; [reflexivity|]. intros []; vm_compute; reflexivity. Qed.

(* each predicate, whatever its C form, is the documented test of the value cmp returned *)
Lemma pred_val_spec : forall i r, (i < 6)%nat -> pred_val i r = pred_default i r.
Proof.
  intros i r Hi. destruct pred_codes_verified as (l & E & HV).
  unfold pred_val, pred_run. rewrite E. specialize (HV (r ?= 0)).
  assert (N6 : nth_error [0; 1; 2; 3; 4; 5]%nat i = Some i) by (do 6 (destruct i as [|i]; [reflexivity|]); lia).
  apply (f_equal (fun m => nth_error m i)) in HV. rewrite !nth_error_map, N6 in HV.
  destruct (nth_error l i) as [e|]; [injection HV as HV | discriminate].
  (* the body is a program without locals, run on r and 0 *)
  pose proof (int_run_by_order ([], e) r 0 (b2z (pred_abs i (r ?= 0)))) as R.
  unfold arun, crun in R. simpl in R. rewrite HV in R. specialize (R eq_refl).
  destruct (ceval _ _ e) as [[|z]|]; try discriminate. injection R as ->.
  rewrite pred_default_abs. destruct (pred_abs i (r ?= 0)); reflexivity.
Qed.

Lemma int_cmp_3way_correct : forall a b, int_cmp_3way a b = z_of_cmp (a ?= b).
Proof.
  intros a b. unfold int_cmp_3way, Z.ltb. rewrite (Z.compare_antisym a b).
  destruct (a ?= b); reflexivity.
Qed.

Lemma z_of_cmp_tests : forall c, (z_of_cmp c <? 0) = (match c with Lt => true | _ => false end) /\
                                 (0 <? z_of_cmp c) = (match c with Gt => true | _ => false end).
Proof. destruct c; split; reflexivity. Qed.

Lemma seq_cmp_lex : forall {A B} (ecmp : A -> B -> option Z) (ord : A -> B -> comparison) xs ys,
  (forall x y, In x xs -> In y ys -> ecmp x y = Some (z_of_cmp (ord x y))) ->
  seq_cmp ecmp xs ys = Some (z_of_cmp (lex_compare ord xs ys)).
Proof.
  induction xs as [|x xs IH]; destruct ys as [|y ys]; intros H; simpl; try reflexivity.
  rewrite (H x y) by (left; reflexivity).
  destruct (ord x y); try reflexivity. apply IH. intros; apply H; right; assumption.
Qed.

Lemma tree_cmp_lex : forall {K V K' V'} (kcmp : K -> K' -> option Z) (vcmp : V -> V' -> option Z)
    (kord : K -> K' -> comparison) (vord : V -> V' -> comparison) xs ys,
  (forall k v k' v', In (k, v) xs -> In (k', v') ys ->
     kcmp k k' = Some (z_of_cmp (kord k k')) /\ vcmp v v' = Some (z_of_cmp (vord v v'))) ->
  tree_cmp kcmp vcmp xs ys = Some (z_of_cmp (lex_compare (pair_ord kord vord) xs ys)).
Proof.
  induction xs as [|[k v] xs IH]; destruct ys as [|[k' v'] ys]; intros H; simpl; try reflexivity.
  destruct (H k v k' v') as [-> ->]; try (left; reflexivity).
  destruct (kord k k'); try reflexivity. destruct (vord v v'); try reflexivity.
  apply IH. intros; apply H; right; assumption.
Qed.

Theorem value_cmp_is_order : forall a s b, dom s a -> dom s b ->
  value_cmp a b = Some (z_of_cmp (value_ord a b)).
Proof.
  induction a as [z|f|s|s|t x|k xs IH|kvs IH] using value_ind'; intros [| | | |tid n|e|ks vs] b Da Db;
    try discriminate Da; destruct b as [z'|f'|s'|s'|t' x'|k' xs'|kvs']; try discriminate Db; simpl.
  - rewrite int_cmp_correct. reflexivity.
  - rewrite float_cmp_correct by (apply dom_float; assumption). reflexivity.
  - reflexivity.
  - reflexivity.
  - destruct (dom_struct _ _ _ _ Da) as (-> & -> & ->), (dom_struct _ _ _ _ Db) as (-> & L & _).
    rewrite N.eqb_refl, L, Nat.eqb_refl. reflexivity.
  - apply seq_cmp_lex. apply dom_seq in Da, Db. rewrite Forall_forall in *. eauto.
  - apply tree_cmp_lex. apply dom_tree in Da, Db. rewrite Forall_forall in *.
    intros k v k' v' I I'. destruct (IH _ I), (Da _ I), (Db _ I'). eauto.
Qed.

(* what "lexicographic, shorter prefix first" means, for any element comparison *)
Theorem lex_compare_Lt_spec : forall {A B} (c : A -> B -> comparison) xs ys,
  lex_compare c xs ys = Lt <->
  exists p q xs' ys', xs = p ++ xs' /\ ys = q ++ ys' /\ all2 (fun x y => c x y = Eq) p q /\
    ((xs' = [] /\ ys' <> []) \/ (exists x y xr yr, xs' = x :: xr /\ ys' = y :: yr /\ c x y = Lt)).
Proof.
  intros A B c xs ys. split.
  - (* the equal prefix is read off the walk *)
    revert ys. induction xs as [|x xs IH]; intros [|y ys]; simpl; try discriminate.
    + intros _. exists [], [], [], (y :: ys). repeat split. left. split; [reflexivity | discriminate].
    + destruct (c x y) eqn:Cxy; try discriminate.
      * intros (p & q & xs' & ys' & -> & -> & E & H)%IH. exists (x :: p), (y :: q), xs', ys'. simpl. auto.
      * intros _. exists [], [], (x :: xs), (y :: ys). repeat split. right. exists x, y, xs, ys. auto.
  - (* the walk skips an equal prefix *)
    intros (p & q & xs' & ys' & -> & -> & E & H). revert q E.
    induction p as [|x p IH]; intros [|y q] E; simpl in E; try contradiction.
    + destruct H as [[-> N]|(x & y & xr & yr & -> & -> & L)]; simpl.
      * destruct ys'; congruence.
      * rewrite L. reflexivity.
    + destruct E as [E1 E]. simpl. rewrite E1. apply IH, E.
Qed.

(* cmp(): the outcome table computed from the C text (16 assignments of: instance present, cmp member
   present, same type, size non-zero) is the documented dispatch: the instance when it has a cmp, else
   memcmp over size(type_of(self)) for two objects of one type of non-zero size, else TypeError *)
Definition cmp_dispatch_spec (hc hm t s : bool) : nat :=
  if hc && hm then 0%nat else if t && s then 1%nat else 2%nat.
Definition cmp_dispatch_ok (tbl : option (list (bool * bool * bool * bool * nat))) : bool :=
  match tbl with
  | Some l => (length l =? 16)%nat &&
              forallb (fun r => match r with (hc, hm, t, s, o) => (o =? cmp_dispatch_spec hc hm t s)%nat end) l &&
              forallb (fun q => existsb (fun r => match r, q with (hc, hm, t, s, _), (hc', hm', t', s') =>
                                   Bool.eqb hc hc' && Bool.eqb hm hm' && Bool.eqb t t' && Bool.eqb s s' end) l)
                      (list_prod (list_prod (list_prod [false; true] [false; true]) [false; true]) [false; true])
  | None => false
  end.

(* tools/genx_cmp.py emits seq_cmp_shape_ok and tree_cmp_shape_ok only when it finds the common loop of
   Array_Cmp / List_Cmp / Tuple_Cmp and the loop of Tree_Cmp (key, then value) in the source.  A changed
   shape leaves the definition out of Generated.v and this file does not compile (= broken obligation). *)
Theorem source_shapes :
  code_is_compare false int_cmp_code /\ code_is_compare true float_cmp_code /\
  (exists l, pred_codes = Some l /\
     forall c, map (aeval false c [AOp0; AOp1]) l = map (fun i => Some (AC (b2z (pred_abs i c)))) [0; 1; 2; 3; 4; 5]%nat) /\
  seq_cmp_shape_ok = true /\ tree_cmp_shape_ok = true /\ cmp_dispatch_ok cmp_dispatch_table = true.
Proof.
  split; [exact int_cmp_code_verified|]. split; [exact float_cmp_code_verified|]. split; [exact pred_codes_verified|].
  repeat split.
Qed.

Section TreeLookup.
  Variable s : sort.
  Notation D := (dom s).

  Lemma ord_anti : forall a b, D a -> D b -> value_ord b a = CompOpp (value_ord a b).
  Proof. intros a b Da Db. apply (ok_anti (value_ok a s Da) b Db). Qed.

  Lemma ord_eq_r : forall a b c, D a -> D b -> D c -> value_ord a b = Eq -> value_ord c a = value_ord c b.
  Proof.
    intros a b c Da Db Dc E. rewrite (ord_anti a c Da Dc), (ord_anti b c Db Dc), (ok_eq (value_ok a s Da) b c Db Dc E).
    reflexivity.
  Qed.

  Lemma ord_gt_trans : forall a b c, D a -> D b -> D c -> value_ord a b = Gt -> value_ord b c = Gt -> value_ord a c = Gt.
  Proof.
    intros a b c Da Db Dc H1 H2.
    rewrite (ord_anti c a Dc Da), (ok_trans (value_ok c s Dc) b a Db Da); [reflexivity | |].
    - rewrite (ord_anti b c Db Dc), H2. reflexivity.
    - rewrite (ord_anti a b Da Db), H1. discriminate.
  Qed.

  (* first binding whose key is order-equal *)
  Fixpoint ord_find (t : list (value * value)) (k : value) : option value :=
    match t with
    | [] => None
    | (k', v') :: r => match value_ord k k' with Eq => Some v' | _ => ord_find r k end
    end.

  Definition keys_in (t : list (value * value)) : Prop := Forall (fun kv => D (fst kv)) t.
  Definition below (k : value) (t : list (value * value)) : Prop := Forall (fun kv => value_ord k (fst kv) = Gt) t.
  Fixpoint desc (t : list (value * value)) : Prop :=
    match t with
    | [] => True
    | (k, _) :: r => below k r /\ desc r
    end.

  Lemma below_find : forall t k, below k t -> ord_find t k = None.
  Proof. induction 1 as [|[k' v'] r B _ IH]; simpl in *; [reflexivity|]. rewrite B. exact IH. Qed.

  Lemma below_trans : forall t k k', D k -> D k' -> keys_in t -> value_ord k k' = Gt -> below k' t -> below k t.
  Proof.
    intros t k k' Dk Dk' K G B. unfold below, keys_in in *. rewrite Forall_forall in *.
    intros kv I. apply (ord_gt_trans k k' (fst kv)); auto.
  Qed.

  Lemma assoc_get_find : forall t k, keys_in t -> desc t -> D k -> assoc_get t k = Some (ord_find t k).
  Proof.
    induction t as [|[k' v'] r IH]; intros k K S Dk; simpl; [reflexivity|].
    inversion K as [|? ? K1 K2]; subst; simpl in K1. destruct S as [B S].
    rewrite (value_cmp_is_order k s k' Dk K1).
    destruct (value_ord k k') eqn:C; simpl.
    - reflexivity.
    - apply IH; assumption.
    - rewrite (below_find r k); [reflexivity|]. apply (below_trans r k k'); assumption.
  Qed.

  (* on keys of one sort, insertion through the modelled cmp is insertion by the reference order *)
  Lemma assoc_set_spec : forall t k v, keys_in t -> D k -> assoc_set t k v = Some (spec_assoc_set t k v).
  Proof.
    induction t as [|[k' v'] r IH]; intros k v K Dk; simpl; [reflexivity|].
    inversion K as [|? ? K1 K2]; subst; simpl in K1.
    rewrite (value_cmp_is_order k s k' Dk K1).
    destruct (value_ord k k'); simpl; try reflexivity. rewrite (IH k v K2 Dk). reflexivity.
  Qed.

  (* insertion keeps the old keys and adds k: what holds of all of these holds of the new keys *)
  Lemma spec_set_Forall : forall (Q : value -> Prop) t k v,
    Forall (fun kv => Q (fst kv)) t -> Q k -> Forall (fun kv => Q (fst kv)) (spec_assoc_set t k v).
  Proof.
    induction 1 as [|[k' v'] r Q1 Q2 IH]; intros Qk; simpl; [repeat constructor; exact Qk|].
    destruct (value_ord k k'); repeat constructor; auto.
  Qed.

  Lemma spec_set_desc : forall t k v, keys_in t -> D k -> desc t -> desc (spec_assoc_set t k v).
  Proof.
    induction 1 as [|[k' v'] r K1 K2 IH]; intros Dk S; simpl; [repeat constructor|].
    destruct S as [B S]. simpl in K1. destruct (value_ord k k') eqn:C; simpl.
    - auto.
    - split; [|auto]. apply (spec_set_Forall (fun k0 => value_ord k' k0 = Gt)); [exact B|]. rewrite (ord_anti k k' Dk K1), C. reflexivity.
    - repeat split; auto. constructor; [exact C|]. apply (below_trans r k k'); assumption.
  Qed.

  Lemma spec_set_find : forall t k v k2, keys_in t -> D k -> D k2 ->
    ord_find (spec_assoc_set t k v) k2 = match value_ord k2 k with Eq => Some v | _ => ord_find t k2 end.
  Proof.
    induction 1 as [|[k' v'] r K1 K2 IH]; intros Dk D2; simpl; [destruct (value_ord k2 k); reflexivity|].
    simpl in K1. destruct (value_ord k k') eqn:C; simpl.
    - rewrite (ord_eq_r k k' k2 Dk K1 D2 C). destruct (value_ord k2 k'); reflexivity.
    - rewrite (IH Dk D2). destruct (value_ord k2 k') eqn:C2, (value_ord k2 k) eqn:C3; try reflexivity.
      rewrite <- (ok_eq (value_ok k2 s D2) k k' Dk K1 C3), C2 in C. discriminate.
    - reflexivity.
  Qed.

  Lemma tree_of_sets_spec : forall ins t, keys_in ins -> keys_in t -> desc t ->
    exists t', tree_of_sets t ins = Some t' /\ keys_in t' /\ desc t' /\
      (forall k, D k -> ord_find t' k = match spec_get ins k with Some v => Some v | None => ord_find t k end).
  Proof.
    induction ins as [|[k v] r IH]; intros t KI K S; simpl.
    - exists t. auto.
    - inversion KI as [|? ? KI1 KI2]; subst; simpl in KI1.
      rewrite (assoc_set_spec t k v K KI1).
      destruct (IH (spec_assoc_set t k v) KI2) as (t2 & E2 & K2 & S2 & F2);
        [apply (spec_set_Forall D) | apply spec_set_desc |]; auto.
      exists t2. repeat split; auto.
      intros k2 D2. rewrite (F2 k2 D2), (spec_set_find t k v k2 K KI1 D2).
      destruct (spec_get r k2), (value_ord k2 k); reflexivity.
  Qed.

  (* every key set into a Tree keyed through the modelled cmp is found again, with the value of the
     last set under an order-equal key; absent keys are reported absent *)
  Theorem tree_finds_keys : forall ins, keys_in ins ->
    exists t, tree_of_sets [] ins = Some t /\
      forall k, D k -> assoc_get t k = Some (spec_get ins k).
  Proof.
    intros ins KI.
    destruct (tree_of_sets_spec ins [] KI (Forall_nil _) I) as (t & E & K & S & F).
    exists t. split; [exact E|]. intros k Dk.
    rewrite (assoc_get_find t k K S Dk), (F k Dk). destruct (spec_get ins k); reflexivity.
  Qed.

  (* a Table finds a key through eq(stored key, key): same answer (probing/hashing: C02, C10) *)
  Theorem eq_get_spec : forall ins k, keys_in ins -> D k -> eq_get ins k = Some (spec_get ins k).
  Proof.
    induction ins as [|[k' v'] r IH]; intros k KI Dk; simpl; [reflexivity|].
    inversion KI as [|? ? K1 K2]; subst; simpl in K1.
    rewrite (IH k K2 Dk). destruct (spec_get r k); [reflexivity|].
    unfold v_eq. rewrite (value_cmp_is_order k' s k K1 Dk). simpl.
    rewrite (ord_anti k k' Dk K1). destruct (value_ord k k'); reflexivity.
  Qed.
End TreeLookup.

Lemma walk_cmp_lists : forall xs ys fuel, (length xs < fuel)%nat ->
  walk_cmp fuel (SList xs) (SList ys) = out_of_option (seq_cmp value_cmp xs ys).
Proof.
  induction xs as [|x xs IH]; intros ys fuel Hf; destruct fuel as [|f]; try (simpl in Hf; lia);
    destruct ys as [|y ys]; simpl; try reflexivity.
  destruct (value_cmp x y) as [c|]; simpl; [|reflexivity].
  destruct (c <? 0); [reflexivity|]. destruct (0 <? c); [reflexivity|].
  apply IH. simpl in Hf. lia.
Qed.

Lemma first_slot_next_nodup : forall (p : pitems) x v s items, items = p ++ (x, v) :: s ->
  NoDup (map fst items) -> first_slot_next x items = hd_error s.
Proof.
  intros p x v s items ->. induction p as [|[q w] p IH]; intros ND; simpl.
  - rewrite N.eqb_refl. reflexivity.
  - simpl in ND. inversion ND as [|? ? Hq ND']; subst.
    destruct (q =? x)%N eqn:E.
    + apply N.eqb_eq in E. subst q. exfalso. apply Hq. rewrite map_app. apply in_or_app. right. left. reflexivity.
    + apply IH. exact ND'.
Qed.

Lemma iter_walk_alias_free : forall items, NoDup (map fst items) ->
  forall fuel s0 p s, items = p ++ s ->
  walk_cmp fuel s0 (SIter items (hd_error s)) = walk_cmp fuel s0 (SList (map snd s)).
Proof.
  intros items ND. induction fuel as [|f IH]; intros s0 p s E; [reflexivity|].
  destruct s as [|[x v] s']; simpl.
  - reflexivity.
  - destruct (side_head s0) as [a|]; [|reflexivity].
    destruct (value_cmp a v) as [c|]; [|reflexivity].
    destruct (c <? 0); [reflexivity|]. destruct (0 <? c); [reflexivity|].
    rewrite (first_slot_next_nodup p x v s' items E ND).
    apply (IH (side_next s0) (p ++ [(x, v)]) s'). rewrite <- app_assoc. exact E.
Qed.
