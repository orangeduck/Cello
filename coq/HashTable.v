(* HashTable.v — property C10 at the level of the Table slot array (coq/TableModel.v):
   Table_Assign (and therefore copy = alloc + assign) re-inserts the source's bindings in slot
   order into a fresh array of Ideal_Size(len) slots.  For every source that satisfies the
   robin-hood invariant `core` the result holds exactly the same bindings, in some order, for
   every hash function and both displacement rules (TableProofs.assign_from_perm); so what
   eq(copy(t), t) needs is precisely that Table_Cmp does not depend on the order
   (HashProofs.map_perm_eq, the repaired Table_Cmp), and the pinned slot-order walk fails as soon
   as the order changes (copy_changes_order). *)
From Coq Require Import List Arith Bool NArith ZArith Lia Permutation.
From CelloV Require Import Generated RobinHood RobinHoodProofs TableModel TableProofs.
Import ListNotations.

Section TableCopy.
  Variables K V : Type.
  Variable keq : K -> K -> bool.
  Variable hash : K -> N.
  Variable swap : nat -> nat -> bool.

  Hypothesis keq_spec : forall a b, keq a b = true <-> a = b.
  Hypothesis swap_le : forall j p, swap j p = true -> p <= j.
  Hypothesis swap_ge : forall j p, swap j p = false -> j <= p.

  Notation E := (K * V)%type.
  Notation tbl := (table K V).
  Notation hm n := (fun k : K => home K hash k n).
  Notation core' n := (core K E fst (hm n)).

  (* the invariant of a Table state: robin-hood order, stored homes right, keys unique, count right
     (TableProofs.pre_inv, spelled out) *)
  Definition tinv (t : tbl) : Prop :=
    core' (nslots K V t) (slots K V t) /\ nitems K V t = occupied E (slots K V t).

  (* inserting a list of bindings with fresh, pairwise different keys *)
  Lemma set_all_spec : forall (kvs : list E) (t : tbl),
    tinv t -> NoDup (map fst kvs) ->
    (forall x, In x kvs -> Absent K E fst (slots K V t) (fst x)) ->
    occupied E (slots K V t) + length kvs < nslots K V t ->
    exists t', set_all K V keq hash swap t kvs = Some t' /\ tinv t' /\ nslots K V t' = nslots K V t /\
      (forall x, Holds E (slots K V t') x <-> Holds E (slots K V t) x \/ In x kvs) /\
      nitems K V t' = nitems K V t + length kvs.
  Proof. exact (set_all_fresh K V keq hash swap keq_spec swap_ge swap_le). Qed.
End TableCopy.

(* Table_Assign(self, src) for src a Table / copy(src), with the source's parameters *)
Theorem table_copy_same_bindings (K V : Type) (keq : K -> K -> bool) (hash : K -> N) (src : table K V) :
  (forall a b, keq a b = true <-> a = b) ->
  tinv K V hash src ->
  exists t', t_assign_from K V keq hash table_swap table_primes table_load_num table_load_den src = Some t' /\
    tinv K V hash t' /\ Permutation (t_iter K V t') (t_iter K V src) /\ nitems K V t' = nitems K V src.
Proof.
  intros Hk Hi.
  destruct (assign_from_perm K V keq hash table_swap _ _ _ Hk table_swap_ge table_ideal_gt table_swap_le src Hi)
    as [t' [Ha [[Hi' _] H]]].
  exists t'. auto.
Qed.

(* non-vacuity and the reason the pinned Table_Cmp failed: a reachable state (two Int keys, identity
   hash, after resize(t, 50)) satisfies the invariant, and its copy lists the bindings in the
   other order *)
Definition zt_hash (k : Z) : N := Z.to_N (k mod 18446744073709551616)%Z.
(* the witness is stated for one FIXED configuration (the first primes of the pinned table without its leading 0, load factor 9/10,
   strict displacement rule), not for the source's current tuning: it shows that the model HAS states
   whose copy iterates in another order, whatever the tuning constants are today *)
Definition pin_primes : list N := [1; 5; 11; 23; 53; 101; 197]%N.
Definition pin_swap (j p : nat) : bool := p <? j.
Definition zt_step := t_step Z Z Z.eqb zt_hash pin_swap pin_primes 9%N 10%N.
Definition zt_run (ops : list (op Z Z)) :=
  fold_left (fun t o => fst (zt_step t o)) ops (t_empty Z Z pin_primes 9%N 10%N).
Definition witness_table := zt_run [TSet Z Z 7%Z 1%Z; TSet Z Z 3%Z 2%Z; TResize Z Z 50].

Lemma copy_changes_order :
  t_iter Z Z witness_table = [(3%Z, 2%Z); (7%Z, 1%Z)] /\
  option_map (t_iter Z Z)
    (t_assign_from Z Z Z.eqb zt_hash pin_swap pin_primes 9%N 10%N witness_table)
  = Some [(7%Z, 1%Z); (3%Z, 2%Z)].
Proof. split; vm_compute; reflexivity. Qed.

(* eleven empty slots filled with fewer bindings of pairwise different keys: the source of the
   non-vacuity witnesses below *)
Lemma fresh_table_tinv (V : Type) (kvs : list (Z * V)) : NoDup (map fst kvs) -> length kvs < 11 ->
  exists t', set_all Z V Z.eqb zt_hash table_swap (mkT Z V (repeat None 11) 0) kvs = Some t' /\ tinv Z V zt_hash t'.
Proof.
  intros Hnd Hlen.
  destruct (set_all_spec Z V Z.eqb zt_hash table_swap Z.eqb_eq table_swap_le table_swap_ge
              kvs (mkT Z V (repeat None 11) 0)) as [t' [Hs [Hi _]]]; eauto.
  - split; [apply core_repeat|]. symmetry. apply (occupied_repeat (Z * V) 11).
  - intros x _. apply Absent_repeat.
Qed.

(* non-vacuity of `tinv`: a table with two bindings that satisfies it *)
Lemma tinv_nonvacuous :
  exists t, tinv Z Z zt_hash t /\ t_iter Z Z t = [(3%Z, 2%Z); (7%Z, 1%Z)].
Proof.
  destruct (fresh_table_tinv Z [(7%Z, 1%Z); (3%Z, 2%Z)]) as [t' [Hs Hi]].
  - simpl. repeat constructor; simpl; intuition discriminate.
  - simpl. lia.
  - exists t'. split; [exact Hi|]. vm_compute in Hs. injection Hs as <-. reflexivity.
Qed.

(* A Table keyed by Int whose slot array satisfies the invariant, seen as a value: its bindings in
   iteration order.  copy(t) (= Table_Assign into fresh storage) is eq to t in both directions and
   hashes the same, whatever the hash function placing the keys and whatever the history that led
   to the state. *)
From CelloV Require Import HashModel HashProofs.

Definition emb (t : table Z value) : list (value * value) :=
  map (fun kv => (VInt (fst kv), snd kv)) (t_iter Z value t).

Section IntTable.
  Variable hd : list N -> N.
  Variable fs : nat.
  Hypothesis Hfs : fh_normalising fs = true.
  Variable hash : Z -> N.

  Definition entries_wf (t : table Z value) : Prop :=
    forall k v, In (k, v) (t_iter Z value t) -> v_wf (VInt k) = true /\ v_wf v = true.

  Lemma emb_wf (t : table Z value) : tinv Z value hash t -> entries_wf t -> v_wf (VMap KTable (emb t)) = true.
  Proof.
    intros [[_ [_ U]] _] W. apply wf_map.
    assert (A : Forall (fun kv => (scalar (fst kv) = true /\ v_wf (fst kv) = true) /\
                                  kclass (fst kv) = (0, 0) /\ v_wf (snd kv) = true) (emb t)).
    { apply Forall_forall. intros kv I. apply in_map_iff in I. destruct I as [[k0 v0] [<- I]].
      destruct (W _ _ I). simpl. auto. }
    repeat split.
    - eapply Forall_impl; [|exact A]. simpl. tauto.
    - exists (0, 0). eapply Forall_impl; [|exact A]. simpl. tauto.
    - eapply Forall_impl; [|exact A]. simpl. tauto.
    - unfold nkeys, emb. rewrite map_map. simpl. unfold t_iter in *.
      rewrite <- (map_map fst VInt). apply FinFun.Injective_map_NoDup; [|exact (UQ_NoDup Z (Z * value) fst _ U)].
      intros x y E. injection E. auto.
  Qed.

  (* tables with the same bindings are eq in both directions and hash the same *)
  Lemma emb_perm_eq (t1 t2 : table Z value) : v_wf (VMap KTable (emb t1)) = true ->
    Permutation (t_iter Z value t1) (t_iter Z value t2) ->
    v_cmp true (VMap KTable (emb t1)) (VMap KTable (emb t2)) = Some 0%Z /\
    v_cmp true (VMap KTable (emb t2)) (VMap KTable (emb t1)) = Some 0%Z /\
    v_hash hd fs (VMap KTable (emb t1)) = v_hash hd fs (VMap KTable (emb t2)).
  Proof.
    intros W1 P. assert (Pe : Permutation (emb t1) (emb t2)) by (apply Permutation_map; exact P).
    destruct (map_perm_eq hd true fs Hfs KTable KTable (emb t1) (emb t2) eq_refl W1 Pe) as [W2 [C1 H1]].
    destruct (map_perm_eq hd true fs Hfs KTable KTable (emb t2) (emb t1) eq_refl W2 (Permutation_sym Pe)) as [_ [C2 _]].
    auto.
  Qed.

  Theorem int_table_copy_eq_hash (t : table Z value) :
    tinv Z value hash t -> entries_wf t ->
    exists t', t_assign_from Z value Z.eqb hash table_swap table_primes table_load_num table_load_den t = Some t' /\
      v_cmp true (VMap KTable (emb t')) (VMap KTable (emb t)) = Some 0%Z /\
      v_cmp true (VMap KTable (emb t)) (VMap KTable (emb t')) = Some 0%Z /\
      v_hash hd fs (VMap KTable (emb t')) = v_hash hd fs (VMap KTable (emb t)) /\
      length (emb t') = length (emb t).
  Proof.
    intros Hi W.
    destruct (table_copy_same_bindings Z value Z.eqb hash t Z.eqb_eq Hi) as [t' [Ha [Hi' [P Hn]]]].
    destruct (emb_perm_eq t t' (emb_wf t Hi W) (Permutation_sym P)) as [C1 [C2 H]].
    exists t'. repeat (split; [assumption|]). split; [symmetry; exact H|].
    unfold emb. rewrite !map_length. exact (Permutation_length P).
  Qed.
End IntTable.

Lemma int_table_nonvacuous :
  exists t : table Z value, tinv Z value zt_hash t /\ entries_wf t /\
    emb t = [(VInt 3, VSeq KList [VFloat 0]); (VInt 7, VStr [72; 105]%N)].
Proof.
  destruct (fresh_table_tinv value [(7%Z, VStr [72; 105]%N); (3%Z, VSeq KList [VFloat 0])]) as [t' [Hs Hi]].
  - simpl. repeat constructor; simpl; intuition discriminate.
  - simpl. lia.
  - exists t'. split; [exact Hi|].
    vm_compute in Hs. injection Hs as <-. split; [|reflexivity].
    intros k v I. vm_compute in I. destruct I as [E|[E|[]]]; injection E as <- <-; split; vm_compute; reflexivity.
Qed.

(* With the refinement theorem of C02 (TableProofs.T_refines_map: every history of set / rem / get /
   mem / resize / copy from the empty table keeps the invariant and holds exactly the bindings of the
   finite map spec_run ops []) the hypothesis `tinv` disappears. *)
Section Histories.
  Variable hd : list N -> N.
  Variable fs : nat.
  Hypothesis Hfs : fh_normalising fs = true.

  Lemma T_run_tinv (hash : Z -> N) (ops : list (op Z value)) : tinv Z value hash (T_run Z value Z.eqb hash ops).
  Proof. apply T_run_inv, Z.eqb_eq. Qed.

  (* copy(t) after any history *)
  Theorem int_table_history_copy (hash : Z -> N) (ops : list (op Z value)) :
    let t := T_run Z value Z.eqb hash ops in
    entries_wf t ->
    exists t', t_assign_from Z value Z.eqb hash table_swap table_primes table_load_num table_load_den t = Some t' /\
      v_cmp true (VMap KTable (emb t')) (VMap KTable (emb t)) = Some 0%Z /\
      v_cmp true (VMap KTable (emb t)) (VMap KTable (emb t')) = Some 0%Z /\
      v_hash hd fs (VMap KTable (emb t')) = v_hash hd fs (VMap KTable (emb t)) /\
      length (emb t') = length (emb t).
  Proof. intros t W. apply int_table_copy_eq_hash; [exact Hfs|apply T_run_tinv|exact W]. Qed.

  (* two histories — different insertion orders, removals, reserves, copies, even different hash
     functions placing the keys — that leave the same bindings leave tables that are eq in both
     directions and hash the same *)
  Theorem int_table_histories_eq_hash (hash1 hash2 : Z -> N) (ops1 ops2 : list (op Z value)) :
    let t1 := T_run Z value Z.eqb hash1 ops1 in
    let t2 := T_run Z value Z.eqb hash2 ops2 in
    Permutation (spec_run Z value Z.eqb ops1 []) (spec_run Z value Z.eqb ops2 []) ->
    entries_wf t1 ->
    v_cmp true (VMap KTable (emb t1)) (VMap KTable (emb t2)) = Some 0%Z /\
    v_cmp true (VMap KTable (emb t2)) (VMap KTable (emb t1)) = Some 0%Z /\
    v_hash hd fs (VMap KTable (emb t1)) = v_hash hd fs (VMap KTable (emb t2)).
  Proof.
    intros t1 t2 P W. subst t1 t2.
    destruct (T_len_iter Z value Z.eqb hash1 Z.eqb_eq ops1) as [_ [_ [P1 _]]].
    destruct (T_len_iter Z value Z.eqb hash2 Z.eqb_eq ops2) as [_ [_ [P2 _]]].
    apply (emb_perm_eq hd fs Hfs _ _ (emb_wf hash1 _ (T_run_tinv hash1 ops1) W)).
    rewrite P1, P. symmetry. exact P2.
  Qed.
End Histories.

(* non-vacuity: two histories of different shape with the same final bindings *)
Definition hist1 : list (op Z value) :=
  [TSet Z value 5%Z (VStr [65]%N); TSet Z value 10%Z (VFloat 0); TSet Z value 0%Z (VInt 3)].
Definition hist2 : list (op Z value) :=
  [TSet Z value 0%Z (VInt 3); TSet Z value 7%Z (VInt 1); TResize Z value 50; TSet Z value 10%Z (VFloat 0);
   TRem Z value 7%Z; TSet Z value 5%Z (VInt 9); TSelfCopy Z value; TSet Z value 5%Z (VStr [65]%N)].
Lemma histories_nonvacuous :
  Permutation (spec_run Z value Z.eqb hist1 []) (spec_run Z value Z.eqb hist2 []) /\
  hist1 <> hist2 /\ entries_wf (T_run Z value Z.eqb zt_hash hist1).
Proof.
  split; [|split].
  - vm_compute. match goal with |- Permutation ?l _ => exact (Permutation_rev l) end.
  - discriminate.
  - intros k v I. vm_compute in I. destruct I as [E|[E|[E|[]]]]; injection E as <- <-; split; vm_compute; reflexivity.
Qed.
