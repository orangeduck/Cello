(* Properties_C02.v — property C02: Table behaves as a finite map whatever the hashing does.
   The arguments are in TableProofs.v and RobinHoodProofs.v: a theorem here is closed by `exact`, or derived
   in a few lines from table_refines_map / table_step_refines; the two theorems on the slot layout of
   TableLayout.v (size_round_ge, table_slot_layout) are proved here by arithmetic.  Each is followed by
   Print Assumptions.

   Reading aid.  K, V: key and value types; keq: decidable key equality (reflects =);
   hash: ANY function K -> N (collisions, wrap-around and rehash orders are all covered by the
   quantification over hash and over histories).
     T_empty / T_step / T_run : the executable model of src/Table.c (TableModel.v) with the prime
       table, the load factor and the displacement rule re-extracted from the C source (Generated.v).
     spec_step / spec_run / a_get : the finite map (association list, last set wins, rem deletes).
     t_inv  : the table invariant (table_inv_meaning spells it out).
     R t m  : table t holds exactly the bindings of map m (table_R_meaning).
     out    : OUnit | OVal v | OBool b | ORaise e | OCrash | OFuel; the map never returns the last two,
              so equal outcomes mean: no crash, no fuel exhaustion (all loops terminate).        *)
From Coq Require Import List Arith NArith ZArith Permutation Lia.
From CelloV Require Import Generated RobinHood RobinHoodProofs TableModel TableLayout TableProofs.
Import ListNotations.

Theorem table_ideal_size_gt : forall n : nat,
  n < ideal_size table_primes table_load_num table_load_den n.
Proof. exact TableProofs.table_ideal_gt. Qed.
Print Assumptions table_ideal_size_gt.

(* what the invariant says: robin-hood ordering (walking forward, the probe distance grows by at
   most one; an empty slot counts 0), stored home = hash k mod nslots < nslots, no key twice,
   nitems = number of occupied slots, and a free slot exists (or there is no slot array at all) *)
Theorem table_inv_meaning : forall (K V : Type) (hash : K -> N) (t : table K V),
  t_inv K V hash t <->
  ((RHL (entry K V) (slots K V t) /\
    WF K (entry K V) fst (fun k => home K hash k (nslots K V t)) (slots K V t) /\
    UQ K (entry K V) fst (slots K V t)) /\
   nitems K V t = occupied (entry K V) (slots K V t)) /\
  (nitems K V t < nslots K V t \/ nslots K V t = 0).
Proof. exact (fun K V hash t => iff_refl _). Qed.
Print Assumptions table_inv_meaning.

Theorem table_R_meaning : forall (K V : Type) (t : table K V) (m : amap K V),
  R K V t m <-> NoDup (map fst m) /\ forall e, In e (t_iter K V t) <-> In e m.
Proof. exact (fun K V t m => iff_refl _). Qed.
Print Assumptions table_R_meaning.

(* the invariant holds initially ... *)
Theorem table_inv_empty : forall (K V : Type) (hash : K -> N), t_inv K V hash (T_empty K V).
Proof. exact (fun K V hash => TableProofs.t_inv_empty K V hash _ _ _ table_ideal_gt). Qed.
Print Assumptions table_inv_empty.

(* ... and every operation (set, rem, get, mem, resize, self-copy) keeps it, keeps the table in
   step with the map, and returns what the map returns *)
Theorem table_step_refines : forall (K V : Type) (keq : K -> K -> bool) (hash : K -> N),
  (forall a b, keq a b = true <-> a = b) ->
  forall (t : table K V) (m : amap K V) (o : op K V),
  t_inv K V hash t -> R K V t m ->
  t_inv K V hash (fst (T_step K V keq hash t o)) /\
  R K V (fst (T_step K V keq hash t o)) (fst (spec_step K V keq m o)) /\
  snd (T_step K V keq hash t o) = snd (spec_step K V keq m o).
Proof. exact TableProofs.T_step_refines. Qed.
Print Assumptions table_step_refines.

(* fuel adequacy = termination of every loop of Table.c's model, and no division by zero *)
Theorem table_step_total : forall (K V : Type) (keq : K -> K -> bool) (hash : K -> N),
  (forall a b, keq a b = true <-> a = b) ->
  forall (t : table K V) (o : op K V), t_inv K V hash t ->
  snd (T_step K V keq hash t o) <> OFuel V /\ snd (T_step K V keq hash t o) <> OCrash V.
Proof.
  exact (fun K V keq hash Hk =>
    TableProofs.step_total K V keq hash table_swap _ _ _ Hk table_swap_strict table_swap_ge table_ideal_gt).
Qed.
Print Assumptions table_step_total.

(* every history, every hash function *)
Theorem table_refines_map : forall (K V : Type) (keq : K -> K -> bool) (hash : K -> N),
  (forall a b, keq a b = true <-> a = b) ->
  forall (ops : list (op K V)) (o : op K V),
  let t := T_run K V keq hash ops in
  let m := spec_run K V keq ops [] in
  t_inv K V hash t /\ R K V t m /\ snd (T_step K V keq hash t o) = snd (spec_step K V keq m o).
Proof. exact TableProofs.T_refines_map. Qed.
Print Assumptions table_refines_map.

(* len = number of bindings; iteration yields every bound key exactly once (with its value) *)
Theorem table_len_iter : forall (K V : Type) (keq : K -> K -> bool) (hash : K -> N),
  (forall a b, keq a b = true <-> a = b) ->
  forall (ops : list (op K V)),
  let t := T_run K V keq hash ops in
  let m := spec_run K V keq ops [] in
  t_len K V t = length m /\
  NoDup (map fst (t_iter K V t)) /\
  Permutation (t_iter K V t) m /\
  (forall k, In k (map fst (t_iter K V t)) <-> a_get K V keq m k <> None).
Proof. exact TableProofs.T_len_iter. Qed.
Print Assumptions table_len_iter.

Theorem table_get_mem : forall (K V : Type) (keq : K -> K -> bool) (hash : K -> N),
  (forall a b, keq a b = true <-> a = b) ->
  forall (ops : list (op K V)) (k : K),
  let t := T_run K V keq hash ops in
  let m := spec_run K V keq ops [] in
  snd (T_step K V keq hash t (TGet K V k)) =
    match a_get K V keq m k with Some v => OVal V v | None => ORaise V KeyError end /\
  snd (T_step K V keq hash t (TMem K V k)) =
    OBool V (match a_get K V keq m k with Some _ => true | None => false end).
Proof.
  intros K V keq hash Hk ops k t m.
  destruct (table_refines_map K V keq hash Hk ops (TGet K V k)) as [_ [_ Hg]].
  destruct (table_refines_map K V keq hash Hk ops (TMem K V k)) as [_ [_ Hm]].
  fold t m in Hg, Hm. rewrite Hg, Hm. simpl. destruct (a_get K V keq m k); split; reflexivity.
Qed.
Print Assumptions table_get_mem.

(* get or rem of an absent key raises KeyError and changes nothing *)
Theorem table_absent_keyerror : forall (K V : Type) (keq : K -> K -> bool) (hash : K -> N),
  (forall a b, keq a b = true <-> a = b) ->
  forall (ops : list (op K V)) (k : K),
  let t := T_run K V keq hash ops in
  let m := spec_run K V keq ops [] in
  a_get K V keq m k = None ->
  T_step K V keq hash t (TGet K V k) = (t, ORaise V KeyError) /\
  T_step K V keq hash t (TRem K V k) = (t, ORaise V KeyError).
Proof. exact TableProofs.T_absent_keyerror. Qed.
Print Assumptions table_absent_keyerror.

(* an emptied table (resize 0) keeps working: it then behaves as a new table on what follows *)
Theorem table_emptied_keeps_working : forall (K V : Type) (keq : K -> K -> bool) (hash : K -> N),
  (forall a b, keq a b = true <-> a = b) ->
  forall (ops ops' : list (op K V)) (o : op K V),
  let t := T_run K V keq hash (ops ++ TResize K V 0 :: ops') in
  let m := spec_run K V keq ops' [] in
  t_inv K V hash t /\ R K V t m /\ snd (T_step K V keq hash t o) = snd (spec_step K V keq m o).
Proof.
  intros K V keq hash Hk ops ops' o.
  pose proof (table_refines_map K V keq hash Hk (ops ++ TResize K V 0 :: ops') o) as H.
  unfold spec_run in H. rewrite fold_left_app in H. exact H.
Qed.
Print Assumptions table_emptied_keeps_working.

(* the outcome does not depend on the hash function (collisions, wrap-around, rehash order) ... *)
Theorem table_hash_independent : forall (K V : Type) (keq : K -> K -> bool) (hash1 hash2 : K -> N),
  (forall a b, keq a b = true <-> a = b) ->
  forall (ops : list (op K V)),
  let t1 := T_run K V keq hash1 ops in let t2 := T_run K V keq hash2 ops in
  (forall o, snd (T_step K V keq hash1 t1 o) = snd (T_step K V keq hash2 t2 o)) /\
  t_len K V t1 = t_len K V t2 /\ Permutation (t_iter K V t1) (t_iter K V t2).
Proof.
  exact (fun K V keq hash1 hash2 Hk ops =>
    TableProofs.same_bindings_same_answers K V keq hash1 hash2 Hk ops ops (fun k => eq_refl)).
Qed.
Print Assumptions table_hash_independent.

(* ... nor on the order in which the operations were issued, as long as they leave the same bindings *)
Theorem table_order_independent : forall (K V : Type) (keq : K -> K -> bool) (hash : K -> N),
  (forall a b, keq a b = true <-> a = b) ->
  forall (ops1 ops2 : list (op K V)),
  let t1 := T_run K V keq hash ops1 in let t2 := T_run K V keq hash ops2 in
  let m1 := spec_run K V keq ops1 [] in let m2 := spec_run K V keq ops2 [] in
  (forall k, a_get K V keq m1 k = a_get K V keq m2 k) ->
  (forall o, snd (T_step K V keq hash t1 o) = snd (T_step K V keq hash t2 o)) /\
  t_len K V t1 = t_len K V t2 /\ Permutation (t_iter K V t1) (t_iter K V t2).
Proof. exact (fun K V keq hash => TableProofs.same_bindings_same_answers K V keq hash hash). Qed.
Print Assumptions table_order_independent.

(* aliasing: set(t, k, get(t, k2)) — the argument is read from the table itself.  In the model arguments
   are values, so this equals set with a copy: the map becomes m[k := m(k2)].  (That the C code copies
   its arguments before it can free the slot array is validated by the aliasing histories of the check.) *)
Theorem table_set_from_get : forall (K V : Type) (keq : K -> K -> bool) (hash : K -> N),
  (forall a b, keq a b = true <-> a = b) ->
  forall (ops : list (op K V)) (k k2 : K) (v : V),
  let t := T_run K V keq hash ops in
  let m := spec_run K V keq ops [] in
  snd (T_step K V keq hash t (TGet K V k2)) = OVal V v ->
  a_get K V keq m k2 = Some v /\
  t_inv K V hash (fst (T_step K V keq hash t (TSet K V k v))) /\
  R K V (fst (T_step K V keq hash t (TSet K V k v))) (a_set K V keq m k v) /\
  snd (T_step K V keq hash t (TSet K V k v)) = OUnit V.
Proof.
  intros K V keq hash Hk ops k k2 v t m Hg.
  destruct (table_refines_map K V keq hash Hk ops (TGet K V k2)) as [Hi [Hr Ho]]. fold t m in Hi, Hr, Ho.
  split; [|exact (table_step_refines K V keq hash Hk t m (TSet K V k v) Hi Hr)].
  rewrite Hg in Ho. simpl in Ho. destruct (a_get K V keq m k2) as [w|]; [injection Ho as ->; reflexivity|discriminate].
Qed.
Print Assumptions table_set_from_get.

(* Table_New with initial pairs (later pairs win) and Table_Assign from another Table *)
Theorem table_new_refines : forall (K V : Type) (keq : K -> K -> bool) (hash : K -> N),
  (forall a b, keq a b = true <-> a = b) ->
  forall (kvs : list (entry K V)),
  exists t, t_new K V keq hash table_swap table_primes table_load_num table_load_den kvs = Some t /\
    t_inv K V hash t /\
    R K V t (fold_left (fun m kv => a_set K V keq m (fst kv) (snd kv)) kvs []).
Proof.
  exact (fun K V keq hash Hk =>
    TableProofs.t_new_refines K V keq hash table_swap _ _ _ Hk table_swap_strict table_swap_ge table_ideal_gt).
Qed.
Print Assumptions table_new_refines.

Theorem table_assign_refines : forall (K V : Type) (keq : K -> K -> bool) (hash : K -> N),
  (forall a b, keq a b = true <-> a = b) ->
  forall (src : table K V) (m : amap K V), t_inv K V hash src -> R K V src m ->
  exists t', t_assign_from K V keq hash table_swap table_primes table_load_num table_load_den src = Some t' /\
    t_inv K V hash t' /\ R K V t' m.
Proof.
  exact (fun K V keq hash Hk =>
    TableProofs.assign_from_refines K V keq hash table_swap _ _ _ Hk table_swap_strict table_swap_ge table_ideal_gt).
Qed.
Print Assumptions table_assign_refines.

(* tuning: the resize policy of the working tree (when Table_Resize_More / Table_Resize_Less rehash and to which
   size, as functions of nitems, re-extracted from the source) is admissible — the refinement theorems above hold
   for every policy with these three inequalities, for every prime table with a positive last entry and every
   load factor 0 < num < den (table_ideal_size_gt is all they use) *)
Theorem table_resize_policy_admissible : forall n : nat,
  n <= table_grow_trigger n /\ n <= table_grow_target n /\ n <= table_shrink_target n.
Proof. exact TableProofs.resize_policy_admissible_proof. Qed.
Print Assumptions table_resize_policy_admissible.

(* slot layout: Table_Size_Round (re-extracted from the source) rounds UP to a multiple of 8, so for
   every element size the key and the value fit into the bytes the slot reserves for them *)
Theorem size_round_ge : forall s : nat,
  s <= size_round s /\ size_round s mod 8 = 0 /\ size_round s < s + 8.
Proof.
  intros s. unfold size_round, table_size_round.
  pose proof (Nat.div_mod (s + 8 - 1) 8 ltac:(lia)) as Hd.
  pose proof (Nat.mod_upper_bound (s + 8 - 1) 8 ltac:(lia)) as Hm.
  split; [lia|]. split; [apply Nat.mod_mul; lia|lia].
Qed.
Print Assumptions size_round_ge.

(* a stored key never reaches the value's header, a stored value never reaches the next slot
   (whose first 8 bytes are its hash word), and slot i+1 starts where slot i ends *)
Theorem table_slot_layout : forall hdr ks vs i : nat,
  let step := slot_step hdr ks vs in
  8 <= key_off hdr - hdr /\
  key_off hdr + ks <= val_hdr_off hdr ks /\
  val_hdr_off hdr ks + hdr = val_off hdr ks /\
  val_off hdr ks + vs <= step /\
  i * step + step = S i * step /\
  step mod 8 = (2 * hdr) mod 8.
Proof.
  intros hdr ks vs i step. unfold step, slot_step, key_off, val_hdr_off, val_off.
  destruct (size_round_ge ks) as [Hk [Hk8 _]]. destruct (size_round_ge vs) as [Hv [Hv8 _]].
  repeat split; try lia.
  apply Nat.mod_divides in Hk8; [|lia]. apply Nat.mod_divides in Hv8; [|lia].
  destruct Hk8 as [a Ha]. destruct Hv8 as [b Hb]. rewrite Ha, Hb.
  replace (8 + hdr + 8 * a + hdr + 8 * b) with (2 * hdr + (1 + a + b) * 8) by lia.
  apply Nat.mod_add. lia.
Qed.
Print Assumptions table_slot_layout.

Theorem table_layout_shape : table_layout_shape_ok = true.
Proof. exact eq_refl. Qed.
Print Assumptions table_layout_shape.

(* the rule of the pinned source, `if (j >= p)`, does NOT refine the map (defect D1, repaired); stated with
   literal sizes (prime table prefix, load factor 9/10) so that the witness does not depend on tuning *)
Theorem table_nonstrict_refuted :
  exists (hash : Z -> N) (ops : list (op Z Z)),
    let t := t_run Z Z Z.eqb hash (fun j p => p <=? j) [0; 1; 5; 11; 23; 53]%N 9%N 10%N ops
               (t_empty Z Z [0; 1; 5; 11; 23; 53]%N 9%N 10%N) in
    let m := spec_run Z Z Z.eqb ops [] in
    t_len Z Z t = 3 /\ length m = 2 /\
    map fst (t_iter Z Z t) = [55; 110; 55]%Z /\ map fst m = [55; 110]%Z.
Proof.
  exists Z.to_N, [TSet Z Z 55 1; TSet Z Z 110 2; TSet Z Z 55 3]%Z. vm_compute. repeat split; reflexivity.
Qed.
Print Assumptions table_nonstrict_refuted.

(* non-vacuity of the hypotheses `t_inv t`, `R t m` and `keq reflects =`: a table reached by a history
   in which three keys have the last of five slots as home, two of them wrapped around *)
Example table_inv_nonvacuous :
  exists (t : table Z Z) (m : amap Z Z),
    t_inv Z Z Z.to_N t /\ R Z Z t m /\
    slots Z Z t = [Some (4, (9, 2)%Z); Some (4, (14, 3)%Z); None; Some (3, (3, 4)%Z); Some (4, (4, 1)%Z)] /\
    m = [(3, 4); (14, 3); (9, 2); (4, 1)]%Z.
Proof. exact TableProofs.T_inv_nonvacuous. Qed.

Example table_refines_map_Z :=
  table_refines_map Z Z Z.eqb Z.to_N Z.eqb_eq.
