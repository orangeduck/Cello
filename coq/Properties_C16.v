(* Properties_C16.v — String behaves as a C-string value.  The theorems of the property; what takes an
   induction or an analysis of the model is proved in StringProofs.v, corollaries, computed instances and the
   equations between code shapes here.
   c_new / c_step / c_run = the model of src/String.c (StringModel.v) instantiated with the realloc
   sizes, the memmove count and the NULL check re-extracted from the source (Generated.v).
   repr b s = "the allocation b starts with the NUL-free characters s followed by a NUL". *)
From Coq Require Import List Arith NArith ZArith Lia.
From CelloV Require Import ListFacts Generated StringModel StringProofs.
Import ListNotations.

(* lengths by plain rewriting: the autorewrite of StringProofs.len is several times slower to check *)
Local Ltac lens := repeat rewrite ?app_length, ?map_length, ?firstn_length, ?skipn_length; cbn [length]; lia.

(* every history of assign/concat/append/resize/rem/mem/cmp/eq/len/c_str/hash/print_to — with
   any C string or the String itself as the argument — from any initial value: same results as the abstract-string specification, never undefined behaviour,
   and the final allocation holds exactly the specification's string *)
Theorem C16_history_refines : forall v0 ops, nulfree v0 -> Forall op_ok ops ->
  exists b0 bf, c_new v0 = Some b0 /\ c_run b0 ops = (fst (spec_run v0 ops), bf) /\
                repr bf (snd (spec_run v0 ops)).
Proof. exact c_history_refines. Qed.
Print Assumptions C16_history_refines.

Example C16_history_refines_nonvacuous :
  nulfree [97; 98; 99; 98; 99; 97; 98] /\
  Forall op_ok [ORem [98; 99; 97; 98]; OLen; OMem [99]; OPrint 1 [PLit [120]; PInt (-42)]; OCStr; OConcatSelf; OLen; OPrint 10 [PSelf]; OLen] /\
  exists b0, c_new [97; 98; 99; 98; 99; 97; 98] = Some b0 /\
    fst (c_run b0 [ORem [98; 99; 97; 98]; OLen; OMem [99]; OPrint 1 [PLit [120]; PInt (-42)]; OCStr; OConcatSelf; OLen; OPrint 10 [PSelf]; OLen])
    = [SUnit; SNat 3; SBool true; SNat 5; SChars [97; 120; 45; 52; 50]; SUnit; SNat 10; SNat 20; SNat 20].
Proof.
  split; [repeat constructor; discriminate|]. split; [repeat constructor; discriminate|].
  exists (map Some [97; 98; 99; 98; 99; 97; 98; 0]). split; vm_compute; reflexivity.
Qed.

(* the same from new(String) without arguments *)
Theorem C16_history_refines_from_empty : forall ops, Forall op_ok ops ->
  exists bf, c_run m_new_empty ops = (fst (spec_run [] ops), bf) /\ repr bf (snd (spec_run [] ops)).
Proof. intros ops. apply c_run_refines, (repr_intro [] []). constructor. Qed.
Print Assumptions C16_history_refines_from_empty.

Theorem C16_step_refines : forall b s o, repr b s -> op_ok o ->
  exists b', c_step b o = (b', snd (spec_step s o)) /\ repr b' (fst (spec_step s o)).
Proof. exact (step_refines _ _ _ _ _ _ _ _ _ string_resize_same_returns _ _ _ _ gen_assign gen_concat gen_resize gen_format gen_rem gen_chk gen_asafe gen_csafe gen_fsafe gen_shr gen_grow gen_local). Qed.
Print Assumptions C16_step_refines.

Example C16_step_refines_nonvacuous :
  repr [Some 97; Some 97; Some 97; Some 0; None; Some 7] [97; 97; 97] /\ op_ok (ORem [97; 97]).
Proof. split; [split; [repeat constructor; discriminate|eexists; reflexivity]|repeat constructor; discriminate]. Qed.

Theorem C16_no_undefined_behaviour : forall v0 ops, nulfree v0 -> Forall op_ok ops ->
  exists b0, c_new v0 = Some b0 /\ ~ In SCrash (fst (c_run b0 ops)).
Proof.
  intros v0 ops Hv Hok. destruct (c_history_refines v0 ops Hv Hok) as (b0 & bf & E & Er & _).
  exists b0. split; [exact E|]. rewrite Er. apply spec_run_no_crash.
Qed.
Print Assumptions C16_no_undefined_behaviour.

(* the terminator lies inside the allocation, everything before it is a defined non-NUL byte *)
Theorem C16_terminated_inside_allocation : forall b s, repr b s ->
  length s < length b /\ nth_error b (length s) = Some (Some 0) /\
  forall i, i < length s -> exists c, nth_error b i = Some (Some c) /\ c <> 0.
Proof.
  intros b s H. split; [exact (repr_length _ _ H)|]. destruct H as [Hn [t ->]]. split.
  - rewrite nth_error_app2, map_length, Nat.sub_diag by lens. reflexivity.
  - intros i Hi. exists (nth i s 0). rewrite nth_error_app1, nth_error_map, (nth_error_nth' s 0 Hi) by lens.
    split; [reflexivity|]. apply Forall_nth; assumption.
Qed.
Print Assumptions C16_terminated_inside_allocation.

(* repr is exactly "a C reader of the buffer sees s" *)
Theorem C16_repr_is_c_str : forall b s, repr b s <-> c_str b = Some s.
Proof. exact repr_iff_c_str. Qed.
Print Assumptions C16_repr_is_c_str.

(* the specification's search is strstr: the least offset at which the needle occurs *)
Theorem C16_first_occurrence : forall v s i,
  first_occ v s = Some i <-> (occurs v s i /\ forall j, j < i -> ~ occurs v s j).
Proof. exact first_occ_some. Qed.
Print Assumptions C16_first_occurrence.

Theorem C16_no_occurrence : forall v s, first_occ v s = None <-> forall i, ~ occurs v s i.
Proof. exact first_occ_none. Qed.
Print Assumptions C16_no_occurrence.

Theorem C16_strstr_scan_is_first_occurrence : forall v s, find_sub v s = first_occ v s.
Proof. exact find_sub_first_occ. Qed.
Print Assumptions C16_strstr_scan_is_first_occurrence.

(* rem deletes the first occurrence, overlapping later occurrences or not *)
Theorem C16_rem_deletes_first : forall l v r,
  (forall j, j < length l -> ~ occurs v (l ++ v ++ r) j) ->
  spec_step (l ++ v ++ r) (ORem v) = (l ++ r, SUnit).
Proof. exact spec_rem_first. Qed.
Print Assumptions C16_rem_deletes_first.

Example C16_rem_deletes_first_overlap :     (* "ababab" - "abab" = "ab" *)
  spec_step [97; 98; 97; 98; 97; 98] (ORem [97; 98; 97; 98]) = ([97; 98], SUnit).
Proof. vm_compute. reflexivity. Qed.

Theorem C16_rem_absent_raises : forall v s,
  (forall i, ~ occurs v s i) -> spec_step s (ORem v) = (s, SRaise SValueError).
Proof. exact spec_rem_absent. Qed.
Print Assumptions C16_rem_absent_raises.

Example C16_rem_absent_nonvacuous : forall i, ~ occurs [120] [97; 98; 99] i.
Proof. apply first_occ_none. vm_compute. reflexivity. Qed.

Theorem C16_mem_is_substring : forall v s,
  existsb (occurs_at v s) (seq 0 (S (length s))) = true <-> exists i, occurs v s i.
Proof.
  intros v s. rewrite existsb_find. fold (first_occ v s). destruct (first_occ v s) as [i|] eqn:E.
  - apply first_occ_some in E. split; [intros _; exists i; apply E|reflexivity].
  - split; [discriminate|]. intros [i Hi]. destruct (proj1 (first_occ_none v s) E i Hi).
Qed.
Print Assumptions C16_mem_is_substring.

(* cmp is strcmp's order on unsigned bytes; eq is equality *)
Theorem C16_cmp_eq : forall a b, str_compare a b = Eq <-> a = b.
Proof. exact str_compare_eq. Qed.
Print Assumptions C16_cmp_eq.

Theorem C16_cmp_lt : forall a b, str_compare a b = Lt <-> lex_lt a b.
Proof. exact str_compare_lt. Qed.
Print Assumptions C16_cmp_lt.

Theorem C16_cmp_antisym : forall a b, str_compare b a = CompOpp (str_compare a b).
Proof. exact str_compare_antisym. Qed.
Print Assumptions C16_cmp_antisym.

Theorem C16_cmp_trans : forall a b c, str_compare a b = Lt -> str_compare b c = Lt -> str_compare a c = Lt.
Proof. exact str_compare_trans. Qed.
Print Assumptions C16_cmp_trans.

Theorem C16_cmp_total_order : forall a b,
  (str_compare a b = Lt /\ a <> b /\ str_compare b a = Gt) \/
  (str_compare a b = Eq /\ a = b /\ str_compare b a = Eq) \/
  (str_compare a b = Gt /\ a <> b /\ str_compare b a = Lt).
Proof.
  intros a b. pose proof (str_compare_eq a b) as Q. rewrite (str_compare_antisym a b).
  destruct (str_compare a b); cbn [CompOpp]; [right; left|left|right; right];
    (split; [reflexivity|split; [|reflexivity]]).
  - apply Q. reflexivity.
  - intros E%Q. discriminate.
  - intros E%Q. discriminate.
Qed.
Print Assumptions C16_cmp_total_order.

(* print_to in closed form when the target is not among the arguments *)
Theorem C16_print_to_closed_form : forall ps s pos, Forall (fun p => p <> PSelf) ps ->
  spec_print s pos ps =
  (match ps with
   | [] => s
   | _ => if pos <=? length s then firstn pos s ++ concat (map render ps) else s
   end, pos + length (concat (map render ps))).
Proof. exact spec_print_closed. Qed.
Print Assumptions C16_print_to_closed_form.

Example C16_print_to_self :      (* print_to(s, 1, "%s-%s", s, s) on "abc": pieces see the string as it is by then *)
  spec_step [97; 98; 99] (OPrint 1 [PSelf; PLit [45]; PSelf]) = ([97; 97; 98; 99; 45; 97; 97; 98; 99; 45], SNat 10).
Proof. vm_compute. reflexivity. Qed.

(* before the repair of String_Format_To: the target as a "%s" argument is read after the realloc *)
Theorem C16_print_to_self_before_repair_undefined : forall b fa cap hw pos r,
  m_print_to fa false cap hw b pos (PSelf :: r) = None.
Proof. reflexivity. Qed.
Print Assumptions C16_print_to_self_before_repair_undefined.

(* the model's "%li" text (compared with libc's by the harness): the fuel of its digit loop is
   enough — an optional '-' followed by decimal digits that denote |z| *)
Theorem C16_li_rendering_denotes : forall z,
  match dec_of_Z z with
  | 45 :: ds => z = (- Z.of_N (dec_value ds))%Z /\ (z < 0)%Z /\ Forall (fun c => 48 <= c <= 57) ds
  | ds => z = Z.of_N (dec_value ds) /\ Forall (fun c => 48 <= c <= 57) ds
  end.
Proof.
  intros z. exact (dec_of_Z_cases z (fun ds => z = (- Z.of_N (dec_value ds))%Z /\ (z < 0)%Z /\ Forall (fun c => 48 <= c <= 57) ds)
                     (fun ds => z = Z.of_N (dec_value ds) /\ Forall (fun c => 48 <= c <= 57) ds) (fun _ H => H) (fun _ H => H)).
Qed.
Print Assumptions C16_li_rendering_denotes.

(* the String itself as the argument means the same as any argument with its value *)
Theorem C16_self_argument_by_value : forall s,
  spec_step s OAssignSelf = spec_step s (OAssign s) /\
  spec_step s OConcatSelf = spec_step s (OConcat s) /\
  spec_step s ORemSelf = spec_step s (ORem s) /\
  spec_step s OMemSelf = spec_step s (OMem s) /\
  spec_step s OCmpSelf = spec_step s (OCmp s) /\
  spec_step s OEqSelf = spec_step s (OEq s).
Proof.
  intros s. rewrite spec_rem_self. cbn [spec_step]. rewrite existsb_find. fold (first_occ s s).
  rewrite first_occ_self, str_compare_eqb, str_compare_refl. repeat split.
Qed.
Print Assumptions C16_self_argument_by_value.

(* assign(s, s) / concat(s, s) before their repair (strcpy from a pointer fetched before the realloc,
   strcat(val, val)): use after realloc / overlapping copy, undefined behaviour in every state *)
Theorem C16_self_argument_before_repair_undefined : forall b fa fc,
  m_assign_self fa false b = None /\ m_concat_self fc false b = None.
Proof. split; reflexivity. Qed.
Print Assumptions C16_self_argument_before_repair_undefined.

(* hash depends on the current characters only — not on the allocation behind the terminator, not on
   the history (in particular not on what was hashed before at the same address) *)
Theorem C16_hash_of_characters_only : forall b s, repr b s -> c_step b OHash = (b, SHash (murmur64 s)).
Proof. intros b s Hr. unfold c_step, m_step, obs. rewrite (repr_c_str _ _ Hr). reflexivity. Qed.
Print Assumptions C16_hash_of_characters_only.

Theorem C16_hash_independent_of_history : forall v1 ops1 v2 ops2,
  nulfree v1 -> Forall op_ok ops1 -> nulfree v2 -> Forall op_ok ops2 ->
  snd (spec_run v1 ops1) = snd (spec_run v2 ops2) ->
  exists b1 b2 f1 f2, c_new v1 = Some b1 /\ c_new v2 = Some b2 /\
    snd (c_run b1 ops1) = f1 /\ snd (c_run b2 ops2) = f2 /\
    snd (c_step f1 OHash) = snd (c_step f2 OHash).
Proof.
  intros v1 ops1 v2 ops2 H1 O1 H2 O2 E.
  destruct (c_history_refines v1 ops1 H1 O1) as [b1 [f1 [N1 [R1 P1]]]].
  destruct (c_history_refines v2 ops2 H2 O2) as [b2 [f2 [N2 [R2 P2]]]].
  exists b1, b2, f1, f2. rewrite R1, R2. repeat split; try assumption.
  rewrite (C16_hash_of_characters_only _ _ P1), (C16_hash_of_characters_only _ _ P2), E. reflexivity.
Qed.
Print Assumptions C16_hash_independent_of_history.

Example C16_hash_independent_of_history_nonvacuous :     (* "abcd" rem "bc"  vs  "a" concat "d" *)
  snd (spec_run [97; 98; 99; 100] [ORem [98; 99]]) = snd (spec_run [97] [OConcat [100]]).
Proof. vm_compute. reflexivity. Qed.

(* the source of String_Hash is exactly hash_data(s->val, strlen(s->val)) — no static, nothing remembered —
   and String_Len / C_Str / Cmp / Mem are single libc calls on s->val (re-extracted on every run) *)
Theorem C16_observers_stateless_in_source : string_hash_stateless = true /\ string_observers_pure = true.
Proof. split; reflexivity. Qed.
Print Assumptions C16_observers_stateless_in_source.

(* why further code shapes are read as the same model by tools/genx_str.py (design.d/C16.md) *)

(* String_Rem may return at once for an empty needle: the general path moves the whole string onto itself *)
Theorem C16_shape_rem_empty_needle_returns : forall rc, (forall hl pl nl, rc hl pl nl = (pl - nl + 1)%Z) ->
  forall chk b s, repr b s -> m_rem rc chk b [] = (b, SUnit).
Proof.
  intros rc Hrc chk b s Hr. unfold m_rem. pose proof (repr_length _ _ Hr). rewrite (repr_c_str _ _ Hr).
  replace (find_sub [] s) with (Some 0) by (destruct s; reflexivity). rewrite Hrc. cbn [length Nat.add].
  rewrite (proj2 (Z.ltb_ge _ _)) by lia.
  rewrite memmove_id by lia. reflexivity.
Qed.
Print Assumptions C16_shape_rem_empty_needle_returns.

(* `strlen(pos + strlen(needle))` read as `strlen(pos) - strlen(needle)`: pos is where strstr
   found the needle, so the needle's bytes are there *)
Theorem C16_shape_rem_tail_length : forall v h i, find_sub v h = Some i ->
  length (skipn (i + length v) h) = (length h - i) - length v.
Proof. intros v h i. rewrite find_sub_first_occ. intros [[l [r [-> <-]]] _]%first_occ_some. lens. Qed.
Print Assumptions C16_shape_rem_tail_length.

(* String_Concat may copy the terminator along (memmove of m+1 bytes) instead of m bytes and an explicit store:
   with the String itself as source the byte behind the n characters IS the terminator, and memmove copies as
   if through a temporary *)
Theorem C16_shape_concat_moves_terminator : forall (s : list nat) t, length s <= length t ->
  let b := map Some s ++ Some 0 :: t in
  let n := length s in
  memmove b n 0 (n + 1) =
  match memmove b n 0 n with Some b' => write b' (n + n) [0] | None => None end.
Proof.
  intros s t Ht b n. subst b n. change (Some 0 :: t) with ([Some 0] ++ t).
  rewrite (memmove_dup (map Some s)), (app_assoc (map Some s) (map Some s)), write_ok, firstn_app_eq, (skipn_app_eq _ 1) by lens.
  rewrite skipn_skipn, Nat.add_1_r, memmove_ok by lens. cbn [skipn].
  rewrite (firstn_app_eq (length s) (map Some s)), (app_assoc (map Some s) [Some 0]), firstn_app_eq,
    (skipn_app_eq _ (length s)) by lens.
  cbn [skipn Nat.add app]. rewrite <- !app_assoc. reflexivity.
Qed.
Print Assumptions C16_shape_concat_moves_terminator.

(* String_Format_To with a local buffer of 64 bytes and the heap path only for size > 64 (seeded change
   C16-2): a piece of exactly 64 characters copies 65 bytes out of the 64-byte array *)
Theorem C16_format_local_buffer_off_by_one_undefined : forall fa b pos text,
  length text = 64 -> m_format_to fa 64 (fun size cap => cap <? size) b pos text = None.
Proof. intros fa b pos text H. unfold m_format_to. rewrite H. reflexivity. Qed.
Print Assumptions C16_format_local_buffer_off_by_one_undefined.

(* the code before the repair of String_Rem (D6): "abcdef" rem "cd" left "abedef" (here with the bytes 1..6 for a..f) *)
Theorem C16_rem_before_repair_refuted :
  exists s v, nulfree s /\ nulfree v /\
    exists b', m_rem old_rem_count false (map Some (s ++ [0])) v = (b', SUnit) /\
               c_str b' <> Some (fst (spec_step s (ORem v))).
Proof.
  exists [1; 2; 3; 4; 5; 6], [3; 4].
  do 2 (split; [repeat constructor; discriminate|]).
  eexists. split; [vm_compute; reflexivity|]. vm_compute. discriminate.
Qed.
Print Assumptions C16_rem_before_repair_refuted.

(* a match at the very start made the byte count wrap around; an absent needle passed NULL to strlen *)
Theorem C16_rem_before_repair_crashes :
  (exists s v, nulfree s /\ nulfree v /\ first_occ v s = Some 0 /\
     snd (m_rem old_rem_count false (map Some (s ++ [0])) v) = SCrash) /\
  (exists s v, nulfree s /\ nulfree v /\ first_occ v s = None /\
     snd (m_rem old_rem_count false (map Some (s ++ [0])) v) = SCrash).
Proof.
  split; [exists [1; 2; 3; 4; 5; 6], [1; 2]|exists [1; 2; 3], [4]];
    do 2 (split; [repeat constructor; discriminate|]); split; vm_compute; reflexivity.
Qed.
Print Assumptions C16_rem_before_repair_crashes.
