(* Properties_C05.v — property C05: containers own their elements, each is finalised exactly once.
   Statements closed by `exact` (the normalisation of signed indices is decided in place), each followed by
   its `Print Assumptions`.
   `run ops` is the world reached by ANY history `ops` of container operations (coq/Ownership.v);
   `held` = tokens of the elements currently contained, `dead` = tokens destructed so far,
   `next` = number of tokens issued (constructions). *)
From Coq Require Import List Arith NArith ZArith Lia Permutation Sorted.
From CelloV Require Import Generated RobinHood TableModel TableProofs SeqModels SeqProofs SortProofs SeqTheorems Ownership OwnershipProofs.
Import ListNotations.

(* every element ever constructed is, at every moment of every history, EITHER contained in exactly
   one container position OR destructed exactly once — as one permutation equation *)
Theorem ownership_ledger : forall ops,
  Permutation (held (conts (run ops)) ++ map fst (dead (run ops))) (seq 0 (next (run ops))).
Proof. exact run_inv. Qed.
Print Assumptions ownership_ledger.

(* the ledger conjunct by conjunct: no element is held twice (deep copies, no duplication), none is destructed
   twice, none is destructed while contained, only issued tokens are destructed, nothing is dropped, and
   live = issued - destructed = held *)
Theorem ownership_exactly_once : forall ops,
  let w := run ops in
  NoDup (held (conts w)) /\
  NoDup (map fst (dead w)) /\
  (forall t, In t (held (conts w)) -> ~ In t (map fst (dead w))) /\
  (forall t, In t (map fst (dead w)) -> t < next w) /\
  (forall t, t < next w -> In t (held (conts w)) \/ In t (map fst (dead w))) /\
  length (held (conts w)) + length (dead w) = next w.
Proof. exact OwnershipProofs.ownership_exactly_once. Qed.
Print Assumptions ownership_exactly_once.

(* signed indices (get/set/pop_at/push_at take an int64 and normalise a negative one against the current length, as
   the C code does): every history with signed indices is a history of plain operations of the same length, so every
   statement of this file about [run ops] holds of [srun ss] as well — in particular the ledger *)
Theorem signed_index_histories_are_plain_histories : forall ss, exists ops, srun ss = run ops /\ length ops = length ss.
Proof. exact srun_is_run. Qed.
Print Assumptions signed_index_histories_are_plain_histories.

Theorem ownership_ledger_with_signed_indices : forall ss,
  Permutation (held (conts (srun ss)) ++ map fst (dead (srun ss))) (seq 0 (next (srun ss))).
Proof. exact (srun_transfer (fun w => Permutation (held (conts w) ++ map fst (dead w)) (seq 0 (next w))) run_inv). Qed.
Print Assumptions ownership_ledger_with_signed_indices.

Theorem signed_index_normalisation_is_the_C_one : forall n i,
  ((i < 0)%Z -> (0 <= Z.of_nat n + i)%Z -> Z.of_nat (norm_index n i) = (Z.of_nat n + i)%Z) /\
  ((i < 0)%Z -> (Z.of_nat n + i < 0)%Z -> norm_index n i = S n) /\
  ((0 <= i <= Z.of_nat (S n))%Z -> Z.of_nat (norm_index n i) = i) /\
  ((Z.of_nat (S n) < i)%Z -> norm_index n i = S n).
Proof.
  intros n i. unfold norm_index.
  destruct (Z.ltb_spec i 0); [destruct (Z.ltb_spec (Z.of_nat n + i) 0) | destruct (Z.ltb_spec (Z.of_nat (S n)) i)]; lia.
Qed.
Print Assumptions signed_index_normalisation_is_the_C_one.

Example signed_index_nonvacuous :
  map cval (match conts (srun [SOp (ONewSeq KArray [10; 11; 12; 13]%Z); SPopAt 0 (-2); SPushAt 0 (-1) 7; SPopAt 0 (-9); SSet 0 (-4) 5]) with
            | [Some (CSeq _ l)] => l | _ => [] end) = [5; 11; 13; 7]%Z.
Proof. vm_compute. reflexivity. Qed.

(* number of live elements = sum of the container lengths (keys and values alike; zero-filled
   List elements, which carry no token until first assigned, are counted apart) *)
Theorem live_equals_lengths : forall ops,
  let w := run ops in
  next w - length (dead w) = length (held (conts w)) /\
  length (held (conts w)) + total_zeros (conts w) = total_len (conts w).
Proof. exact OwnershipProofs.live_equals_lengths. Qed.
Print Assumptions live_equals_lengths.

(* an operation changes only the container it is applied to: the source of an assign / concat /
   copy and every other container keep exactly their elements (mutating or deleting one side of a
   copy never changes the other) *)
Theorem operations_are_framed : forall w o j,
  j < length (conts w) -> target o <> Some j -> nth_error (conts (step w o)) j = nth_error (conts w) j.
Proof. exact step_frame. Qed.
Print Assumptions operations_are_framed.

(* copies are deep: every element of a fresh copy is a new element *)
Theorem copy_is_deep : forall ops d,
  let w := run ops in let w' := step w (OCopy d) in
  forall t, In t (held (conts w)) -> In t (held (conts w')) /\
  (forall x, nth_error (conts w') (length (conts w)) = Some (Some x) -> ~ In t (cont_toks x)).
Proof. exact OwnershipProofs.copy_is_deep. Qed.
Print Assumptions copy_is_deep.

(* sort swaps neither duplicate nor drop an element *)
Theorem sort_moves_cells : forall l, Permutation (s_sort l) l.
Proof. exact s_sort_perm. Qed.
Print Assumptions sort_moves_cells.

(* ---- internal moves neither duplicate nor drop an element: statements about the SLOT-LEVEL models of C02/C04
   (the ones compared with the library slot by slot), with an ARBITRARY value/element type — in particular
   one carrying ownership tokens *)

(* Table: after any history (growth and shrink rehashing, robin-hood displacement, backward shift, copy)
   the entries found in the slot array are exactly, as a multiset, the bindings of the abstract map:
   no key or value was duplicated or lost by the moves; this holds for every hash function *)
Theorem table_moves_neither_duplicate_nor_drop : forall (K V : Type) (keq : K -> K -> bool) (hash : K -> N),
  (forall a b, keq a b = true <-> a = b) ->
  forall (ops : list (TableModel.op K V)),
  let t := T_run K V keq hash ops in
  let m := TableModel.spec_run K V keq ops [] in
  TableModel.t_len K V t = length m /\
  NoDup (map fst (TableModel.t_iter K V t)) /\
  Permutation (TableModel.t_iter K V t) m /\
  (forall k, In k (map fst (TableModel.t_iter K V t)) <-> TableModel.a_get K V keq m k <> None).
Proof. exact TableProofs.T_len_iter. Qed.
Print Assumptions table_moves_neither_duplicate_nor_drop.

(* Array: the quicksort as coded (swaps) returns a permutation of the elements it was given *)
Theorem array_sort_swaps_permute : forall (E : Type) (leq : E -> E -> bool),
  (forall x y, leq x y = true \/ leq y x = true) ->
  (forall x y z, leq x y = true -> leq y z = true -> leq x z = true) ->
  forall xs : list E,
  exists ys, qsort (lt_of E leq) xs = SeqModels.Ok ys /\ Permutation xs ys /\
             StronglySorted (fun x y => leq x y = true) ys /\
             Sorted (fun x y => leq x y = true) ys.
Proof. exact SeqTheorems.sort_perm_sorted. Qed.
Print Assumptions array_sort_swaps_permute.

(* Array / List: in every invariant state (capacity changes by realloc included) the stored elements are
   exactly the abstract sequence *)
Theorem array_cells_are_the_sequence : forall (E : Type) (a : array E),
  a_inv E a -> nitems E a = length (a_abs E a) /\ a_iter E a = SeqModels.Ok (a_abs E a).
Proof. exact SeqProofs.a_observe. Qed.
Print Assumptions array_cells_are_the_sequence.

Theorem list_nodes_are_the_sequence : forall (E : Type) (l : llist E),
  l_inv E l -> lnitems E l = length (l_abs E l) /\ l_iter E l = SeqModels.Ok (l_abs E l).
Proof. exact SeqProofs.l_observe. Qed.
Print Assumptions list_nodes_are_the_sequence.

(* non-vacuity: a history with two kinds of containers, a replacement in a Table, an in-place
   update in a Tree, a cross-kind assign, a deep copy, a zero-filled List element and deletions *)
Example ownership_nonvacuous :
  let ops := [ONewSeq KArray [1;2;3]%Z; ONewSeq KList [5]%Z; ONewMap KTable [(1,2);(3,4)]%Z;
              OMSet 2 1%Z 9%Z; ONewMap KTree [(1,2)]%Z; OMSet 3 1%Z 7%Z; OAssign 1 0; OCopy 2;
              OResize 1 5; OPopAt 0 1; ODel 2; OSort 0; ONewBox 4%Z; ODel 5] in
  let w := run ops in
  next w = 20 /\ length (dead w) = 9 /\ length (held (conts w)) = 11 /\
  total_len (conts w) = 13 /\ total_zeros (conts w) = 2.
Proof. vm_compute. repeat split. Qed.
