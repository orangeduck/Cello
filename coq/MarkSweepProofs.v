(* Proofs about the mark/sweep model (C01).  The tracer is analysed by induction on the fuel and on the
   contents, once for what it marks and once for termination: what it marks is closed under trace edges, covers
   what it was handed (trace_with_ok) and lies within every set that is closed under trace edges and contains
   what it started from and was handed (trace_with_least), so it is exactly the reachable or root-flagged
   entries; the supplied fuel suffices (trace_with_total).  GC_Mark is one run of the tracer (mark_as_trace), so
   the theorems about mark, collect and the collection points of a history are corollaries. *)
From Coq Require Import List Arith NArith PArith Bool FMapPositive Lia.
From CelloV Require Import ListFacts HeapGraph MarkSweep.
Import ListNotations.

Lemma nget_nset_same {A} (w : word) (a : A) m : w <> 0%N -> nget w (nset w a m) = Some a.
Proof. destruct w; [congruence|]. intros _. apply PM.gss. Qed.

Lemma nget_nset_other {A} (w w' : word) (a : A) m : w <> w' -> nget w (nset w' a m) = nget w m.
Proof. destruct w, w'; intros H; try reflexivity. apply PM.gso. congruence. Qed.

Lemma nget_ndel_same {A} (w : word) (m : nmap A) : nget w (ndel w m) = None.
Proof. destruct w; [reflexivity|]. apply PM.grs. Qed.

Lemma nget_ndel_other {A} (w w' : word) (m : nmap A) : w <> w' -> nget w (ndel w' m) = nget w m.
Proof. destruct w, w'; intros H; try reflexivity. apply PM.gro. congruence. Qed.

Lemma nget_nempty {A} (w : word) : nget w (@nempty A) = None.
Proof. destruct w; [reflexivity|]. apply PM.gempty. Qed.

Lemma registered_nonzero rg w : registered rg w = true -> w <> 0%N.
Proof. intros H ->. discriminate. Qed.

Lemma is_root_registered rg w : is_root rg w = true -> registered rg w = true.
Proof. unfold is_root, registered. destruct (nget w rg); congruence. Qed.

Lemma registered_nset rg p r q : p <> 0%N ->
  registered (nset p r rg) q = true <-> q = p \/ registered rg q = true.
Proof.
  intros Hp. unfold registered. destruct (N.eq_dec q p) as [->|Hne].
  - rewrite nget_nset_same by assumption. tauto.
  - rewrite nget_nset_other by assumption. tauto.
Qed.

Lemma marked_nempty w : marked nempty w = false.
Proof. unfold marked. rewrite nget_nempty. reflexivity. Qed.

Lemma marked_setmark_same m w : w <> 0%N -> marked (setmark w m) w = true.
Proof. intros H. unfold marked, setmark. rewrite nget_nset_same by assumption. reflexivity. Qed.

Lemma marked_setmark_other m w w' : w <> w' -> marked (setmark w' m) w = marked m w.
Proof. intros H. unfold marked, setmark. rewrite nget_nset_other by assumption. reflexivity. Qed.

Lemma marked_setmark_iff m w q : w <> 0%N -> marked (setmark w m) q = true <-> q = w \/ marked m q = true.
Proof.
  intros Hw. destruct (N.eq_dec q w) as [->|Hne].
  - rewrite marked_setmark_same by assumption. tauto.
  - rewrite marked_setmark_other by assumption. tauto.
Qed.

Definition sub (m m' : marks) : Prop := forall w, marked m w = true -> marked m' w = true.

Lemma sub_refl m : sub m m. Proof. intros w H; exact H. Qed.
Lemma sub_trans m1 m2 m3 : sub m1 m2 -> sub m2 m3 -> sub m1 m3.
Proof. intros H1 H2 w H. auto. Qed.
Lemma sub_setmark m w : sub m (setmark w m).
Proof. intros x H. destruct w as [|p]; [exact H|]. apply marked_setmark_iff; [discriminate|auto]. Qed.

(* induction principle for the nested type *)
Section ContentsInd.
  Variable P : contents -> Prop.
  Hypothesis HW : forall ws, P (Words ws).
  Hypothesis HE : forall es, Forall P es -> P (Elems es).
  Hypothesis HI : forall ps, P (Items ps).
  Hypothesis HL : P NoPtr.
  Fixpoint contents_ind' (c : contents) : P c :=
    match c with
    | Words ws => HW ws
    | Elems es => HE es ((fix go (l : list contents) : Forall P l :=
                            match l with
                            | [] => Forall_nil P
                            | e :: r => Forall_cons e (contents_ind' e) (go r)
                            end) es)
    | Items ps => HI ps
    | NoPtr => HL
    end.
End ContentsInd.

Lemma bind_ok {A B} (o : outcome A) (f : A -> outcome B) b :
  bind o f = Ok b -> exists a, o = Ok a /\ f a = Ok b.
Proof. destruct o; simpl; intros H; try discriminate. eauto. Qed.

Lemma fold_o_cons {A S} (f : A -> S -> outcome S) a l s :
  fold_o f (a :: l) s = bind (f a s) (fold_o f l).
Proof. reflexivity. Qed.

Section Dfs.
  Variable h : heap.
  Variable rg : registry.
  Variables (minptr maxptr : N).
  Hypothesis Hrange : range_ok rg minptr maxptr.

  Notation pts := (pts h rg).
  Notation reg := (registered rg).

  Lemma prefilter_registered w : reg w = true -> prefilter minptr maxptr w = true.
  Proof.
    intros H. destruct (Hrange w H) as (H1 & H2 & H3). unfold prefilter.
    apply N.eqb_eq in H1. apply N.leb_le in H2. apply N.leb_le in H3.
    rewrite H1, H2, H3. reflexivity.
  Qed.

  (* every entry marked by the step m -> m' has all its registered successors marked in m' *)
  Definition newly_closed (m m' : marks) : Prop :=
    forall p, marked m' p = true -> marked m p = false ->
      forall c q, nget p h = Some c -> pts c q -> reg q = true -> marked m' q = true.

  Definition step_ok (m m' : marks) : Prop := sub m m' /\ newly_closed m m'.

  Lemma step_ok_refl m : step_ok m m.
  Proof. split; [apply sub_refl|]. intros p H1 H2. congruence. Qed.

  Lemma step_ok_trans m1 m2 m3 : step_ok m1 m2 -> step_ok m2 m3 -> step_ok m1 m3.
  Proof.
    intros [S12 N12] [S23 N23]. split; [eapply sub_trans; eauto|].
    (* an entry marked on the way was closed by the first step if it was marked in m2, else by the second *)
    intros p H3 H1 c q Hc Hp Hq. destruct (marked m2 p) eqn:E2.
    - apply S23. eapply N12; eauto.
    - eapply N23; eauto.
  Qed.

  (* what a tracer of contents must deliver *)
  Definition covers (c : contents) (m : marks) : Prop :=
    forall q, pts c q -> reg q = true -> marked m q = true.

  Lemma covers_mono c m m' : covers c m -> sub m m' -> covers c m'.
  Proof. intros C S q Hq Hr. apply S. apply C; assumption. Qed.

  Definition rec_ok (rec : contents -> marks -> outcome marks) : Prop :=
    forall c m m', rec c m = Ok m' -> step_ok m m' /\ covers c m'.

  (* the root loop of GC_Mark hands the root-flagged addresses to the marking part of GC_Mark_Item: such an
     address is registered, so neither the prefilter nor the lookup rejects it *)
  Lemma root_pass rec order m :
    fold_o (root_step h rg rec) order m = fold_o (mark_item h rg minptr maxptr rec) (filter (is_root rg) order) m.
  Proof.
    revert m. induction order as [|p l IH]; intros m; [reflexivity|].
    rewrite fold_o_cons. unfold root_step. cbn [filter]. destruct (is_root rg p) eqn:Hr; [|apply IH].
    rewrite fold_o_cons. unfold mark_item.
    rewrite (is_root_registered _ _ Hr), prefilter_registered by (apply is_root_registered, Hr).
    destruct (marked m p); cbn [andb negb bind]; [apply IH|].
    destruct (descend h rec p (setmark p m)); cbn [bind]; auto.
  Qed.

  (* GC_Mark is one run of the tracer, on the TLS values as embedded elements, the root-flagged addresses
     as words and the stack words *)
  Lemma mark_as_trace fuel o order tls stack m :
    mark true true h rg minptr maxptr fuel (o :: order) tls stack m =
    trace true h rg minptr maxptr (S fuel)
      (Elems [Elems tls; Words (filter (is_root rg) (o :: order)); Words stack]) m.
  Proof.
    unfold mark. cbv beta iota zeta. cbn [trace trace_with]. rewrite fold_o_cons. cbn [trace_with].
    destruct (fold_o _ tls m) as [m1| |]; cbn [bind]; [|reflexivity..]. rewrite root_pass, fold_o_cons. cbn [trace_with].
    destruct (fold_o _ (filter _ _) m1) as [m2| |]; cbn [bind]; [|reflexivity..]. rewrite fold_o_cons. cbn [trace_with].
    destruct (fold_o _ stack m2); reflexivity.
  Qed.

  (* The tracer marks exactly the least set that contains the marks it starts from and the registered words it is
     handed and is closed under the trace edges: it reaches all of that set (step_ok, covers), and it stays
     within every such set J.  J = every word gives the depth-first lemma alone (trace_with_ok below); J = the
     root-flagged or reachable entries gives the exactness of GC_Mark (mark_exact_thm). *)
  Section Within.
    Variable J : word -> Prop.
    Hypothesis J_closed : forall p c q, J p -> nget p h = Some c -> pts c q -> reg q = true -> J q.

    Definition within (m : marks) : Prop := forall q, marked m q = true -> J q.
    Definition hands_within (c : contents) : Prop := forall q, pts c q -> reg q = true -> J q.

    Definition step_in (m m' : marks) : Prop := step_ok m m' /\ (within m -> within m').

    Lemma step_in_refl m : step_in m m.
    Proof. split; [apply step_ok_refl|auto]. Qed.

    Lemma step_in_trans m1 m2 m3 : step_in m1 m2 -> step_in m2 m3 -> step_in m1 m3.
    Proof. intros [S12 W12] [S23 W23]. split; [eapply step_ok_trans; eauto|auto]. Qed.

    Definition rec_least (rec : contents -> marks -> outcome marks) : Prop :=
      forall c m m', rec c m = Ok m' -> hands_within c -> step_in m m' /\ covers c m'.

    (* a loop over l: the steps compose, and what the step for a established (Q a) still holds at the end *)
    Lemma fold_o_ok {A} (f : A -> marks -> outcome marks) (Q : A -> marks -> Prop) (l : list A) :
      (forall a m m', In a l -> f a m = Ok m' -> step_in m m' /\ Q a m') ->
      (forall a m m', Q a m -> sub m m' -> Q a m') ->
      forall m m', fold_o f l m = Ok m' -> step_in m m' /\ forall a, In a l -> Q a m'.
    Proof.
      intros Hf Hmono. induction l as [|a l IH]; intros m m' H.
      - injection H as <-. split; [apply step_in_refl|]. intros a [].
      - rewrite fold_o_cons in H. apply bind_ok in H as (m1 & H1 & H2).
        destruct (Hf a m m1 (or_introl eq_refl) H1) as [S1 Q1].
        destruct (IH (fun b m0 m0' Hb => Hf b m0 m0' (or_intror Hb)) m1 m' H2) as [S2 Q2].
        split; [eapply step_in_trans; eauto|].
        intros b [<-|Hb]; [|auto]. eapply Hmono; [exact Q1|apply S2].
    Qed.

    Section Level.
      Variable rec : contents -> marks -> outcome marks.
      Hypothesis Hrec : rec_least rec.

      Lemma mark_item_least w m m' :
        mark_item h rg minptr maxptr rec w m = Ok m' -> (reg w = true -> J w) ->
        step_in m m' /\ (reg w = true -> marked m' w = true).
      Proof.
        unfold mark_item. intros H HJ. destruct (reg w) eqn:Hw.
        2: { assert (m' = m) as -> by (destruct (prefilter minptr maxptr w); congruence).
             split; [apply step_in_refl|discriminate]. }
        rewrite (prefilter_registered w Hw) in H. destruct (marked m w) eqn:Hm.
        { injection H as <-. split; [apply step_in_refl|auto]. }
        unfold descend in H. destruct (nget w h) as [c|] eqn:Hc; [|discriminate].
        destruct (Hrec _ _ _ H) as [[[S N] W] C]; [intros q; apply (J_closed w c q (HJ eq_refl) Hc)|].
        pose proof (registered_nonzero _ _ Hw) as Hnz.
        assert (Hmw : marked m' w = true) by (apply S, marked_setmark_same, Hnz).
        split; [|auto]. split; [split; [eapply sub_trans; [apply sub_setmark|exact S]|]|].
        - (* newly marked: the object's own successors are covered by rec, the rest was closed before *)
          intros p Hp' Hp c' q Hc' Hpts Hq. destruct (N.eq_dec p w) as [->|Hne].
          + apply C; congruence.
          + apply (N p Hp') with (c := c'); auto. rewrite marked_setmark_other; assumption.
        - intros Hin. apply W. intros q Hq. apply marked_setmark_iff in Hq as [->|Hq]; auto.
      Qed.

      (* what handing the item pointer p to GC_Mark_And_Recurse must deliver *)
      Definition item_covers (p : word) (m : marks) : Prop :=
        (reg p = true -> marked m p = true) /\
        (reg p = false -> forall c, nget p h = Some c -> covers c m).

      Lemma mark_and_recurse_least p m m' :
        mark_and_recurse true h rg minptr maxptr rec p m = Ok m' ->
        (reg p = true -> J p) -> (reg p = false -> forall c, nget p h = Some c -> hands_within c) ->
        step_in m m' /\ item_covers p m'.
      Proof.
        unfold mark_and_recurse. intros H H1 H2. destruct (reg p) eqn:Hp.
        - destruct (mark_item_least _ _ _ H) as [S M]; [rewrite Hp; exact H1|]. rewrite Hp in M.
          split; [exact S|]. split; [auto|congruence].
        - unfold descend in H. destruct (nget p h) as [c|] eqn:Hc; [|discriminate].
          destruct (Hrec _ _ _ H (H2 eq_refl c eq_refl)) as [S C]. split; [exact S|]. split; [congruence|].
          intros _ c' Hc'. assert (c' = c) as -> by congruence. exact C.
      Qed.

      Lemma trace_with_least : rec_least (trace_with true h rg minptr maxptr rec).
      Proof.
        intros c. induction c as [ws|es IH|ps|] using contents_ind'; intros m m' H HJ; cbn [trace_with] in H.
        - apply (fold_o_ok _ (fun w m => reg w = true -> marked m w = true)) in H as [S Q].
          + split; [exact S|]. intros q Hq Hr. inversion Hq; subst. apply Q; assumption.
          + intros w m0 m0' Hw H0. apply (mark_item_least _ _ _ H0). apply HJ, pts_word, Hw.
          + intros w m0 m0' Hw Hs Hr. apply Hs, Hw, Hr.
        - apply (fold_o_ok _ covers) in H as [S Q].
          + split; [exact S|]. intros q Hq Hr. inversion Hq; subst. eapply Q; eauto.
          + intros e m0 m0' He H0. rewrite Forall_forall in IH. apply (IH e He _ _ H0).
            intros q Hq. apply HJ. eapply pts_elem; eauto.
          + intros e m0 m0'. apply covers_mono.
        - apply (fold_o_ok _ item_covers) in H as [S Q].
          + split; [exact S|]. intros q Hq Hr. inversion Hq; subst.
            * apply (Q q); assumption.
            * eapply (Q p); eauto.
          + intros p m0 m0' Hp H0. apply (mark_and_recurse_least _ _ _ H0).
            * intros Hr. apply HJ; [apply pts_item|]; assumption.
            * intros Hr c Hc q Hq. apply HJ. eapply pts_raw; eauto.
          + intros p m0 m0' [C1 C2] Hs. split; [intros Hr; apply Hs, C1, Hr|].
            intros Hr c Hc. eapply covers_mono; eauto.
        - injection H as <-. split; [apply step_in_refl|]. intros q Hq. inversion Hq.
      Qed.
    End Level.

    Lemma trace_least : forall fuel, rec_least (trace true h rg minptr maxptr fuel).
    Proof.
      induction fuel as [|f IH].
      - intros c m m' H. discriminate.
      - cbn [trace]. apply trace_with_least. exact IH.
    Qed.
  End Within.

  Section Level.
    Variable rec : contents -> marks -> outcome marks.
    Hypothesis Hrec : rec_ok rec.

    Lemma trace_with_ok : rec_ok (trace_with true h rg minptr maxptr rec).
    Proof.
      assert (Hrec' : rec_least (fun _ => True) rec).
      { intros c m m' H _. destruct (Hrec _ _ _ H) as [S C]. split; [split; [exact S|intros _ q _; exact I]|exact C]. }
      intros c m m' H.
      destruct (trace_with_least _ (fun _ _ _ _ _ _ _ => I) rec Hrec' c m m' H) as [[S _] C]; [intros q _ _; exact I|].
      split; assumption.
    Qed.
  End Level.
End Dfs.

Section Sweep.
  Variable rg : registry.

  Lemma registered_after_dels fin p :
    registered (fold_right ndel rg fin) p = true <-> registered rg p = true /\ ~ In p fin.
  Proof.
    induction fin as [|a fin IH]; simpl; [tauto|].
    unfold registered at 1. destruct (N.eq_dec p a) as [->|Hne].
    - rewrite nget_ndel_same. split; [discriminate|]. intros [_ Hn]. destruct Hn. left. reflexivity.
    - rewrite nget_ndel_other by assumption. fold (registered (fold_right ndel rg fin) p). rewrite IH.
      split; intros [Hr Hn]; (split; [exact Hr|]); [intros [Ha|Hin]; [congruence|exact (Hn Hin)]|].
      intros Hin. apply Hn. right. exact Hin.
  Qed.

  Lemma is_root_after_dels fin p :
    ~ In p fin -> is_root (fold_right ndel rg fin) p = is_root rg p.
  Proof.
    induction fin as [|a fin IH]; simpl; intros Hn; [reflexivity|].
    unfold is_root at 1. rewrite nget_ndel_other by (intros ->; apply Hn; auto).
    fold (is_root (fold_right ndel rg fin) p). apply IH. tauto.
  Qed.

  Lemma sweep_spec order m rg' fin :
    sweep rg order m = (rg', fin) ->
    (forall p, In p fin <-> In p order /\ registered rg p = true /\ is_root rg p = false /\ marked m p = false) /\
    (forall p, registered rg' p = true <-> registered rg p = true /\ ~ In p fin) /\
    (NoDup order -> NoDup fin).
  Proof.
    unfold sweep. intros [= <- <-]. split; [|split].
    - intros p. rewrite filter_In. apply and_iff_compat_l. unfold doomed. rewrite !andb_true_iff, !negb_true_iff. apply and_assoc.
    - intros p. apply registered_after_dels.
    - apply NoDup_filter.
  Qed.
End Sweep.

Section Total.
  Variable h : heap.
  Variable rg : registry.
  Variables (minptr maxptr : N).
  Variable order : list word.
  Hypothesis Horder : order_ok rg order.
  Hypothesis Hreg_heap : forall p, registered rg p = true -> nget p h <> None.
  Hypothesis Hitems : forall p c, nget p h = Some c -> items_ok h c.
  Variable rk : word -> nat.
  Hypothesis Hrk_bound : forall p, rk p <= nraw h rg.
  Hypothesis Hrk_dec : forall p c q, is_raw h rg p = true -> nget p h = Some c -> In q (item_ptrs c) ->
                                     is_raw h rg q = true -> rk q < rk p.

  Notation R := (nraw h rg).
  Notation W := (nraw h rg + 2).
  Definition unmarked_count (m : marks) : nat := length (filter (fun p => negb (marked m p)) order).
  Notation U := unmarked_count.

  Definition rawbound (c : contents) (r : nat) : Prop :=
    forall q, In q (item_ptrs c) -> is_raw h rg q = true -> rk q < r.

  (* the potential U m * W + r bounds the descents still to come: a descent into a registered object marks
     it (U falls by one, which pays for a fresh raw budget R + 1 < W), a descent into a raw object behind a
     Tuple item lowers the raw budget r; marks are only ever added, so U never rises on the way *)
  Definition total (rec : contents -> marks -> outcome marks) (b : nat) : Prop :=
    forall c m r, items_ok h c -> rawbound c r -> U m * W + r <= b -> exists m', rec c m = Ok m' /\ sub m m'.

  Lemma unmarked_anti m m' x : sub m m' -> negb (marked m' x) = true -> negb (marked m x) = true.
  Proof. intros S Hx. destruct (marked m x) eqn:E; [|reflexivity]. rewrite (S x E) in Hx. discriminate. Qed.

  Lemma U_sub m m' : sub m m' -> U m' <= U m.
  Proof. intros S. apply filter_length_mono. intros x _. apply unmarked_anti, S. Qed.

  Lemma U_le_order m : U m <= length order.
  Proof. apply filter_length_le. Qed.

  Lemma U_setmark w m : registered rg w = true -> marked m w = false -> U (setmark w m) < U m.
  Proof.
    intros Hw Hm. apply filter_length_lt with (w := w).
    - intros x _. apply unmarked_anti, sub_setmark.
    - apply Horder, Hw.
    - rewrite Hm. reflexivity.
    - rewrite marked_setmark_same; [reflexivity|]. eapply registered_nonzero; eauto.
  Qed.

  Lemma rawbound_heap c : rawbound c (R + 1).
  Proof. intros q _ _. pose proof (Hrk_bound q). lia. Qed.

  Lemma fold_o_total {A} (f : A -> marks -> outcome marks) (l : list A) (b r : nat) :
    (forall a m, In a l -> U m * W + r <= b -> exists m', f a m = Ok m' /\ sub m m') ->
    forall m, U m * W + r <= b -> exists m', fold_o f l m = Ok m' /\ sub m m'.
  Proof.
    intros Hf. induction l as [|a l IH]; intros m Hb.
    - exists m. split; [reflexivity|apply sub_refl].
    - rewrite fold_o_cons. destruct (Hf a m (or_introl eq_refl) Hb) as (m1 & H1 & S1). rewrite H1. cbn [bind].
      destruct (IH (fun a0 m0 Ha0 => Hf a0 m0 (or_intror Ha0)) m1) as (m' & H' & S').
      + pose proof (U_sub _ _ S1). nia.
      + exists m'. split; [exact H'|eapply sub_trans; eauto].
  Qed.

  Section Level.
    Variable rec : contents -> marks -> outcome marks.
    Variable b : nat.
    Hypothesis Hb : forall b', b' < b -> total rec b'.

    Lemma mark_item_total w m r :
      U m * W + r <= b -> exists m', mark_item h rg minptr maxptr rec w m = Ok m' /\ sub m m'.
    Proof.
      intros Hle. unfold mark_item. pose proof (sub_refl m).
      destruct (prefilter minptr maxptr w); [|eauto].
      destruct (registered rg w) eqn:Hw; [|eauto].
      destruct (marked m w) eqn:Hm; [eauto|].
      unfold descend. destruct (nget w h) as [c|] eqn:Hc; [|destruct (Hreg_heap w Hw Hc)].
      pose proof (Nat.mul_le_mono_r _ _ W (U_setmark w m Hw Hm)) as HU. cbn [Nat.mul] in HU.
      destruct (Hb (b - 1)) with (c := c) (m := setmark w m) (r := R + 1) as (m' & H' & S');
        [lia|eapply Hitems; eauto|apply rawbound_heap|lia|].
      exists m'. split; [exact H'|eapply sub_trans; [apply sub_setmark|exact S']].
    Qed.

    Lemma mark_and_recurse_total p m r :
      nget p h <> None -> (is_raw h rg p = true -> rk p < r) -> U m * W + r <= b ->
      exists m', mark_and_recurse true h rg minptr maxptr rec p m = Ok m' /\ sub m m'.
    Proof.
      intros Hp Hraw Hle. unfold mark_and_recurse. destruct (registered rg p) eqn:Hr.
      - eapply mark_item_total; eauto.
      - unfold descend. destruct (nget p h) as [c|] eqn:Hc; [|congruence].
        assert (Hisraw : is_raw h rg p = true) by (unfold is_raw; rewrite Hc, Hr; reflexivity).
        specialize (Hraw Hisraw).
        apply (Hb (U m * W + rk p)) with (r := rk p); [lia|eapply Hitems; eauto| |lia].
        intros q Hq Hqr. eapply Hrk_dec; eauto.
    Qed.

    Lemma trace_with_total : total (trace_with true h rg minptr maxptr rec) b.
    Proof.
      intros c. induction c as [ws|es IH|ps|] using contents_ind'; intros m r Hok Hrb Hle; cbn [trace_with].
      - apply fold_o_total with (b := b) (r := r); auto.
        intros a m0 _ H0. eapply mark_item_total; eauto.
      - apply fold_o_total with (b := b) (r := r); auto.
        intros a m0 Ha H0. rewrite Forall_forall in IH. apply (IH a Ha m0 r); auto.
        + intros p Hp. apply Hok. simpl. apply in_flat_map. eauto.
        + intros q Hq. apply Hrb. simpl. apply in_flat_map. eauto.
      - apply fold_o_total with (b := b) (r := r); auto.
        intros a m0 Ha H0. apply mark_and_recurse_total with (r := r); auto.
      - exists m. split; [reflexivity|apply sub_refl].
    Qed.
  End Level.

  Lemma trace_total : forall n b, b < n -> total (trace true h rg minptr maxptr n) b.
  Proof.
    induction n as [|n IH]; intros b Hlt; [lia|]. cbn [trace]. apply trace_with_total.
    intros b' Hlt'. apply IH. lia.
  Qed.
End Total.

(* the word-aligned addresses of the examples below *)
Definition w8 : word := 8%N. Definition w16 : word := 16%N. Definition w24 : word := 24%N.
Definition w32 : word := 32%N. Definition w40 : word := 40%N. Definition w48 : word := 48%N.
Definition w56 : word := 56%N. Definition w64 : word := 64%N.

(* D16: the TLS table is handed GC_Mark_Item: an object reachable only from a TLS value is
   freed by a forced collection (Properties_C01.tls_item_callback_refuted, on the data below) *)
Definition d16_heap : heap := nset 8%N (Words [0%N]) nempty.
Definition d16_reg : registry := nset 8%N false nempty.
Definition d16_tls : list contents := mk_tls [8%N].

Lemma d16_kept_post :
  exists rg', collect true true d16_heap d16_reg 8%N 8%N 10 [8%N] d16_tls [] = Ok (rg', []).
Proof. eexists. vm_compute. reflexivity. Qed.

(* D17: GC_Mark_And_Recurse re-traces a registered object whatever its mark bit says: a heap
   Tuple that contains itself is traced for ever *)
Definition d17_heap : heap := nset 8%N (Items [8%N]) nempty.
Definition d17_reg : registry := nset 8%N false nempty.

Lemma d17_trace_diverges : forall fuel m,
  marked m 8%N = true ->
  trace false d17_heap d17_reg 8%N 8%N fuel (Items [8%N]) m = OutOfFuel.
Proof.
  induction fuel as [|f IH]; intros m Hm; [reflexivity|].
  cbn. rewrite Hm. cbn. rewrite IH by exact Hm. reflexivity.
Qed.

Lemma d17_mark_terminates_post :
  exists m, mark true true d17_heap d17_reg 8%N 8%N 3 [8%N] [] [8%N] nempty = Ok m /\ marked m 8%N = true.
Proof. eexists. split; vm_compute; reflexivity. Qed.

Section Justified.
  Variable h : heap.
  Variable rg : registry.
  Variable tls : list contents.
  Variable stack : list word.

  Definition justified (q : word) : Prop :=
    registered rg q = true /\ (is_root rg q = true \/ reach h rg tls stack q).

  Lemma justified_closed p c q :
    justified p -> nget p h = Some c -> pts h rg c q -> registered rg q = true -> justified q.
  Proof.
    intros [Hp [Hr|Hr]] Hc Hq Hreg; split; auto; right.
    - eapply reach_root; eauto.
    - eapply reach_step; eauto.
  Qed.
End Justified.

(* marked = reachable or root-flagged, exactly *)
Theorem mark_exact_thm : forall h rg minptr maxptr order tls stack fuel m',
  range_ok rg minptr maxptr -> order_ok rg order ->
  mark true true h rg minptr maxptr fuel order tls stack nempty = Ok m' ->
  forall q, marked m' q = true <->
            registered rg q = true /\ (is_root rg q = true \/ reach h rg tls stack q).
Proof.
  intros h rg minptr maxptr order tls stack fuel m' Hr [_ Ho] Hm. destruct order as [|o order].
  { (* nothing is registered, nothing gets marked *)
    injection Hm as <-. intros q. rewrite marked_nempty. split; [discriminate|].
    intros [Hq _]. apply Ho in Hq. destruct Hq. }
  rewrite (mark_as_trace h rg minptr maxptr Hr) in Hm.
  destruct (trace_least h rg minptr maxptr Hr _ (justified_closed h rg tls stack) _ _ _ _ Hm) as [[[_ Hcl] Hin] Hcov].
  { intros q' Hq' Hreg. split; [exact Hreg|].
    inversion Hq' as [|es e q0 Hin He| |]; subst. destruct Hin as [<-|[<-|[<-|[]]]]; inversion He; subst.
    - right. eapply reach_tls; eauto.
    - left. eapply (filter_In (is_root rg) q' (o :: order)); eassumption.
    - right. apply reach_stack. assumption. }
  assert (Hroots : forall q, is_root rg q = true -> marked m' q = true).
  { intros q Hq. pose proof (is_root_registered _ _ Hq) as Hreg. apply Hcov; [|exact Hreg].
    apply pts_elem with (e := Words (filter (is_root rg) (o :: order))); [simpl; auto|].
    apply pts_word, filter_In. split; [apply Ho, Hreg|exact Hq]. }
  intros q. split.
  - apply Hin. intros q' Hq'. rewrite marked_nempty in Hq'. discriminate.
  - intros [Hq [Hroot|Hreach]]; [auto|].
    induction Hreach as [e q He Hp|p c q Hp Hc Hpq|q Hs|p c q _ IH Hp Hc Hpq].
    + apply Hcov; [|exact Hq]. apply pts_elem with (e := Elems tls); [simpl; auto|]. eapply pts_elem; eauto.
    + apply (Hcl p (Hroots p Hp) (marked_nempty p) c q); assumption.
    + apply Hcov; [|exact Hq]. apply pts_elem with (e := Words stack); [simpl; auto|]. apply pts_word, Hs.
    + apply (Hcl p (IH Hp) (marked_nempty p) c q); assumption.
Qed.

Theorem mark_fuel_adequate_thm : forall h rg minptr maxptr order tls stack,
  range_ok rg minptr maxptr -> order_ok rg order -> wf h rg tls -> raw_wf h rg ->
  exists m', mark true true h rg minptr maxptr (fuel_of h rg order) order tls stack nempty = Ok m'.
Proof.
  intros h rg minptr maxptr order tls stack Hr Ho [W1 W2 W3] (rk & B & D).
  destruct order as [|o order]; [eexists; reflexivity|]. rewrite (mark_as_trace h rg minptr maxptr Hr).
  destruct (trace_total h rg minptr maxptr _ Ho W1 W2 rk B D _ _ (Nat.lt_succ_diag_r (fuel_of h rg (o :: order)))
              (Elems [Elems tls; Words (filter (is_root rg) (o :: order)); Words stack]) nempty (nraw h rg + 1))
    as (m' & H & _); [..|eauto].
  - intros p Hp. cbn in Hp. rewrite !app_nil_r in Hp. apply in_flat_map in Hp as (e & He & Hp). eapply W3; eauto.
  - apply rawbound_heap, B.
  - unfold fuel_of. pose proof (U_le_order (o :: order) nempty). nia.
Qed.

(* the model's collector is exact: it frees precisely the registered, non-root, unreachable objects, each once *)
Lemma collect_spec h rg minptr maxptr order tls stack fuel rg' fin :
  range_ok rg minptr maxptr -> order_ok rg order ->
  collect true true h rg minptr maxptr fuel order tls stack = Ok (rg', fin) ->
  (forall p, In p fin <-> registered rg p = true /\ is_root rg p = false /\ ~ reach h rg tls stack p) /\
  (forall p, registered rg' p = true <-> registered rg p = true /\ ~ In p fin) /\
  NoDup fin.
Proof.
  intros Hr Ho Hc. unfold collect in Hc. apply bind_ok in Hc as (m' & Hm & Hs).
  destruct (sweep_spec rg order m' rg' fin) as (F & K & N); [congruence|].
  split; [|split; [exact K|apply N, Ho]].
  intros p. pose proof (mark_exact_thm _ _ _ _ _ _ _ _ _ Hr Ho Hm p) as Hex. rewrite F. split.
  - intros (_ & Hreg & Hroot & Hmk). split; [exact Hreg|split; [exact Hroot|]].
    intros Hre. rewrite (proj2 Hex (conj Hreg (or_intror Hre))) in Hmk. discriminate.
  - intros (Hreg & Hroot & Hn). split; [apply Ho, Hreg|split; [exact Hreg|split; [exact Hroot|]]].
    apply not_true_is_false. intros Hmk. apply Hex in Hmk. destruct Hmk as [_ [Hrt|Hre]]; [congruence|exact (Hn Hre)].
Qed.

Theorem collect_safe_thm : forall h rg minptr maxptr order tls stack,
  range_ok rg minptr maxptr -> order_ok rg order -> wf h rg tls -> raw_wf h rg ->
  exists rg' fin,
    collect true true h rg minptr maxptr (fuel_of h rg order) order tls stack = Ok (rg', fin) /\
    (forall p, registered rg p = true -> reach h rg tls stack p -> ~ In p fin /\ registered rg' p = true) /\
    (forall p, is_root rg p = true -> ~ In p fin /\ registered rg' p = true) /\
    (forall p, In p fin -> registered rg p = true /\ is_root rg p = false) /\
    NoDup fin.
Proof.
  intros h rg minptr maxptr order tls stack Hr Ho Hw Hraw.
  destruct (mark_fuel_adequate_thm h rg minptr maxptr order tls stack Hr Ho Hw Hraw) as [m' Hm].
  destruct (sweep rg order m') as [rg' fin] eqn:Hs.
  assert (Hc : collect true true h rg minptr maxptr (fuel_of h rg order) order tls stack = Ok (rg', fin))
    by (unfold collect; rewrite Hm; cbn [bind]; rewrite Hs; reflexivity).
  exists rg', fin. split; [exact Hc|]. destruct (collect_spec _ _ _ _ _ _ _ _ _ _ Hr Ho Hc) as (F & K & N).
  assert (Hkeep : forall p, registered rg p = true -> ~ In p fin -> ~ In p fin /\ registered rg' p = true)
    by (intros p Hp Hn; split; [exact Hn|apply K; split; assumption]).
  split; [|split; [|split; [|exact N]]].
  - intros p Hp Hreach. apply (Hkeep p Hp). intros Hin. apply F in Hin. destruct Hin as (_ & _ & Hn). exact (Hn Hreach).
  - intros p Hp. apply (Hkeep p (is_root_registered _ _ Hp)). intros Hin. apply F in Hin. destruct Hin as (_ & Hnr & _). congruence.
  - intros p Hin. apply F in Hin. split; apply Hin.
Qed.

(* the excluded case diverges: a registered Tuple at w8 whose item is the RAW Tuple at w16 that contains itself *)
Definition rawcyc_heap : heap := nset w16 (Items [w16]) (nset w8 (Items [w16]) nempty).
Definition rawcyc_reg : registry := nset w8 false nempty.

Lemma rawcyc_trace_diverges : forall fuel m,
  trace true rawcyc_heap rawcyc_reg w8 w8 fuel (Items [w16]) m = OutOfFuel.
Proof. induction fuel as [|f IH]; intros m; [reflexivity|]. cbn. rewrite IH. reflexivity. Qed.

(* soundness of the executable checks wf_b, rawdec_b, range_b, order_b (HeapGraph.v) of the hypotheses; they
   are used for the non-vacuity example and, extracted, at every collection point of every generated case *)
Lemma forallb_elements {A} (f : positive * A -> bool) (m : nmap A) w a :
  forallb f (PM.elements m) = true -> nget w m = Some a -> exists p, w = Npos p /\ f (p, a) = true.
Proof.
  destruct w as [|p]; [discriminate|]. intros H Hw. exists p. split; [reflexivity|].
  exact (proj1 (forallb_forall _ _) H _ (PM.elements_correct _ _ Hw)).
Qed.

Lemma forallb_registered (f : positive * bool -> bool) (rg : registry) w :
  forallb f (PM.elements rg) = true -> registered rg w = true -> exists p r, w = Npos p /\ f (p, r) = true.
Proof.
  intros H Hw. unfold registered in Hw. destruct (nget w rg) as [r|] eqn:E; [|discriminate].
  destruct (forallb_elements _ _ _ _ H E) as (p & -> & Hf). eauto.
Qed.

Lemma items_ok_b_sound h c : items_ok_b h c = true -> items_ok h c.
Proof.
  unfold items_ok_b, items_ok. rewrite forallb_forall. intros H p Hp.
  specialize (H p Hp). destruct (nget p h); [discriminate|simpl in H; discriminate].
Qed.

Lemma wf_b_sound h rg tls : wf_b h rg tls = true -> wf h rg tls.
Proof.
  unfold wf_b. rewrite !andb_true_iff. intros [[H1 H2] H3]. constructor.
  - intros p Hp. destruct (forallb_registered _ _ _ H1 Hp) as (k & r & -> & Hk). cbn [fst] in Hk.
    destruct (nget (Npos k) h); [discriminate|simpl in Hk; discriminate].
  - intros p c Hc. destruct (forallb_elements _ _ _ _ H2 Hc) as (k & _ & Hk). apply items_ok_b_sound, Hk.
  - intros e He. apply items_ok_b_sound. exact (proj1 (forallb_forall _ _) H3 e He).
Qed.

Lemma rawdec_b_sound h rg rk : rawdec_b h rg rk = true ->
  forall p c q, is_raw h rg p = true -> nget p h = Some c -> In q (item_ptrs c) ->
                is_raw h rg q = true -> rk q < rk p.
Proof.
  intros H p c q Hp Hc Hq Hqr. destruct (forallb_elements _ _ _ _ H Hc) as (k & -> & Hk). cbn [fst snd] in Hk.
  rewrite Hp in Hk. cbn [negb orb] in Hk. rewrite forallb_forall in Hk. specialize (Hk q Hq).
  rewrite Hqr in Hk. apply Nat.ltb_lt, Hk.
Qed.

(* the rank that is constantly 0 serves whenever no raw object has a raw object among its Tuple items *)
Lemma raw_wf_b_sound h rg : rawdec_b h rg (fun _ => 0) = true -> raw_wf h rg.
Proof. intros H. exists (fun _ => 0). split; [intros p; lia|apply rawdec_b_sound, H]. Qed.

Lemma range_b_sound rg minptr maxptr : range_b rg minptr maxptr = true -> range_ok rg minptr maxptr.
Proof.
  intros H p Hp. destruct (forallb_registered _ _ _ H Hp) as (k & r & -> & Hk). cbn [fst] in Hk.
  rewrite !andb_true_iff in Hk. destruct Hk as [[H1 H2] H3].
  apply N.eqb_eq in H1. apply N.leb_le in H2. apply N.leb_le in H3. auto.
Qed.

Lemma nodup_b_sound : forall l seen, nodup_b l seen = true -> (forall a, In a l -> a <> 0%N) ->
  NoDup l /\ forall a, In a l -> marked seen a = false.
Proof.
  induction l as [|a l IH]; simpl; intros seen H Hnz.
  - split; [constructor|intros a []].
  - apply andb_true_iff in H. destruct H as [H1 H2]. rewrite negb_true_iff in H1.
    destruct (IH (setmark a seen) H2 (fun x Hx => Hnz x (or_intror Hx))) as [Hnd Hun].
    assert (Ha : a <> 0%N) by (apply Hnz; auto).
    split.
    + constructor; [|exact Hnd]. intros Hin. specialize (Hun a Hin).
      rewrite marked_setmark_same in Hun by assumption. discriminate.
    + intros x [<-|Hx]; [exact H1|].
      specialize (Hun x Hx). destruct (marked seen x) eqn:E; [|reflexivity].
      rewrite (sub_setmark seen a x E) in Hun. discriminate.
Qed.

Lemma marked_fold_setmark l w : marked (fold_right setmark nempty l) w = true -> In w l.
Proof.
  induction l as [|a l IH]; simpl; intros H.
  - rewrite marked_nempty in H. discriminate.
  - destruct (N.eq_dec w a) as [->|Hne]; [auto|].
    rewrite marked_setmark_other in H by assumption. auto.
Qed.

Lemma order_b_sound rg order : order_b rg order = true -> order_ok rg order.
Proof.
  unfold order_b, order_ok. rewrite !andb_true_iff, forallb_forall. intros [[H1 H2] H3].
  split.
  - apply (nodup_b_sound order nempty H2). intros a Ha. eapply registered_nonzero. apply H1. exact Ha.
  - intros p. split; [apply H1|].
    intros Hp. destruct (forallb_registered _ _ _ H3 Hp) as (k & r & -> & Hk). apply marked_fold_setmark, Hk.
Qed.

(* non-vacuity: a 7-object heap
   w8  Array [Ref->w16; Ref->w24]      w16 Ref -> w8 (cycle through the Array)
   w24 Box -> w32 (the Box is shared: the Array and the Tuple w40 hold it)
   w32 struct {0; w24}                 w40 heap Tuple (w24, raw w48)    w48 RAW struct {w16}
   w56 Ref -> w8: unreachable.  TLS entry -> w40.  The stack holds w8. *)
Definition ex_heap : heap :=
  nset w8 (mk_contents KArray [w16; w24]) (nset w16 (mk_contents KRef [w8]) (nset w24 (mk_contents KBox [w32])
  (nset w32 (mk_contents KStruct [0%N; w24]) (nset w40 (mk_contents KTuple [w24; w48])
  (nset w48 (mk_contents KStruct [w16]) (nset w56 (mk_contents KRef [w8]) nempty)))))).
Definition ex_reg : registry :=
  nset w8 false (nset w16 false (nset w24 false (nset w32 false (nset w40 false (nset w56 false nempty))))).
Definition ex_order : list word := [w56; w8; w40; w16; w32; w24].
Definition ex_tls : list contents := mk_tls [w40].
Definition ex_stack : list word := [3%N; w8; 1000%N].

Lemma ex_reach_all : forall p, In p [w8; w16; w24; w32; w40] -> reach ex_heap ex_reg ex_tls ex_stack p.
Proof.
  set (R := reach ex_heap ex_reg ex_tls ex_stack).
  assert (R8 : R w8) by (apply reach_stack; simpl; auto).
  assert (R16 : R w16).
  { eapply reach_step with (p := w8); [exact R8|reflexivity..|].
    simpl. eapply pts_elem with (e := Words [w16]); [simpl; auto|apply pts_word; simpl; auto]. }
  assert (R24 : R w24).
  { eapply reach_step with (p := w8); [exact R8|reflexivity..|].
    simpl. eapply pts_elem with (e := Words [w24]); [simpl; auto|apply pts_word; simpl; auto]. }
  assert (R32 : R w32).
  { eapply reach_step with (p := w24); [exact R24|reflexivity..|]. apply pts_word. simpl. auto. }
  assert (R40 : R w40) by (eapply reach_tls with (e := Words [w40]); [simpl; auto|apply pts_word; simpl; auto]).
  intros p Hp. simpl in Hp. intuition (subst; assumption).
Qed.

Definition inv (s : state) : Prop :=
  range_ok (st_reg s) (st_minptr s) (st_maxptr s) /\ order_ok (st_reg s) (st_order s).

Definition heap_ok (s : state) : Prop :=
  wf (st_heap s) (st_reg s) (st_tls s) /\ raw_wf (st_heap s) (st_reg s).

(* admissible events: alloc returns a fresh, non-NULL, word-aligned address *)
Definition event_ok (s : state) (e : event) : Prop :=
  match e with
  | EAlloc p _ _ | EFinAlloc p _ _ => registered (st_reg s) p = false /\ p <> 0%N /\ (p mod 8 = 0)%N
  | _ => True
  end.

(* what "the collection inside event e was safe" means; s1 = state at the collection point *)
Definition collection_safe (s1 : state) (extra : list word) (fin : list word) (s' : state) : Prop :=
  (forall q, registered (st_reg s1) q = true ->
             reach (st_heap s1) (st_reg s1) (st_tls s1) (extra ++ st_stack s1) q ->
             ~ In q fin /\ registered (st_reg s') q = true) /\
  (forall q, In q extra -> ~ In q fin) /\
  (forall q, is_root (st_reg s1) q = true -> ~ In q fin /\ registered (st_reg s') q = true) /\
  (forall q, In q fin -> registered (st_reg s1) q = true /\ is_root (st_reg s1) q = false) /\
  NoDup fin.

Lemma NoDup_snoc {A} (l : list A) (a : A) : NoDup l -> ~ In a l -> NoDup (l ++ [a]).
Proof.
  intros Hl Ha. apply NoDup_app_intro; [exact Hl | repeat constructor; intros [] |].
  intros x Hx [<-|[]]. exact (Ha Hx).
Qed.

Lemma inv_alloc s p c root : inv s -> event_ok s (EAlloc p c root) -> inv (alloc_state s p c root).
Proof.
  intros [Hr [Hnd Hin]] (Hfresh & Hnz & Hal). split.
  - intros q Hq. cbn [alloc_state st_reg st_minptr st_maxptr] in *.
    apply registered_nset in Hq; [|assumption].
    destruct Hq as [->|Hq]; [|destruct (Hr q Hq) as (A & B & C)]; (split; [assumption|lia]).
  - cbn [alloc_state st_reg st_order]. split.
    + constructor; [|assumption]. intros Hp. apply Hin in Hp. congruence.
    + intros q. rewrite registered_nset by assumption. rewrite <- Hin.
      split; (intros [Hq|Hq]; [left; symmetry; exact Hq|right; exact Hq]).
Qed.

(* taking the addresses in fin out of the registry and out of the order *)
Lemma inv_shrink s fin keep s' :
  inv s ->
  st_reg s' = fold_right ndel (st_reg s) fin ->
  st_order s' = filter keep (st_order s) ->
  (forall q, In q (st_order s) -> keep q = true <-> ~ In q fin) ->
  st_minptr s' = st_minptr s -> st_maxptr s' = st_maxptr s -> inv s'.
Proof.
  intros [Hr [Hnd Hin]] Hreg Hord Hkeep Hmin Hmax.
  assert (Hiff : forall q, registered (st_reg s') q = true <-> registered (st_reg s) q = true /\ ~ In q fin)
    by (intros q; rewrite Hreg; apply registered_after_dels).
  split.
  - intros q Hq. rewrite Hmin, Hmax. apply Hr, Hiff, Hq.
  - rewrite Hord. split; [apply NoDup_filter; assumption|].
    intros q. rewrite filter_In, Hiff, <- Hin. split; intros [Ho Hk]; (split; [exact Ho|apply (Hkeep q Ho), Hk]).
Qed.

Section Threshold.
  Variable nm : N -> N.                (* the threshold policy: arbitrary *)
  Lemma do_collect_safe s extra :
    inv s -> heap_ok s ->
    exists s' fin, do_collect true true nm s extra = Ok (s', fin) /\ collection_safe s extra fin s' /\ inv s'.
  Proof.
    intros Hinv [Hwf Hraw]. pose proof Hinv as [Hr Ho].
    destruct (collect_safe_thm (st_heap s) (st_reg s) (st_minptr s) (st_maxptr s) (st_order s) (st_tls s)
                (extra ++ st_stack s) Hr Ho Hwf Hraw) as (rg' & fin & Hc & Hkeep & Hroot & Hfin & Hnd).
    unfold do_collect. rewrite Hc. cbn [bind]. eexists. exists fin. split; [reflexivity|]. split.
    - unfold collection_safe. cbn [st_reg]. split; [exact Hkeep|]. split; [|auto].
      (* the extra words are stack words: what they point to is reachable *)
      intros q Hq Hqf. destruct (Hfin q Hqf) as [Hqr _].
      destruct (Hkeep q Hqr) as [Hn _]; [|contradiction].
      apply reach_stack. apply in_app_iff. auto.
    - unfold collect in Hc. apply bind_ok in Hc as (m & _ & [= <- <-]).
      eapply inv_shrink; [exact Hinv|reflexivity|reflexivity| |reflexivity|reflexivity].
      intros q Hq. cbv beta. rewrite registered_after_dels. apply Ho in Hq. tauto.
  Qed.

  (* Properties_C01.threshold_collect_safe: at every collection point — the `nitems > mitems` trigger inside alloc, with the
     newborn among the stack words, or a forced collection — the collection terminates and
     is safe, and the registry-side invariants are kept *)
  Lemma threshold_collect_safe_lemma s e s1 extra :
    collection_point s e = Some (s1, extra) -> inv s1 -> heap_ok s1 ->
    exists s' fin, step true true true nm s e = Ok (s', fin) /\ collection_safe s1 extra fin s' /\ inv s'.
  Proof.
    intros Hcp Hinv Hok. destruct e as [p c root| | | | |]; cbn [collection_point step] in *; try discriminate.
    - destruct (st_mitems s <? st_nitems (alloc_state s p c root))%N; [|discriminate].
      injection Hcp as <- <-. apply do_collect_safe; assumption.
    - injection Hcp as <- <-. apply do_collect_safe; assumption.
  Qed.

  (* every history: as long as each event is admissible and the heap is well formed at each
     collection point, every step succeeds and every collection in it is safe *)
  Fixpoint hist_safe (tr mg fw : bool) (nmi : N -> N) (s : state) (es : list event) : Prop :=
    match es with
    | [] => True
    | e :: r =>
      event_ok s e ->
      (forall s1 extra, collection_point s e = Some (s1, extra) -> heap_ok s1) ->
      exists s' fin, step tr mg fw nmi s e = Ok (s', fin)
        /\ (forall s1 extra, collection_point s e = Some (s1, extra) -> collection_safe s1 extra fin s')
        /\ hist_safe tr mg fw nmi s' r
    end.

  Lemma collection_point_inv s e s1 extra :
    inv s -> event_ok s e -> collection_point s e = Some (s1, extra) -> inv s1.
  Proof.
    intros Hinv Hev Hcp. destruct e as [p c root| | | | |]; cbn [collection_point] in Hcp; try discriminate.
    - destruct (st_mitems s <? st_nitems (alloc_state s p c root))%N; [|discriminate].
      injection Hcp as <- _. apply inv_alloc; assumption.
    - injection Hcp as <- _. exact Hinv.
  Qed.

  (* away from the collection points a step is a plain update that keeps inv *)
  Lemma step_plain s e : inv s -> event_ok s e -> collection_point s e = None ->
    exists s' fin, step true true true nm s e = Ok (s', fin) /\ inv s'.
  Proof.
    intros Hinv Hev Hcp.
    destruct e as [p c root|p c|tls stack|p c root|p|]; cbn [collection_point step fin_alloc_state] in *.
    - destruct (st_mitems s <? st_nitems (alloc_state s p c root))%N; [discriminate|].
      eexists _, _. split; [reflexivity|]. apply inv_alloc; assumption.
    - eexists _, _. split; [reflexivity|exact Hinv].
    - eexists _, _. split; [reflexivity|exact Hinv].
    - eexists _, _. split; [reflexivity|]. apply inv_alloc; assumption.
    - destruct (registered (st_reg s) p); eexists _, _; (split; [reflexivity|]); [|exact Hinv].
      eapply inv_shrink with (fin := [p]); [exact Hinv|reflexivity|reflexivity| |reflexivity|reflexivity].
      intros q _. cbn [In]. rewrite negb_true_iff, N.eqb_neq. intuition congruence.
    - discriminate.
  Qed.

  Lemma history_collect_safe_lemma : forall es s, inv s -> hist_safe true true true nm s es.
  Proof.
    induction es as [|e r IH]; intros s Hinv; cbn [hist_safe]; [exact I|].
    intros Hev Hok. destruct (collection_point s e) as [[s1 extra]|] eqn:Hcp.
    - destruct (threshold_collect_safe_lemma s e s1 extra Hcp (collection_point_inv _ _ _ _ Hinv Hev Hcp)
                  (Hok _ _ eq_refl)) as (s' & fin & Hs & Hsafe & Hinv').
      exists s', fin. split; [exact Hs|]. split; [|apply IH, Hinv']. intros ? ? [= <- <-]. exact Hsafe.
    - destruct (step_plain s e Hinv Hev Hcp) as (s' & fin & Hs & Hinv').
      exists s', fin. split; [exact Hs|]. split; [discriminate|apply IH, Hinv'].
  Qed.
End Threshold.

Lemma inv_st0 : inv st0.
Proof.
  split.
  - intros p Hp. unfold registered in Hp. cbn [st0 st_reg] in Hp. rewrite nget_nempty in Hp. discriminate.
  - split; [constructor|]. intros p. cbn [st0 st_reg st_order]. unfold registered. rewrite nget_nempty.
    split; [intros []|discriminate].
Qed.

(* non-vacuity of the collection-point theorems:
   the example heap as a state with mitems = 6; allocating a seventh registered object (a Ref
   to w56 at address 64) crosses the threshold, so the collection runs inside alloc
   (Properties_C01.threshold_hypotheses_inhabited) *)
Definition ex_state : state :=
  {| st_heap := ex_heap; st_reg := ex_reg; st_order := ex_order; st_nitems := 6%N; st_mitems := 6%N;
     st_minptr := w8; st_maxptr := w56; st_tls := ex_tls; st_stack := ex_stack |}.
Definition ex_event : event := EAlloc w64 (mk_contents KRef [w56]) false.
Definition ex_state1 : state := alloc_state ex_state w64 (mk_contents KRef [w56]) false.

(* allocation by a finaliser during a sweep
   history: a registered object w8 becomes garbage and is swept; its finaliser allocates w16 (GC_Set with
   gc->freelist isnt NULL: registered, no collection) and publishes it into a stack slot; the next
   collection must keep w16.  If GC_Set widens the window only after its early return (fin_widens =
   false) the window stays [w8,w8], GC_Mark_Item rejects w16, and w16 is freed although reachable
   (Properties_C01.finaliser_allocation_history_kept, finaliser_alloc_window_refuted). *)
Definition fin_hist : list event :=
  [EAlloc w8 NoPtr false; ERoots [] []; ECollect; EFinAlloc w16 (Words []) false; ERoots [] [w16]; ECollect].
