(* LifecycleGlue.v — the abstract registry of the life-cycle machine (Lifecycle.v, property C06) is a
   sound abstraction of the concrete robin-hood registry of RegistryModel.v (property C17).

   Lifecycle.v keeps the registry as a duplicate-free list of (object, root flag) and takes the order
   in which a sweep meets the entries and the mark bits as INPUTS of every collection; its theorems
   quantify over all of them.  Here the two models are run side by side:

     abs_reg / abs_pend   abstraction of a C17 state: its entries in slot order with their root flags,
                          its pending list;
     Rel g s              the C17 state g and the life-cycle state s describe the same registry (same
                          registered set with the same root flags, the same pending list entry by
                          entry, same running flag, same mitems, same number of destructor calls per
                          object, same ownership for objects still to be finalised);
     glue_rem, glue_finalise, glue_sweep, glue_collect, glue_step
                          every registry step of C17 (GC_Rem — also issued by a destructor while a
                          sweep is in progress —, dealloc(destruct), the compaction loop, the finaliser
                          loop, GC_Set's registration) is matched by the corresponding transition of
                          the life-cycle machine, the sweep with order := the order in which C17's
                          compaction loop hands the entries to the pending list and marks := C17's
                          mark bits;
     crun / glue_run      a history of C17 operations drives both machines; Rel holds throughout.

   Consequences (stated on C17's OWN event log, i.e. for the run whose registry is the concrete
   table): every address is finalised at most once, after a final sweep with no marks
   (teardown) every registered non-root address has been finalised exactly once, and del / del_root of a
   registered address, collector running, finalises it exactly once at once.

   Destructor behaviour: `d_owns d q` is [] or [t] (a Box owns one object), nothing is allocated by
   destructors (d_spawns d q = []); addresses are not reused.  What this leaves out is said in
   Properties_C06_glue.v, where the results are stated for every such d. *)
From Coq Require Import List Arith Bool NArith Lia PeanoNat Permutation.
From CelloV Require Import Generated RobinHood RobinHoodProofs.
From CelloV Require ListFacts RegistryModel RegistryProofs.
From CelloV Require Import Lifecycle LifecycleProofs.
Import ListNotations.

Module RM := RegistryModel.
Module RP := RegistryProofs.

(* C17's model takes the collection threshold rule from the source (Generated.gc_reg_mitems_rule, used by
   RM.new_mitems); the life-cycle machine is instantiated with the same function, whatever it is — no
   lemma below looks inside it *)
Definition c17_rule (n : nat) : nat := gc_reg_mitems_rule n.
Local Notation finF := (finalise c17_rule true true true nopro).
Local Notation finT := (fin_top c17_rule true true true nopro).

Local Notation gentry := RM.gentry.
Local Notation gslot := (slot RM.gentry).
Local Notation Holds := (Holds RM.gentry).
Local Notation entries := (entries RM.gentry).
Local Notation occupied := (occupied RM.gentry).

Definition idn (p : N) : nat := N.to_nat p.

Lemma idn_inj p q : idn p = idn q -> p = q.
Proof. apply N2Nat.inj. Qed.

Lemma idn_of_nat x : idn (N.of_nat x) = x.
Proof. apply Nat2N.id. Qed.

Lemma idn_eqb p q : (idn p =? idn q) = N.eqb p q.
Proof.
  destruct (N.eqb_spec p q) as [->|Hne]; [apply Nat.eqb_refl|].
  apply Nat.eqb_neq. intros H. apply Hne, idn_inj, H.
Qed.

(* the registry of a C17 state as the life-cycle machine sees it: entries in slot order *)
Definition abs_entry (e : gentry) : nat * bool := (idn (RM.ptr e), RM.root e).
Definition abs_reg (g : RM.gc) : list (nat * bool) := map abs_entry (entries (RM.slots g)).
Definition abs_pend (pl : list (option N)) : list (option nat) := map (option_map idn) pl.
(* the mark bits as a set of objects *)
Definition abs_marks (l : list gslot) : list nat :=
  map (fun e => idn (RM.ptr e)) (filter RM.marked (entries l)).

Fixpoint cnt_fin (p : N) (l : list RM.event) : nat :=
  match l with
  | [] => 0
  | RM.EvFin q :: t => (if N.eqb q p then 1 else 0) + cnt_fin p t
  | _ :: t => cnt_fin p t
  end.

Lemma in_abs_reg g x r :
  In (x, r) (abs_reg g) <-> exists e, Holds (RM.slots g) e /\ idn (RM.ptr e) = x /\ RM.root e = r.
Proof.
  unfold abs_reg, abs_entry. rewrite in_map_iff. setoid_rewrite in_entries.
  split; intros [e H]; exists e; intuition congruence.
Qed.

(* identities are addresses: the registered set can be read address by address *)
Lemma in_abs_reg_Reg g p r : In (idn p, r) (abs_reg g) <-> RP.Regs (RM.slots g) p r.
Proof.
  rewrite in_abs_reg. split; intros [e [Hh [Hp Hr]]]; exists e; repeat split; auto.
  - apply idn_inj, Hp.
  - congruence.
Qed.

Lemma abs_reg_by_address g (l : list (nat * bool)) :
  (forall p r, In (idn p, r) l <-> RP.Regs (RM.slots g) p r) -> forall x r, In (x, r) l <-> In (x, r) (abs_reg g).
Proof. intros H x r. rewrite <- (idn_of_nat x), in_abs_reg_Reg. apply H. Qed.

Lemma abs_pend_in_pend (pl : list (option N)) p :
  existsb (opt_is (idn p)) (abs_pend pl) = RM.is_pending p pl.
Proof.
  unfold abs_pend, RM.is_pending. induction pl as [|[q|] pl IH]; simpl; auto.
  rewrite IH, idn_eqb. reflexivity.
Qed.

Lemma abs_pend_null (pl : list (option N)) p :
  null_pend (idn p) (abs_pend pl) = abs_pend (RM.null_out p pl).
Proof.
  unfold abs_pend, null_pend, RM.null_out. rewrite !map_map. apply map_ext.
  intros [q|]; simpl; [|reflexivity]. rewrite idn_eqb. destruct (N.eqb q p); reflexivity.
Qed.

Lemma abs_pend_nth (pl : list (option N)) k :
  nth k (abs_pend pl) None = option_map idn (nth k pl None).
Proof. apply (map_nth (option_map idn) pl None). Qed.

Lemma abs_pend_length pl : length (abs_pend pl) = length pl.
Proof. apply map_length. Qed.

(* clearing slot k of a pending list *)
Fixpoint upd_none (k : nat) (l : list (option nat)) : list (option nat) :=
  match l, k with
  | [], _ => []
  | _ :: t, O => None :: t
  | x :: t, S k' => x :: upd_none k' t
  end.

Lemma abs_pend_upd k pl : abs_pend (RM.upd_opt k pl) = upd_none k (abs_pend pl).
Proof. revert k. induction pl as [|x pl IH]; intros [|k]; simpl; auto. rewrite IH. reflexivity. Qed.

(* with no duplicates in the pending list, NULL-ing "every entry equal to o" is clearing the slot *)
Lemma null_pend_upd l : forall k o, NoDup (somes l) -> nth k l None = Some o -> null_pend o l = upd_none k l.
Proof.
  induction l as [|[y|] l IH]; intros [|k] o Hnd Hn; simpl in *; try discriminate; fold (null_pend o l).
  - inversion Hn; subst y. inversion Hnd; subst. rewrite Nat.eqb_refl, null_pend_notin; auto.
  - inversion Hnd; subst. rewrite (IH k o) by assumption.
    destruct (Nat.eqb_spec y o) as [->|Hne]; [|reflexivity]. exfalso. eauto using nth_in_somes.
  - rewrite (IH k o) by assumption. reflexivity.
Qed.

Lemma filter_all {A} (f : A -> bool) l : (forall x, In x l -> f x = true) -> filter f l = l.
Proof. apply ListFacts.filter_all. Qed.

Lemma filter_none {A} (f : A -> bool) l : (forall x, In x l -> f x = false) -> filter f l = [].
Proof. induction l as [|a l IH]; simpl; intros H; auto. rewrite (H a), IH; auto. Qed.

Lemma NoDup_map_on {A B} (f : A -> B) l :
  (forall x y, In x l -> In y l -> f x = f y -> x = y) -> NoDup l -> NoDup (map f l).
Proof. apply ListFacts.NoDup_map_on. Qed.

Lemma filter_split_length {A} (f : A -> bool) l :
  length (filter f l) + length (filter (fun x => negb (f x)) l) = length l.
Proof. induction l as [|a l IH]; simpl; auto. destruct (f a); simpl; lia. Qed.

Lemma cnt_fin_reclaim p ps t : cnt_fin p (map RM.EvReclaim ps ++ t) = cnt_fin p t.
Proof. induction ps; simpl; auto. Qed.

Lemma abs_pend_of (rm : list gentry) :
  abs_pend (RP.pend_of rm) = map Some (map (fun e => idn (RM.ptr e)) rm).
Proof. unfold abs_pend, RP.pend_of. rewrite !map_map. reflexivity. Qed.

Lemma somes_abs_pend_of (rm : list gentry) :
  somes (abs_pend (RP.pend_of rm)) = map (fun e => idn (RM.ptr e)) rm.
Proof. rewrite abs_pend_of. apply somes_map_Some. Qed.

(* when no destructor allocates, nothing is allocated behind the program's back (structural).
   Keep and NS do not see the registry fields nor the ledger: in the keep_* lemmas below a state and the
   same state with some of those fields reset are interchangeable by conversion *)
Definition NS (s : st) : Prop := forall x, spawns s x = [].
Definition Keep (s s' : st) : Prop := info s' = info s /\ spawns s' = spawns s /\ ids s' = ids s.

Lemma Keep_refl s : Keep s s. Proof. repeat split. Qed.
Lemma Keep_trans a b c : Keep a b -> Keep b c -> Keep a c.
Proof. intros [A1 [A2 A3]] [B1 [B2 B3]]. repeat split; congruence. Qed.
Lemma Keep_NS s s' : Keep s s' -> NS s -> NS s'.
Proof. intros [_ [H _]] N x. rewrite H. apply N. Qed.

Lemma keep_gc_rem r fin s p :
  (forall s o, NS s -> Keep s (fin s o)) -> NS s -> Keep s (gc_rem c17_rule r fin s p).
Proof.
  intros Hf N. unfold gc_rem.
  change (in_reg (set_pend (null_pend p (pend s)) s) p) with (in_reg s p).
  destruct (negb (running s)), (in_pend s p), r, (in_reg s p);
    match goal with |- Keep s (set_mitems _ (fin ?t p)) => exact (Hf t p N) | _ => repeat split end.
Qed.

Lemma keep_finalise r w dd f : forall s o, NS s -> Keep s (finalise c17_rule r w dd nopro f s o).
Proof.
  induction f as [|f IH]; intros s o N; cbn [finalise]; [repeat split|].
  change (spawns (add_log (LFin o) s) o) with (spawns s o). rewrite (N o). simpl fold_left.
  destruct (owned (add_log (LFin o) s) o) as [p|]; [|repeat split].
  exact (keep_gc_rem r _ (add_log (LFin o) s) p IH N).
Qed.

Lemma keep_sweep_loop w fin k : (forall s o, NS s -> Keep s (fin s o)) ->
  forall i s, NS s -> Keep s (sweep_loop w fin k i s).
Proof.
  intros Hf. induction k as [|k IH]; intros i s N; cbn [sweep_loop]; [apply Keep_refl|].
  destruct (nth i (pend s) None) as [o|]; [|apply IH; exact N].
  match goal with |- Keep s (sweep_loop w fin k (S i) ?t) => apply (Keep_trans s t); [|apply IH, (Keep_NS s); [|exact N]] end;
    destruct w; match goal with |- Keep s (fin ?t o) => exact (Hf t o N) end.
Qed.

Lemma keep_sweep w fin order marks s : (forall s o, NS s -> Keep s (fin s o)) -> NS s -> Keep s (sweep c17_rule w fin order marks s).
Proof.
  intros Hf N. unfold sweep.
  match goal with |- Keep s (set_pend [] (sweep_loop w fin ?k 0 ?s1)) => exact (keep_sweep_loop w fin k Hf 0 s1 N) end.
Qed.

Lemma keep_fin_top s o : NS s -> Keep s (fin_top c17_rule true true true nopro s o).
Proof. apply keep_finalise. Qed.

(* has this address ever been registered or finalised, according to C17's log *)
Definition ever (p : N) (l : list RM.event) : bool :=
  existsb (fun e => match e with
                    | RM.EvAlloc q _ | RM.EvSpawn q _ | RM.EvFin q => N.eqb q p
                    | _ => false end) l.

Lemma led_ever l q r : RM.led l q r -> ever q l = true.
Proof.
  induction l as [|e l IH]; simpl; [tauto|].
  destruct e; simpl; intros H; rewrite ?orb_true_iff; intuition (subst; auto using N.eqb_refl).
Qed.

Lemma ever_mono e l p : ever p l = true -> ever p (e :: l) = true.
Proof. intros H. simpl. rewrite H. apply orb_true_r. Qed.

(* addresses seen in C17's log stay seen (what gadm's freshness conditions need) *)
Definition Mono (g g' : RM.gc) : Prop := forall p, ever p (RM.evs g) = true -> ever p (RM.evs g') = true.
Lemma Mono_refl g : Mono g g. Proof. intros p H; exact H. Qed.
Lemma Mono_trans a b c : Mono a b -> Mono b c -> Mono a c.
Proof. intros H1 H2 p H. apply H2, H1, H. Qed.
Lemma Mono_app g g' l : RM.evs g' = l ++ RM.evs g -> Mono g g'.
Proof. intros He p H. rewrite He. unfold ever. rewrite existsb_app. fold (ever p (RM.evs g)). rewrite H. apply orb_true_r. Qed.
Lemma Mono_same g g' : RM.evs g' = RM.evs g -> Mono g g'.
Proof. exact (Mono_app g g' []). Qed.
Lemma Mono_cons g g' e : RM.evs g' = e :: RM.evs g -> Mono g g'.
Proof. exact (Mono_app g g' [e]). Qed.

Lemma ever_cnt_fin p l : ever p l = false -> cnt_fin p l = 0.
Proof.
  induction l as [|e l IH]; simpl; auto. intros H. apply orb_false_iff in H. destruct H as [H1 H2].
  destruct e; auto. rewrite H1. simpl. auto.
Qed.

(* if `order` lists, once each, exactly the registered objects that are neither roots nor marked, the
   pending list of the life-cycle machine's sweep is `order` itself *)
Lemma dead_of_exact order marks s :
  NoDup order -> incl order (regids s) ->
  (forall y, In y (regids s) -> In y order <-> is_root s y = false /\ ~ In y marks) ->
  dead_of order marks s = order.
Proof.
  intros Hnd Hin H. unfold dead_of, arrange. rewrite (nodup_fixed_point Nat.eq_dec Hnd).
  assert (Hp : forall y, In y (regids s) ->
            negb (is_root s y) && negb (existsb (Nat.eqb y) marks) = true <-> In y order).
  { intros y Hy. rewrite (H y Hy), <- existsb_eqb_in, andb_true_iff, !negb_true_iff, not_true_iff_false. tauto. }
  rewrite (filter_all (in_reg s) order) by (intros y Hy; apply in_reg_spec, Hin, Hy).
  rewrite filter_app, filter_all, filter_none; [apply app_nil_r | |].
  - intros y Hy. apply filter_In in Hy. destruct Hy as [Hy Hno]. apply not_true_iff_false. rewrite (Hp y Hy).
    rewrite negb_true_iff, <- not_true_iff_false, existsb_eqb_in in Hno. exact Hno.
  - intros y Hy. apply Hp; auto.
Qed.

Section Glue.
  Variable hashf : N -> N.
  Variable d : RP.dtors.
  (* a destructor deletes at most one object (a Box deletes what it owns) and allocates nothing; the
     predicate `boxlike d` defined after the section is the two hypotheses together *)
  Hypothesis boxlike : forall q, RP.d_owns d q = [] \/ exists t, RP.d_owns d q = [t].
  Hypothesis nospawn : forall q, RP.d_spawns d q = [].

  Definition own0 (x : nat) : option nat :=
    match RP.d_owns d (N.of_nat x) with [t] => Some (idn t) | _ => None end.

  Lemma own0_idn q : own0 (idn q) = match RP.d_owns d q with [t] => Some (idn t) | _ => None end.
  Proof. unfold own0, idn. rewrite N2Nat.id. reflexivity. Qed.

  (* the table part of C17's invariant (no ledger, no bounds) *)
  Record Tab (g : RM.gc) : Prop := {
    t_core : RP.Core hashf (RM.slots g);
    t_count : RM.nitems g = occupied (RM.slots g);
    t_room : RM.nslots g = 0 \/ RM.nitems g < RM.nslots g;
    t_clear : RP.Clear (RM.slots g);
    t_empty : RM.nslots g = 0 -> RM.pending g = []
  }.

  Record Rel (g : RM.gc) (s : st) : Prop := {
    rel_reg : forall x r, In (x, r) (reg s) <-> In (x, r) (abs_reg g);
    rel_pend : pend s = abs_pend (RM.pending g);
    rel_run : running s = RM.running g;
    rel_mit : mitems s = RM.mitems g;
    rel_fin : forall p, fin_count s (idn p) = cnt_fin p (RM.evs g);
    rel_own : forall x, fin_count s x = 0 -> owned s x = own0 x;
    rel_spawn : forall x, spawns s x = []
  }.

  Lemma Inv_Tab g : RP.Inv hashf g -> (RM.nslots g = 0 -> RM.pending g = []) -> Tab g.
  Proof. intros [H Hcl] He. constructor; auto; apply H. Qed.

  Lemma Tab_tbl g : Tab g -> RP.Tbl hashf (RM.slots g) (RM.nitems g).
  Proof. intros T. exact (conj (conj (t_core g T) (t_count g T)) (t_room g T)). Qed.

  Lemma tbl_Tab g : RP.Tbl hashf (RM.slots g) (RM.nitems g) -> RP.Clear (RM.slots g) ->
    (RM.nslots g = 0 -> RM.pending g = []) -> Tab g.
  Proof. intros ((Hc & Hn) & Hr). constructor; assumption. Qed.

  Lemma rel_regs {g s} p r : Rel g s -> In (idn p, r) (reg s) <-> RP.Regs (RM.slots g) p r.
  Proof. intros R. rewrite (rel_reg g s R). apply in_abs_reg_Reg. Qed.

  Lemma rel_ns g s : Rel g s -> NS s.
  Proof. exact (rel_spawn g s). Qed.

  Lemma core_nodup_ids g : Tab g -> NoDup (map fst (abs_reg g)).
  Proof.
    intros T. unfold abs_reg. rewrite map_map. cbn [abs_entry fst]. rewrite <- (map_map RM.ptr idn).
    apply FinFun.Injective_map_NoDup; [intros a b; apply idn_inj|].
    apply (UQ_NoDup N gentry RM.ptr), (t_core g T).
  Qed.

  Lemma NoDup_map_fst {A B} (l : list (A * B)) : NoDup (map fst l) -> NoDup l.
  Proof. apply NoDup_map_inv. Qed.

  (* same registered set, no duplicates on either side: same count *)
  Lemma rel_len {g s} : Tab g -> Rel g s -> NoDup (regids s) -> length (reg s) = RM.nitems g.
  Proof.
    intros T R Hnd. rewrite (t_count g T). unfold RobinHood.occupied.
    rewrite <- (map_length abs_entry). apply Permutation_length, NoDup_Permutation.
    - apply NoDup_map_fst, Hnd.
    - apply NoDup_map_fst, core_nodup_ids, T.
    - intros [x r]. apply (rel_reg g s R).
  Qed.

  Lemma rel_in_reg {g s} p : Rel g s -> in_reg s (idn p) = true <-> exists r, RP.Regs (RM.slots g) p r.
  Proof.
    intros R. rewrite in_reg_spec. unfold regids. rewrite in_map_iff. split.
    - intros [[x r] [Hx Hin]]. simpl in Hx. subst x. exists r. apply (rel_regs p r R), Hin.
    - intros [r Hr]. exists (idn p, r). split; [reflexivity|]. apply (rel_regs p r R), Hr.
  Qed.

  Lemma rel_not_reg {g s} p : Rel g s -> RP.HAbsent (RM.slots g) p -> in_reg s (idn p) = false.
  Proof. intros R H. apply not_true_iff_false. rewrite (rel_in_reg p R). intros [r [e [He [Hp _]]]]. exact (H e He Hp). Qed.

  Lemma regids_holds {g s} y : Rel g s -> In y (regids s) <-> exists e, Holds (RM.slots g) e /\ idn (RM.ptr e) = y.
  Proof.
    intros R. unfold regids. rewrite in_map_iff. split.
    - intros [[y' r] [<- Hin]]. apply (rel_reg g s R), in_abs_reg in Hin. destruct Hin as [e [He [Hk _]]]. eauto.
    - intros [e [He <-]]. exists (idn (RM.ptr e), RM.root e). split; [reflexivity|].
      apply (rel_reg g s R), (in_map abs_entry), in_entries, He.
  Qed.

  Lemma rel_in_pend {g s} p : Rel g s -> in_pend s (idn p) = RM.is_pending p (RM.pending g).
  Proof. intros R. unfold in_pend. rewrite (rel_pend g s R). apply abs_pend_in_pend. Qed.

  Lemma rel_unique_entry g e1 e2 : RP.Core hashf (RM.slots g) ->
    Holds (RM.slots g) e1 -> Holds (RM.slots g) e2 -> idn (RM.ptr e1) = idn (RM.ptr e2) -> e1 = e2.
  Proof. intros Hc H1 H2 Hp. apply (RP.Core_UQ_same hashf _ _ _ Hc H1 H2), idn_inj, Hp. Qed.

  Lemma holds_is_root {g s e} : RP.Core hashf (RM.slots g) -> Rel g s -> Holds (RM.slots g) e -> is_root s (idn (RM.ptr e)) = RM.root e.
  Proof.
    intros Hc R He. apply eq_iff_eq_true. rewrite is_root_spec, (rel_regs _ _ R). split.
    - intros [e' [He' [Hp Hr]]]. rewrite <- (RP.Core_UQ_same hashf _ _ _ Hc He' He Hp). exact Hr.
    - intros Hr. exists e. auto.
  Qed.

  Lemma reg_not_root g s p : Tab g -> Rel g s -> RP.Regs (RM.slots g) p false -> is_root s (idn p) = false.
  Proof. intros T R [e [He [<- Hr]]]. rewrite (holds_is_root (t_core g T) R He). exact Hr. Qed.

  Local Notation Crem := (RM.gc_rem hashf gc_swap gc_primes gc_load_num gc_load_den (RP.d_owns d) (RP.d_spawns d) true).
  Local Notation Cfinw := (RM.finalise_with hashf gc_swap gc_primes gc_load_num gc_load_den (RP.d_owns d) (RP.d_spawns d)).
  Local Notation Cless := (RM.resize_less hashf gc_swap gc_primes gc_load_num gc_load_den).

  (* with Box-like destructors, dealloc(destruct(q)) of C17 is: log, then at most one GC_Rem *)
  Lemma cfinw_eq rem g q :
    Cfinw rem g q = match RP.d_owns d q with
                    | [] => Some (RM.log g (RM.EvFin q))
                    | t :: _ => rem (RM.log g (RM.EvFin q)) t
                    end.
  Proof.
    unfold RM.finalise_with. rewrite nospawn. simpl.
    destruct (boxlike q) as [-> | [t ->]]; reflexivity.
  Qed.

  Lemma tab_fields g g' :
    RM.slots g' = RM.slots g -> RM.nitems g' = RM.nitems g ->
    (RM.pending g = [] -> RM.pending g' = []) -> Tab g -> Tab g'.
  Proof.
    intros Hs Hn Hp T. constructor; unfold RM.nslots in *; rewrite ?Hs, ?Hn; try apply T.
    intros Hz. apply Hp, (t_empty g T), Hz.
  Qed.

  Lemma rel_fields_regs g g' s :
    (forall p r, RP.Regs (RM.slots g') p r <-> RP.Regs (RM.slots g) p r) -> RM.pending g' = RM.pending g ->
    RM.running g' = RM.running g -> RM.mitems g' = RM.mitems g ->
    (forall p, cnt_fin p (RM.evs g') = cnt_fin p (RM.evs g)) -> Rel g s -> Rel g' s.
  Proof.
    intros Hh Hp Hr Hm He R. constructor; try apply R.
    - apply abs_reg_by_address. intros p r. rewrite Hh. apply rel_regs, R.
    - rewrite Hp. apply R.
    - rewrite Hr. apply R.
    - rewrite Hm. apply R.
    - intros p. rewrite He. apply R.
  Qed.

  Lemma rel_fields g g' s :
    (forall x, Holds (RM.slots g') x <-> Holds (RM.slots g) x) -> RM.pending g' = RM.pending g ->
    RM.running g' = RM.running g -> RM.mitems g' = RM.mitems g ->
    (forall p, cnt_fin p (RM.evs g') = cnt_fin p (RM.evs g)) -> Rel g s -> Rel g' s.
  Proof. intros Hh. apply rel_fields_regs. intros p r. unfold RP.Regs. setoid_rewrite Hh. reflexivity. Qed.

  Lemma tab_resize_less g : Tab g ->
    exists l', Cless g = Some (RM.set_slots g l') /\ Tab (RM.set_slots g l') /\
               (forall x, Holds l' x <-> Holds (RM.slots g) x).
  Proof.
    intros T.
    destruct (RP.resize_less_tbl hashf gc_swap gc_primes gc_load_num gc_load_den (fun _ => []) (fun _ => [])
                RP.gc_swap_le RP.gc_swap_ge RP.gc_ideal_gt g (Tab_tbl g T) (t_clear g T)) as (l' & Hr & T' & Hh & Hz).
    exists l'. split; [exact Hr|]. split; [|exact Hh]. apply tbl_Tab; [exact T'| |].
    - intros e He. apply (t_clear g T), Hh, He.
    - intros Hz'. exact (t_empty g T (Hz Hz')).
  Qed.

  (* a finaliser of the life-cycle machine that is good (FinOK) and matches C17's
     dealloc(destruct(.)) whose nested removals have fuel f *)
  Definition FinSim (fin : st -> nat -> st) (n f : nat) : Prop :=
    FinOK fin n /\
    forall A g s q g', Tab g -> Rel g s -> GInv A s ->
      ~ In (idn q) (regids s) -> ~ In (idn q) (pids s) -> fin_count s (idn q) = 0 -> info s (idn q) <> None ->
      measure s < n ->
      Cfinw (Crem f) g q = Some g' -> Tab g' /\ Rel g' (fin s (idn q)) /\ Mono g g'.

  Lemma cnt_fin_log_other g e p : (forall q, e <> RM.EvFin q) -> cnt_fin p (RM.evs (RM.log g e)) = cnt_fin p (RM.evs g).
  Proof. intros H. simpl. destruct e; try reflexivity. exfalso. apply (H p0). reflexivity. Qed.

  (* in the middle of an operation that started in C17 state g0: g and s are related, the objects A
     are being finalised, and the log has only grown *)
  Definition SimFrom (A : list nat) (g0 g : RM.gc) (s : st) : Prop := Tab g /\ Rel g s /\ GInv A s /\ Mono g0 g.

  Lemma sim_intro {A g s} : Tab g -> Rel g s -> GInv A s -> SimFrom A g g s.
  Proof. intros T R G. exact (conj T (conj R (conj G (Mono_refl g)))). Qed.

  (* the tail of GC_Rem and of the compaction: GC_Resize_Less and the mitems rule *)
  Lemma sim_rem_tail_from {A g0 g1 s1 g'} : SimFrom A g0 g1 s1 ->
    match Cless g1 with None => None | Some g2 => Some (RM.new_mitems g2) end = Some g' ->
    SimFrom A g0 g' (set_mitems (c17_rule (nitems s1)) s1).
  Proof.
    intros (T & R & G & M) H. destruct (tab_resize_less g1 T) as [l' [Hr [T2 Hh]]]. rewrite Hr in H.
    injection H as <-.
    assert (R2 : Rel (RM.set_slots g1 l') s1) by (apply (rel_fields g1); auto).
    split; [apply (tab_fields (RM.set_slots g1 l')); auto|]. split; [|split; [constructor; apply G | exact M]].
    constructor; try apply R2. simpl. unfold c17_rule, nitems.
    rewrite (rel_len T2 R2 (g_reg_nodup _ _ G)). reflexivity.
  Qed.

  Lemma sim_rem_tail A g1 s1 g' : Tab g1 -> Rel g1 s1 -> GInv A s1 ->
    match Cless g1 with None => None | Some g2 => Some (RM.new_mitems g2) end = Some g' ->
    Tab g' /\ Rel g' (set_mitems (c17_rule (nitems s1)) s1) /\ Mono g1 g'.
  Proof. intros T R G H. destruct (sim_rem_tail_from (sim_intro T R G) H) as (T' & R' & _ & M'). auto. Qed.

  (* finalising an object whose entry has just been taken out of the registry or of the pending list *)
  Lemma sim_fin_detached {fin n f} : FinSim fin n f -> forall {A g0 g s q g'},
    GInv A s -> In (idn q) (regids s) \/ In (idn q) (pids s) -> measure s < n ->
    Tab g -> Rel g (detach (idn q) s) -> Mono g0 g -> Cfinw (Crem f) g q = Some g' ->
    let s' := fin (detach (idn q) s) (idn q) in
    SimFrom A g0 g' s' /\ measure s' <= measure s.
  Proof.
    intros [HF HS] A g0 g s q g' G Hin Hm T R M0 H s'.
    destruct (detach_ok A s (idn q) G Hin) as (G1 & Hr & Hp & Hf & Hi).
    destruct (HS A g _ q g' T R G1 Hr Hp Hf Hi Hm H) as (T' & R' & Mo).
    destruct (fin_detached fin n HF A s (idn q) G Hin Hm) as (G' & _ & _ & _ & Hm').
    split; [exact (conj T' (conj R' (conj G' (Mono_trans _ _ _ M0 Mo)))) | exact Hm'].
  Qed.

  (* ... out of the pending list: GC_Rem_Ptr clears the entries equal to q, GC_Sweep's finaliser loop
     the slot it is at; pl is what either leaves *)
  Lemma sim_fin_pending {fin n f} : FinSim fin n f -> forall {A g0 g s} q pl {g'},
    SimFrom A g0 g s -> measure s < n -> In (idn q) (pids s) ->
    abs_pend pl = null_pend (idn q) (abs_pend (RM.pending g)) -> Cfinw (Crem f) (RM.set_pending g pl) q = Some g' ->
    let s' := fin (set_pend (null_pend (idn q) (pend s)) s) (idn q) in
    SimFrom A g0 g' s' /\ measure s' <= measure s.
  Proof.
    intros FS A g0 g s q pl g' (T & R & G & M) Hm Hin Hpl H. rewrite (detach_pending A s _ G Hin).
    apply (sim_fin_detached FS (g := RM.set_pending g pl) G (or_intror Hin) Hm); auto.
    - apply (tab_fields g); auto. intros Hpe. unfold pids in Hin. rewrite (rel_pend g s R), Hpe in Hin. destruct Hin.
    - rewrite <- (detach_pending A s _ G Hin). constructor; try apply R. simpl. rewrite (rel_pend g s R). symmetry. exact Hpl.
  Qed.

  (* GC_Remove_At of a registered entry is rem_reg *)
  Lemma sim_delete {g s e l1} :
    Tab g -> Rel g s -> RP.Tbl hashf l1 (pred (RM.nitems g)) -> length l1 = length (RM.slots g) ->
    (forall x, Holds l1 x <-> Holds (RM.slots g) x /\ RM.ptr x <> RM.ptr e) ->
    let gd := RM.set_nitems (RM.set_slots g l1) (pred (RM.nitems g)) in
    Tab gd /\ Rel gd (set_reg (rem_reg (idn (RM.ptr e)) (reg s)) s).
  Proof.
    intros T R T1 Hlen Hh1. split.
    - apply tbl_Tab; [exact T1| |unfold RM.nslots; simpl; rewrite Hlen; apply (t_empty g T)].
      intros x Hx. apply (t_clear g T), Hh1, Hx.
    - constructor; try apply R. apply abs_reg_by_address. intros q r. simpl reg. unfold rem_reg.
      rewrite filter_In, (rel_regs q r R), negb_true_iff, Nat.eqb_neq. simpl fst.
      unfold RP.Regs. setoid_rewrite Hh1. split.
      + intros [[x [Hx [<- Hr]]] Hne]. exists x. repeat split; auto. congruence.
      + intros [x [[Hx Hne] [<- Hr]]]. split; [eauto|]. intros Hq. apply Hne, idn_inj, Hq.
  Qed.

  (* ... out of the registry *)
  Lemma sim_fin_found {fin n f} : FinSim fin n f -> forall {A g0 g s e l1 g'},
    SimFrom A g0 g s -> measure s < n -> Holds (RM.slots g) e ->
    RP.Tbl hashf l1 (pred (RM.nitems g)) -> length l1 = length (RM.slots g) ->
    (forall x, Holds l1 x <-> Holds (RM.slots g) x /\ RM.ptr x <> RM.ptr e) ->
    Cfinw (Crem f) (RM.set_nitems (RM.set_slots g l1) (pred (RM.nitems g))) (RM.ptr e) = Some g' ->
    in_reg s (idn (RM.ptr e)) = true /\
    SimFrom A g0 g' (fin (set_reg (rem_reg (idn (RM.ptr e)) (reg s)) s) (idn (RM.ptr e))).
  Proof.
    intros FS A g0 g s e l1 g' (T & R & G & M) Hm He T1 Hlen Hh H.
    destruct (sim_delete (e := e) T R T1 Hlen Hh) as [Td Rd].
    assert (Hreg : In (idn (RM.ptr e)) (regids s)) by (apply (regids_holds _ R); exists e; auto).
    split; [apply in_reg_spec, Hreg|]. rewrite (detach_registered A s _ G Hreg) in Rd |- *.
    apply (sim_fin_detached FS G (or_introl Hreg) Hm Td Rd M H).
  Qed.

  (* what the life-cycle machine does not see: an event that is not a destructor call, and GC_Rem_Ptr's
     scan of a pending list that does not hold p *)
  Lemma sim_log {A g0 g s} e : (forall q, e <> RM.EvFin q) -> SimFrom A g0 g s -> SimFrom A g0 (RM.log g e) s.
  Proof.
    intros He (T & R & G & M). split; [apply (tab_fields g); auto|]. split; [|split; [exact G|]].
    - apply (rel_fields g); auto; try reflexivity. intros p. apply cnt_fin_log_other, He.
    - apply (Mono_trans _ _ _ M), (Mono_cons g _ e). reflexivity.
  Qed.

  Lemma sim_pend_miss {A g0 g s p} : RM.is_pending p (RM.pending g) = false -> SimFrom A g0 g s ->
    SimFrom A g0 (RM.set_pending g (RM.null_out p (RM.pending g))) s.
  Proof.
    intros Hp (T & R & G & M). split; [apply (tab_fields g); auto; intros Hpe; simpl; rewrite Hpe; reflexivity|].
    split; [|split; [exact G | exact M]].
    constructor; try apply R. simpl. rewrite <- abs_pend_null, <- (rel_pend g s R). symmetry. apply null_pend_notin.
    intros Hx. apply (in_pend_spec s) in Hx. rewrite (rel_in_pend p R), Hp in Hx. discriminate.
  Qed.

  Lemma sim_rem_step fin n f : FinSim fin n f -> forall A g s p g',
    Tab g -> Rel g s -> GInv A s -> measure s < n ->
    Crem (S f) g p = Some g' -> Tab g' /\ Rel g' (gc_rem c17_rule true fin s (idn p)) /\ Mono g g'.
  Proof.
    intros FS A g s p g' T R G Hm H.
    cbn [RM.gc_rem] in H. unfold gc_rem. rewrite (rel_run g s R).
    destruct (RM.running g); simpl negb in *; cbv iota in *; [|injection H as <-; auto using Mono_refl].
    assert (Sl : SimFrom A g (RM.log g (RM.EvRem p)) s) by (apply sim_log, sim_intro; auto; discriminate).
    set (gl := RM.log g (RM.EvRem p)) in *. clearbody gl. clear T R.
    match type of H with match ?x with _ => _ end = _ => destruct x as [g1|] eqn:Hap; [|discriminate] end.
    (* GC_Rem_Ptr leaves related states; the rest is sim_rem_tail_from *)
    cbv zeta. match goal with |- _ /\ Rel _ (set_mitems _ ?t) /\ _ => set (s1 := t) end.
    enough (S1 : SimFrom A g g1 s1) by (destruct (sim_rem_tail_from S1 H) as (Ta & Ra & _ & Ma); auto).
    clear H. subst s1. pose proof Sl as (Tl & Rl & _). rewrite (rel_in_pend p Rl).
    destruct (Nat.eqb_spec (RM.nslots gl) 0) as [Hz|Hnz].
    - (* nothing was ever registered *)
      injection Hap as <-. rewrite (t_empty gl Tl Hz), (rel_not_reg p Rl); [exact Sl|].
      intros e He. destruct (RP.Holds_nslots gl e He Hz).
    - destruct (RM.is_pending p (RM.pending gl)) eqn:Hhit; simpl andb in Hap; cbv iota in Hap.
      + (* found in the pending list of the running sweep: finalised from there *)
        apply (sim_fin_pending FS p (RM.null_out p (RM.pending gl)) Sl Hm); [|exact (eq_sym (abs_pend_null _ p)) | exact Hap].
        apply in_pend_spec. rewrite (rel_in_pend p Rl). exact Hhit.
      + pose proof (sim_pend_miss Hhit Sl) as S0.
        set (g0 := RM.set_pending gl (RM.null_out p (RM.pending gl))) in *.
        assert (Hnz0 : RM.nslots g0 <> 0) by exact Hnz.
        clearbody g0. pose proof S0 as (T0 & R0 & _).
        unfold RM.nslots in Hap, Hnz0.
        destruct (RP.Tbl_take hashf _ _ p (Tab_tbl g0 T0) Hnz0) as [[i|] [Hfind Hres]]; rewrite Hfind in Hap.
        * destruct Hres as (e & l1 & He & <- & Hdel & T1 & Hlen & Hh). rewrite Hdel in Hap.
          destruct (sim_fin_found FS S0 Hm He T1 Hlen Hh Hap) as (-> & S1). exact S1.
        * injection Hap as <-. rewrite (rel_not_reg p R0 Hres). exact S0.
  Qed.

  Lemma cnt_fin_log_fin g q p : cnt_fin p (RM.evs (RM.log g (RM.EvFin q))) = (if N.eqb q p then 1 else 0) + cnt_fin p (RM.evs g).
  Proof. reflexivity. Qed.

  Lemma rel_add_fin g s q : Rel g s -> Rel (RM.log g (RM.EvFin q)) (add_log (LFin (idn q)) s).
  Proof.
    intros R. constructor; try apply R.
    - intros p. rewrite fin_add_fin, idn_eqb, N.eqb_sym, cnt_fin_log_fin, (rel_fin g s R p). reflexivity.
    - intros x Hx. rewrite fin_add_fin in Hx. apply (rel_own g s R x). lia.
  Qed.

  Lemma rel_add_free g s x : Rel g s -> Rel g (add_log (LFree x) s).
  Proof.
    intros R. constructor; apply R.
  Qed.

  Lemma rel_finish g s x : Rel g s -> 0 < fin_count s x ->
    Rel g (add_log (LFree x) (set_owned (upd_owned (owned s) x None) s)).
  Proof.
    intros R Hpos. apply rel_add_free. constructor; try apply R.
    intros y Hy. change (fin_count s y = 0) in Hy. cbn [owned set_owned]. unfold upd_owned.
    destruct (Nat.eqb_spec y x) as [->|Hne]; [lia | apply (rel_own g s R y Hy)].
  Qed.

  (* dealloc(destruct(q)) matches when the GC_Rem its destructor may issue does *)
  Lemma sim_fin_step f fm :
    (forall A g s p g', Tab g -> Rel g s -> GInv A s -> measure s < fm -> Crem f g p = Some g' ->
       Tab g' /\ Rel g' (gc_rem c17_rule true (finF fm) s (idn p)) /\ Mono g g') ->
    FinSim (finF (S fm)) (S fm) f.
  Proof.
    intros Hrem. split; [apply (finalise_ok c17_rule)|].
    intros A g s q g' T R G Hr Hp Hf Hinfo Hm H. rewrite cfinw_eq in H. cbn [finalise].
    destruct (add_fin_ok A s (idn q) G Hr Hp Hf Hinfo) as (G1 & _ & M1).
    pose proof (rel_add_fin g s q R) as Rl.
    set (s1 := add_log (LFin (idn q)) s) in *. set (gl := RM.log g (RM.EvFin q)) in *.
    change (spawns s1 (idn q)) with (spawns s (idn q)). rewrite (rel_spawn g s R). simpl fold_left.
    change (owned s1 (idn q)) with (owned s (idn q)). rewrite (rel_own g s R _ Hf), own0_idn.
    assert (Tl : Tab gl) by (apply (tab_fields g); auto).
    assert (Ml : Mono g gl) by (apply (Mono_cons g gl (RM.EvFin q)); reflexivity).
    assert (Hm1 : measure s1 < fm) by lia.
    destruct (boxlike q) as [Hown | [t Hown]]; rewrite Hown in *.
    - injection H as <-. auto using rel_add_free.
    - destruct (Hrem (idn q :: A) gl s1 t g' Tl Rl G1 Hm1 H) as (T2 & R2 & M2).
      split; [exact T2|]. split; [|exact (Mono_trans _ _ _ Ml M2)].
      apply rel_finish; [exact R2|].
      destruct (LifecycleProofs.gc_rem_ok c17_rule _ _ (finalise_ok c17_rule fm) (idn q :: A) s1 (idn t) G1 Hm1) as (G2 & _).
      destruct (g_prog _ _ G2 (idn q) (or_introl eq_refl)). lia.
  Qed.

  (* dealloc(destruct(q)): the destructor of the life-cycle machine matches C17's, at every pair
     of fuels (C17's nesting fuel f, the life-cycle machine's fuel fm) *)
  Lemma sim_fin : forall f fm, FinSim (finF fm) fm f.
  Proof.
    induction f as [|f IH]; intros [|fm]; try (split; [apply (finalise_ok c17_rule) | intros; lia]);
      apply sim_fin_step.
    - discriminate.
    - apply (sim_rem_step (finF fm) fm f (IH fm)).
  Qed.

  (* the finaliser the events of the life-cycle machine use (fuel computed from the state) *)
  Lemma finsim_top n f : FinSim finT n f.
  Proof.
    split; [apply (fin_top_ok c17_rule)|].
    intros A g s q g' T R G Hr Hp Hf Hinfo _ H. unfold fin_top.
    destruct (sim_fin f (fuel_of s)) as [_ HS].
    apply (HS A g s q g' T R G Hr Hp Hf Hinfo); [unfold fuel_of, measure; lia | exact H].
  Qed.

  (* GC_Rem — del, del_root, and the `del` a destructor issues, also while a sweep is in progress
     (pending list not empty) — on the concrete table is GC_Rem of the life-cycle machine *)
  Theorem glue_rem : forall f A g s p g',
    Tab g -> Rel g s -> GInv A s ->
    Crem f g p = Some g' -> Tab g' /\ Rel g' (gc_rem c17_rule true finT s (idn p)) /\ Mono g g'.
  Proof.
    intros [|f] A g s p g' T R G H; [discriminate|].
    apply (sim_rem_step finT (S (measure s)) f (finsim_top _ f) A g s p g' T R G); [lia | exact H].
  Qed.

  (* dealloc(destruct(q)) of an object that is neither registered nor pending (del_raw) *)
  Theorem glue_finalise : forall f A g s q g',
    Tab g -> Rel g s -> GInv A s ->
    ~ In (idn q) (regids s) -> ~ In (idn q) (pids s) -> fin_count s (idn q) = 0 -> info s (idn q) <> None ->
    Cfinw (Crem f) g q = Some g' -> Tab g' /\ Rel g' (finT s (idn q)) /\ Mono g g'.
  Proof.
    intros f A g s q g' T R G Hr Hp Hf Hi H.
    destruct (finsim_top (S (measure s)) f) as [_ HS].
    apply (HS A g s q g' T R G Hr Hp Hf Hi); [lia | exact H].
  Qed.

  Local Notation Cfinloop := (RM.fin_loop hashf gc_swap gc_primes gc_load_num gc_load_den (RP.d_owns d) (RP.d_spawns d) true true).

  (* the finaliser loop of GC_Sweep, destructor-issued removals included *)
  Lemma sim_fin_loop fin n f : FinSim fin n f -> forall c k A g s g',
    Tab g -> Rel g s -> GInv A s -> measure s < n ->
    Cfinloop c k f g = Some g' -> Tab g' /\ Rel g' (sweep_loop true fin c k s) /\ Mono g g'.
  Proof.
    intros FS. induction c as [|c IH]; intros k A g s g' T R G Hm H; cbn [RM.fin_loop sweep_loop] in *.
    - injection H as <-. auto using Mono_refl.
    - rewrite (rel_pend g s R), abs_pend_nth.
      destruct (nth k (RM.pending g) None) as [q|] eqn:Hn; simpl option_map; cbv iota;
        [|apply (IH (S k) A g s g' T R G Hm H)].
      rewrite <- (rel_pend g s R).
      unfold RM.finalise in H. destruct (Cfinw (Crem f) _ q) as [g2|] eqn:Hfin; [|discriminate].
      assert (Hn' : nth k (abs_pend (RM.pending g)) None = Some (idn q)) by (rewrite abs_pend_nth, Hn; reflexivity).
      assert (Hnd : NoDup (somes (abs_pend (RM.pending g)))) by (rewrite <- (rel_pend g s R); apply G).
      destruct (sim_fin_pending FS q (RM.upd_opt k (RM.pending g)) (g' := g2) (sim_intro T R G) Hm)
        as ((T2 & R2 & G2 & Mo2) & M2); [| |exact Hfin|].
      { unfold pids. rewrite (rel_pend g s R). exact (nth_in_somes _ _ _ Hn'). }
      { rewrite abs_pend_upd. symmetry. exact (null_pend_upd _ k (idn q) Hnd Hn'). }
      destruct (IH (S k) A g2 _ g' T2 R2 G2 ltac:(lia) H) as (T3 & R3 & Mo3). eauto using Mono_trans.
  Qed.

  Local Notation Csweep := (RM.gc_sweep hashf gc_swap gc_primes gc_load_num gc_load_den (RP.d_owns d) (RP.d_spawns d) true true).

  (* the order in which C17's compaction loop hands the reclaimed entries to the pending list, and
     the mark bits of the table, as inputs of the life-cycle machine's sweep *)
  Definition c_order (g : RM.gc) : list nat :=
    match RM.sweep_loop (RM.nslots g + occupied (RM.slots g) + 1) (RM.slots g) 0 (RM.nitems g) [] (RM.evs g) with
    | Some (_, _, pl, _) => somes (abs_pend pl)
    | None => []
    end.
  Definition c_marks (g : RM.gc) : list nat := abs_marks (RM.slots g).

  (* the table part of the invariant between GC_Mark and the end of the compaction loop: Tab without
     t_clear and t_empty, i.e. RP.Tbl hashf (slots g) (nitems g) as a record (TabM_tbl) *)
  Record TabM (g : RM.gc) : Prop := {
    tm_core : RP.Core hashf (RM.slots g);
    tm_count : RM.nitems g = occupied (RM.slots g);
    tm_room : RM.nslots g = 0 \/ RM.nitems g < RM.nslots g
  }.

  Lemma TabM_tbl g : TabM g <-> RP.Tbl hashf (RM.slots g) (RM.nitems g).
  Proof. split; [intros [Hc Hn Hr]|intros ((Hc & Hn) & Hr); constructor]; auto. split; [split|]; auto. Qed.

  Lemma holds_marked {g e} : RP.Core hashf (RM.slots g) -> Holds (RM.slots g) e ->
    In (idn (RM.ptr e)) (c_marks g) <-> RM.marked e = true.
  Proof.
    intros Hc He. unfold c_marks, abs_marks. rewrite in_map_iff. setoid_rewrite filter_In. setoid_rewrite in_entries. split.
    - intros [e' [Hp [He' Hm]]]. rewrite <- (rel_unique_entry g e' e Hc He' He Hp). exact Hm.
    - intros Hm. exists e. auto.
  Qed.

  Lemma clear_no_marks g : RP.Clear (RM.slots g) -> c_marks g = [].
  Proof.
    intros Hc. unfold c_marks, abs_marks. rewrite filter_none; [reflexivity|].
    intros x Hx. apply Hc, in_entries, Hx.
  Qed.

  (* C17's state between the compaction loop and GC_Resize_Less *)
  Definition compacted (g : RM.gc) (l' : list gslot) (rm : list gentry) : RM.gc :=
    RM.mkGC (RM.clear_marks l') (RM.nitems g - length rm) (RM.mitems g) (RM.minptr g) (RM.maxptr g) (RM.running g)
            (RP.pend_of rm) (RP.reclaim_evs rm ++ RM.evs g).

  (* the identities of the reclaimed entries are pairwise distinct: RP.Swept_reclaimed_once, and idn is injective *)
  Lemma swept_ids_once {l l' rm} : RP.Core hashf l -> RP.Swept hashf l l' rm ->
    NoDup (map (fun e => idn (RM.ptr e)) rm).
  Proof.
    intros Hc Hsw. rewrite <- (map_map RM.ptr idn).
    apply FinFun.Injective_map_NoDup; [intros a b; apply idn_inj|]. exact (RP.Swept_reclaimed_once hashf _ _ _ Hc Hsw).
  Qed.

  (* the reclaimed entries as the life-cycle machine's `order`: each once, all registered, an entry of
     the table is among them iff the compaction did not keep it — so, with the table's mark bits, they
     are the machine's dead list *)
  Lemma compacted_order {g s l' rm} : RP.Core hashf (RM.slots g) -> Rel g s -> RP.Swept hashf (RM.slots g) l' rm ->
    let order := map (fun e => idn (RM.ptr e)) rm in
    NoDup order /\ incl order (regids s) /\
    (forall e, Holds (RM.slots g) e -> In (idn (RM.ptr e)) order <-> RP.keeper e = false) /\
    dead_of order (c_marks g) s = order.
  Proof.
    intros Hc R Hsw order. pose proof (swept_ids_once Hc Hsw : NoDup order) as Hnd.
    destruct Hsw as (_ & _ & _ & Hrm & _).
    assert (Hin : incl order (regids s)).
    { intros y Hy. apply in_map_iff in Hy. destruct Hy as [x [<- Hx]].
      apply (regids_holds _ R). exists x. split; [apply Hrm, Hx | reflexivity]. }
    assert (Hkey : forall e, Holds (RM.slots g) e -> In (idn (RM.ptr e)) order <-> RP.keeper e = false).
    { intros e He. unfold order. rewrite in_map_iff. split.
      - intros [x [Hp Hx]]. apply Hrm in Hx. destruct Hx as [Hx Hk]. rewrite <- (rel_unique_entry g x e Hc Hx He Hp). exact Hk.
      - intros Hk. exists e. split; [reflexivity | apply Hrm; auto]. }
    repeat (split; [assumption|]). apply dead_of_exact; auto.
    intros y Hy. apply (regids_holds y R) in Hy. destruct Hy as [e [He <-]].
    rewrite (Hkey e He), (holds_is_root Hc R He), (holds_marked Hc He). unfold RP.keeper.
    rewrite orb_false_iff, not_true_iff_false. apply and_comm.
  Qed.

  Lemma compacted_tab g l' rm : TabM g -> RP.Swept hashf (RM.slots g) l' rm -> Tab (compacted g l' rm).
  Proof.
    intros TM Hsw. apply tbl_Tab; [exact (RP.Tbl_swept hashf _ _ _ _ (proj1 (TabM_tbl g) TM) Hsw)|apply RP.Clear_clear_marks|].
    destruct Hsw as (_ & Hlen' & _ & _ & Hocc). unfold RM.nslots. simpl. rewrite (RP.PW_length _ _ (RP.PW_clear_marks l')), Hlen'.
    intros Hz. pose proof (occupied_le _ (RM.slots g)). destruct rm; [reflexivity | simpl in *; lia].
  Qed.

  Lemma compacted_rel g s l' rm : Rel g s -> RP.Swept hashf (RM.slots g) l' rm ->
    (forall e, Holds (RM.slots g) e -> In (idn (RM.ptr e)) (map (fun e => idn (RM.ptr e)) rm) <-> RP.keeper e = false) ->
    Rel (compacted g l' rm) (compact_st (map (fun e => idn (RM.ptr e)) rm) s).
  Proof.
    intros R (_ & _ & Hh' & _) Hkey. constructor; try apply R.
    - apply abs_reg_by_address. intros p r. cbn [reg compact_st set_pend set_reg compacted RM.slots].
      rewrite filter_In, (rel_regs p r R), (RP.PW_regs _ _ p r (RP.PW_clear_marks l')), negb_true_iff, <- not_true_iff_false, existsb_eqb_in.
      simpl fst. unfold RP.Regs. setoid_rewrite Hh'. split.
      + intros [[e [He [<- Hr]]] Hno]. rewrite (Hkey e He) in Hno. exists e. apply not_false_is_true in Hno. auto.
      + intros [e [[He Hk] [<- Hr]]]. rewrite (Hkey e He). split; [eauto | congruence].
    - symmetry. apply abs_pend_of.
    - intros p. simpl RM.evs. unfold RP.reclaim_evs. rewrite cnt_fin_reclaim. apply (rel_fin g s R).
  Qed.

  (* the compaction loop with the clearing of the marks is the life-cycle machine's removal of its dead list *)
  Lemma sim_compacted {A g s l' rm} : TabM g -> Rel g s -> GInv A s -> RP.Swept hashf (RM.slots g) l' rm ->
    let order := map (fun e => idn (RM.ptr e)) rm in
    dead_of order (c_marks g) s = order /\ SimFrom A g (compacted g l' rm) (compact_st order s).
  Proof.
    intros TM R G Hsw order. destruct (compacted_order (tm_core g TM) R Hsw) as (Hnd & Hin & Hkey & Hdead).
    split; [exact Hdead|]. split; [apply compacted_tab; assumption|]. split; [apply compacted_rel; assumption|].
    split; [apply compact_ginv; assumption | apply (Mono_app g _ (RP.reclaim_evs rm)); reflexivity].
  Qed.

  (* GC_Sweep on the concrete table = the sweep of the life-cycle machine with
     order := c_order g, marks := c_marks g *)
  Theorem glue_sweep : forall A g s g',
    TabM g -> RM.pending g = [] -> Rel g s -> GInv A s ->
    Csweep g = Some g' ->
    Tab g' /\ Rel g' (sweep c17_rule true finT (c_order g) (c_marks g) s) /\ RM.pending g' = [] /\ Mono g g'.
  Proof.
    intros A g s g' TM Hq R G H.
    destruct (RP.sweep_loop_tbl hashf _ _ [] (RM.evs g) (proj1 (TabM_tbl g) TM)) as (l' & rm & Hsl & Hcomp).
    unfold RM.gc_sweep in H. unfold c_order. unfold RM.nslots in H |- *. rewrite Hsl in H |- *. simpl app in H |- *.
    rewrite somes_abs_pend_of. set (order := map (fun e => idn (RM.ptr e)) rm). fold (compacted g l' rm) in H.
    (* compaction loop and mark clearing *)
    destruct (sim_compacted (A := A) TM R G Hcomp) as (Hdead & S1). fold order in Hdead, S1.
    unfold sweep. fold (dead_of order (c_marks g) s). rewrite Hdead. fold (compact_st order s).
    (* GC_Resize_Less, mitems *)
    destruct (Cless _) as [g2|] eqn:Hless; [|discriminate].
    destruct (sim_rem_tail_from (g' := RM.new_mitems g2) S1) as (T2 & R2 & G2 & Mo2); [rewrite Hless; reflexivity|].
    (* finaliser loop *)
    destruct (Cfinloop _ 0 _ _) as [g3|] eqn:Hfl; [|discriminate]. injection H as <-.
    replace (length (RP.pend_of rm)) with (length order) in Hfl by (unfold RP.pend_of, order; rewrite !map_length; reflexivity).
    destruct (sim_fin_loop finT _ _ (finsim_top _ _) _ 0 A _ _ g3 T2 R2 G2 (Nat.lt_succ_diag_r _) Hfl) as (T3 & R3 & Mo3).
    split; [apply (tab_fields g3); auto|]. split; [constructor; try apply R3; reflexivity|]. split; [reflexivity|].
    apply (Mono_trans _ _ _ Mo2), (Mono_trans _ _ _ Mo3), Mono_same. reflexivity.
  Qed.

  Local Notation Cstep := (RP.Gstep hashf d true true).
  Local Notation Creg := (RM.gc_register hashf gc_swap gc_primes gc_load_num gc_load_den).
  Local Notation Ccollect := (RM.collect hashf gc_swap gc_primes gc_load_num gc_load_den (RP.d_owns d) (RP.d_spawns d) true true).

  (* mark phase on the concrete table, then the life-cycle machine's sweep with what it left *)
  Definition csweep_after_mark (g : RM.gc) (ws : list N) (s : st) : st :=
    match RM.gc_mark hashf g ws with
    | Some (Some gm) => sweep c17_rule true finT (c_order gm) (c_marks gm) s
    | _ => s
    end.

  (* the transitions of the life-cycle machine, driven by an operation of C17 issued in state g:
     the registry inputs (sweep order, marks) are read off the concrete table *)
  Definition cstep (g : RM.gc) (s : st) (o : RM.op) : st :=
    match o with
    | RM.OAlloc p r ws =>
      if negb (RM.running g) then s else
      let s1 := add_obj (idn p) (if r then KRoot else KManaged) false s in
      let s2 := set_reg ((idn p, r) :: reg s1) s1 in
      if mitems s2 <? nitems s2
      then csweep_after_mark (fst (Creg g p r (RM.EvAlloc p r))) ws s2
      else s2
    | RM.ORem p => gc_rem c17_rule true finT s (idn p)
    | RM.OFinRaw p => finT (add_obj (idn p) KRaw false s) (idn p)
    | RM.OCollect ws => csweep_after_mark g ws s
    | RM.OSweep => sweep c17_rule true finT (c_order g) (c_marks g) s
    | RM.OStop => set_running false s
    | RM.OStart => set_running true s
    | RM.OMem _ => s
    end.

  Fixpoint crun (ops : list RM.op) (g : RM.gc) (s : st) : RM.gc * st :=
    match ops with
    | [] => (g, s)
    | o :: r => crun r (fst (Cstep g o)) (cstep g s o)
    end.

  (* start: the ownership map of the life-cycle machine is the (static) one of C17's destructors *)
  Definition cinit : st := set_owned own0 init.

  (* besides C17's allocator contract: addresses are not reused (the life-cycle machine's
     identities are never reused), and del_raw is applied to fresh addresses only *)
  Definition gadm (g : RM.gc) (o : RM.op) : Prop :=
    match o with
    | RM.OAlloc p _ _ => RM.running g = true -> ever p (RM.evs g) = false
    | RM.OFinRaw p => ever p (RM.evs g) = false
    | _ => True
    end.
  Fixpoint gadm_run (ops : list RM.op) (g : RM.gc) : Prop :=
    match ops with
    | [] => True
    | o :: r => gadm g o /\ gadm_run r (fst (Cstep g o))
    end.

  (* the invariant between two operations of a history: C17's Inv and an empty pending list (Quiet), Rel,
     GInv [] for the life-cycle state, and every identity the life-cycle machine knows is an address of C17's log *)
  Record GL (g : RM.gc) (s : st) : Prop := {
    gl_inv : RP.Inv hashf g;
    gl_quiet : RP.Quiet g;
    gl_rel : Rel g s;
    gl_ginv : GInv [] s;
    gl_known : forall x, info s x <> None -> exists p, x = idn p /\ ever p (RM.evs g) = true
  }.

  Lemma GL_Tab g s : GL g s -> Tab g.
  Proof. intros L. apply Inv_Tab; [apply L|]. intros _. apply L. Qed.

  Lemma GL_init : GL RM.gc_init cinit.
  Proof.
    destruct (RP.Inv_init hashf) as [Hi Hq]. constructor; auto.
    - constructor; reflexivity.
    - destruct SInv_init as [S _]. destruct (si_g _ S). constructor; assumption.
    - intros x H. exfalso. apply H. reflexivity.
  Qed.

  Lemma GL_running g s b : GL g s -> RP.Inv hashf (RM.set_running g b) -> GL (RM.set_running g b) (set_running b s).
  Proof.
    intros [Hi Hq R G K] Hi'.
    constructor; [exact Hi' | exact Hq | constructor; try apply R; reflexivity | constructor; apply G | exact K].
  Qed.

  (* every identity the life-cycle machine knows is an address of C17's log: kept by a step that
     allocates nothing, and by one that allocates a logged address *)
  Lemma GL_next {g g' s s'} : GL g s -> RP.Inv hashf g' -> RP.Quiet g' -> Rel g' s' -> GInv [] s' ->
    Keep s s' -> Mono g g' -> GL g' s'.
  Proof.
    intros L Hi Hq R G [K _] Mo. constructor; auto. intros x Hx. rewrite K in Hx.
    destruct (gl_known g s L x Hx) as [p [Hp He]]. eauto.
  Qed.

  Lemma GL_add {g g' s s' p k} : GL g s -> RP.Inv hashf g' -> RP.Quiet g' -> Rel g' s' -> GInv [] s' ->
    Keep (add_obj (idn p) k false s) s' -> Mono g g' -> ever p (RM.evs g') = true -> GL g' s'.
  Proof.
    intros L Hi Hq R G [K _] Mo He. constructor; auto. intros x Hx. rewrite K in Hx. simpl in Hx.
    destruct (Nat.eqb_spec x (idn p)) as [Hxp|Hne]; [eauto|].
    destruct (gl_known g s L x Hx) as [q [Hq' Hev]]. eauto.
  Qed.

  Lemma known_fresh {g s p} : GL g s -> ever p (RM.evs g) = false -> info s (idn p) = None.
  Proof.
    intros L He. destruct (info s (idn p)) eqn:Hi; [|reflexivity]. exfalso.
    destruct (gl_known g s L (idn p)) as [p' [Hp Hev]]; [congruence|].
    apply idn_inj in Hp. subst p'. congruence.
  Qed.

  (* an address new to C17's log is a fresh identity; allocated between operations it is ready to be
     registered or finalised *)
  Lemma fresh_obj {g s p} k : GL g s -> ever p (RM.evs g) = false ->
    let s1 := add_obj (idn p) k false s in
    Rel g s1 /\ GInv [] s1 /\ ~ In (idn p) (regids s1) /\ ~ In (idn p) (pids s1) /\ fin_count s1 (idn p) = 0 /\
    info s1 (idn p) <> None.
  Proof.
    intros L He s1. pose proof L as [_ Hq R G _]. pose proof (known_fresh L He) as Hi.
    split; [constructor; apply R|]. split; [apply add_obj_ginv; assumption|]. split; [|split; [|split]].
    - intros Hin. exact (g_info _ _ G _ (or_introl Hin) Hi).
    - unfold pids. change (pend s1) with (pend s). rewrite (rel_pend g s R), Hq. intros [].
    - apply (g_alloc _ _ G), Hi.
    - simpl. rewrite Nat.eqb_refl. discriminate.
  Qed.

  (* registration frame: GC_Set up to the threshold test touches neither mitems nor the past log *)
  Lemma register_frame g p r ev g3 o :
    Creg g p r ev = (g3, o) -> o = RM.OOk -> RM.mitems g3 = RM.mitems g /\ RM.evs g3 = ev :: RM.evs g.
  Proof.
    (* no branch touches mitems; the one that succeeds logs ev *)
    unfold RM.gc_register, RM.resize_more, RM.g_rehash.
    destruct (_ <? _); [destruct (RM.rh_rehash _ _ _ _)|]; try destruct (_ =? 0);
      try destruct (RM.rh_insert _ _ _ _) as [[sl b]|]; intros H ->; try discriminate H; injection H as <-; auto.
  Qed.

  (* GC_Set_Ptr of a new entry is a new head of the life-cycle registry *)
  Lemma sim_register g g3 s p r :
    Rel g s -> (forall x, Holds (RM.slots g3) x <-> Holds (RM.slots g) x \/ x = RM.mkE p r false) ->
    RM.pending g3 = RM.pending g -> RM.running g3 = RM.running g -> RM.mitems g3 = RM.mitems g ->
    RM.evs g3 = RM.EvAlloc p r :: RM.evs g -> Rel g3 (set_reg ((idn p, r) :: reg s) s).
  Proof.
    intros R Hh Hp Hr Hm He. constructor; try apply R.
    - apply abs_reg_by_address. intros q r'. cbn [reg set_reg In]. rewrite (rel_regs q r' R).
      unfold RP.Regs. setoid_rewrite Hh. split.
      + intros [Heq|[e [He' Hpr]]]; [|exists e; split; [left; exact He' | exact Hpr]].
        injection Heq as Hq <-. apply idn_inj in Hq. subst q. exists (RM.mkE p r false). split; [right; reflexivity | split; reflexivity].
      + intros [e [[He'| ->] [Hp' Hr']]]; [right; eauto | left; simpl in *; congruence].
    - simpl. rewrite Hp. apply R.
    - simpl. rewrite Hr. apply R.
    - simpl. rewrite Hm. apply R.
    - intros q. rewrite He. apply (rel_fin g s R).
  Qed.

  (* GC_Set up to the threshold test, for an address the allocator may hand out and that is new to the log *)
  Lemma glue_register {g s p} (r : bool) :
    GL g s -> (forall e, Holds (RM.slots g) e -> RM.ptr e <> p) -> ever p (RM.evs g) = false ->
    let s1 := add_obj (idn p) (if r then KRoot else KManaged) false s in
    let s2 := set_reg ((idn p, r) :: reg s1) s1 in
    exists g3, Creg g p r (RM.EvAlloc p r) = (g3, RM.OOk) /\ GL g3 s2 /\
               (mitems s2 <? nitems s2) = (RM.mitems g3 <? RM.nitems g3).
  Proof.
    intros L Ha He s1 s2. pose proof L as [Hi Hq R G _].
    destruct (RP.gc_register_ok hashf gc_swap gc_primes gc_load_num gc_load_den RP.gc_swap_le RP.gc_swap_ge RP.gc_ideal_gt
                g p r (RM.EvAlloc p r) Hi Ha) as (g3 & Hreg & Hi3 & Hp3 & Hr3 & Hn3 & Hh3);
      [rewrite Hq; intros [] | left; reflexivity|].
    destruct (register_frame g p r _ g3 RM.OOk Hreg eq_refl) as [Hm3 He3].
    destruct (fresh_obj (if r then KRoot else KManaged) L He) as (R1 & G1 & Hnr & Hnp & Hf0 & Hi1).
    pose proof (register_ginv [] s1 (idn p) r G1 Hnr Hnp Hf0 Hi1) as G2.
    assert (R3 : Rel g3 s2) by (apply (sim_register g); auto).
    assert (Hq3 : RP.Quiet g3) by (unfold RP.Quiet; rewrite Hp3; exact Hq).
    exists g3. split; [exact Hreg|]. split.
    - apply (GL_add L Hi3 Hq3 R3 G2 (Keep_refl s2)).
      + apply (Mono_cons g g3 (RM.EvAlloc p r)), He3.
      + rewrite He3. simpl. rewrite N.eqb_refl. reflexivity.
    - unfold nitems. rewrite (rel_mit g3 s2 R3), (rel_len (Inv_Tab g3 Hi3 (fun _ => Hq3)) R3 (g_reg_nodup _ _ G2)). reflexivity.
  Qed.

  (* the mark phase only sets mark bits *)
  Lemma rel_mark g gm s : RP.PW (RM.slots g) (RM.slots gm) -> RP.same_rest g gm -> Rel g s -> Rel gm s.
  Proof.
    intros Hpw (_ & Hm & _ & _ & Hr & Hp & He). apply rel_fields_regs; auto.
    - intros p r. apply RP.PW_regs, Hpw.
    - intros p. rewrite He. reflexivity.
  Qed.

  Lemma tabm_mark g gm : Tab g -> RP.PW (RM.slots g) (RM.slots gm) -> RP.same_rest g gm -> TabM gm.
  Proof. intros T Hpw (Hn & _). apply TabM_tbl. rewrite Hn. exact (RP.Tbl_PW hashf _ _ _ Hpw (Tab_tbl g T)). Qed.

  (* a GC_Sweep that is not nested in another: glue_sweep, and what the history invariant asks of the
     life-cycle machine's sweep *)
  Lemma sweep_full {g s g'} : TabM g -> RM.pending g = [] -> Rel g s -> GInv [] s -> Csweep g = Some g' ->
    let s' := sweep c17_rule true finT (c_order g) (c_marks g) s in
    Rel g' s' /\ GInv [] s' /\ Keep s s' /\ Mono g g'.
  Proof.
    intros TM Hq R G H. destruct (glue_sweep [] g s g' TM Hq R G H) as (_ & R' & _ & Mo').
    (* GInv of the result is not part of glue_sweep (its statement is an obligation of Properties_C06_glue.v):
       it comes from sweep_ok *)
    assert (Hpe : pend s = []) by (rewrite (rel_pend g s R), Hq; reflexivity).
    destruct (LifecycleProofs.sweep_ok c17_rule finT (S (measure s)) (fin_top_ok c17_rule _) (c_order g) (c_marks g) [] s G Hpe ltac:(lia)) as (G' & _).
    repeat (split; [assumption|]). split; [|exact Mo'].
    apply keep_sweep; [exact keep_fin_top | exact (rel_ns g s R)].
  Qed.

  (* GC_Mark; GC_Sweep on the concrete table *)
  Lemma glue_collect g s ws g' o :
    RP.Inv hashf g -> RP.Quiet g -> Rel g s -> GInv [] s ->
    Ccollect g ws = (g', o) -> o = RM.OOk ->
    Rel g' (csweep_after_mark g ws s) /\ GInv [] (csweep_after_mark g ws s) /\ Keep s (csweep_after_mark g ws s) /\ Mono g g'.
  Proof.
    intros Hi Hq R G H Ho. pose proof (Inv_Tab g Hi (fun _ => Hq)) as T.
    unfold RM.collect in H. unfold csweep_after_mark.
    destruct (RP.gc_mark_ok hashf 0%N (fun _ => []) (fun _ => []) g ws (Tab_tbl g T)) as [gm [Hmk [Hpw Hsr]]].
    rewrite Hmk in H |- *.
    destruct (Csweep gm) as [g2|] eqn:Hsw; [|inversion H; subst; discriminate].
    inversion H; subst g' o. clear H.
    assert (Hqm : RM.pending gm = []) by (destruct Hsr as (_ & _ & _ & _ & _ & Hp & _); rewrite Hp; exact Hq).
    destruct (sweep_full (tabm_mark g gm T Hpw Hsr) Hqm (rel_mark g gm s Hpw Hsr R) G Hsw) as (R2 & G2 & K2 & Mo2).
    repeat (split; [assumption|]). apply (Mono_trans g gm); [apply Mono_same, Hsr | exact Mo2].
  Qed.

  Lemma collect_out {g ws g' o} : Ccollect g ws = (g', o) -> o <> RM.OFuel -> o <> RM.OCrash -> o = RM.OOk.
  Proof.
    unfold RM.collect. destruct (RM.gc_mark hashf g ws) as [[gm|]|]; [|intros H; inversion H; subst; congruence..].
    destruct (Csweep gm); intros H; inversion H; subst; congruence.
  Qed.

  (* C17's step reports OFuel exactly when the operation it wraps returned None *)
  Lemma step_some (x : option RM.gc) g g' out :
    match x with Some g1 => (g1, RM.OOk) | None => (g, RM.OFuel) end = (g', out) -> out <> RM.OFuel -> x = Some g'.
  Proof. destruct x; intros H; inversion H; subst; congruence. Qed.

  (* the operations one by one; g' is what C17's step returns, with its invariant (RP.registry_step_thm) *)
  Lemma glue_step_rem g s p g' : GL g s -> RP.Inv hashf g' -> RP.Quiet g' ->
    Crem (RM.depth g) g p = Some g' -> GL g' (gc_rem c17_rule true finT s (idn p)).
  Proof.
    intros L Hi' Hq' H. pose proof L as [_ _ R G _].
    destruct (glue_rem _ [] g s p g' (GL_Tab g s L) R G H) as (_ & R' & Mo').
    (* GInv of the result: as in sweep_full, not part of glue_rem; from gc_rem_ok *)
    destruct (LifecycleProofs.gc_rem_ok c17_rule finT (S (measure s)) (fin_top_ok c17_rule _) [] s (idn p) G ltac:(lia)) as (G' & _).
    apply (GL_next L); auto. apply keep_gc_rem; [exact keep_fin_top | exact (rel_ns g s R)].
  Qed.

  Lemma glue_step_finraw g s p g' : GL g s -> RP.Inv hashf g' -> RP.Quiet g' -> ever p (RM.evs g) = false ->
    Cfinw (Crem (RM.depth g)) g p = Some g' -> GL g' (finT (add_obj (idn p) KRaw false s) (idn p)).
  Proof.
    intros L Hi' Hq' He H. destruct (fresh_obj KRaw L He) as (R1 & G1 & Hnr & Hnp & Hf0 & Hi1).
    set (s1 := add_obj (idn p) KRaw false s) in *.
    destruct (glue_finalise _ [] g s1 p g' (GL_Tab g s L) R1 G1 Hnr Hnp Hf0 Hi1 H) as (_ & R' & Mo').
    destruct (fin_top_ok c17_rule (S (measure s1)) [] s1 (idn p) G1 Hnr Hnp Hf0 Hi1 ltac:(lia)) as (G' & _ & [D _] & _).
    apply (GL_add L Hi' Hq' R' G' (keep_fin_top s1 _ (rel_ns g s1 R1)) Mo').
    (* the destructor of p has run, so C17 has logged EvFin p *)
    rewrite (rel_fin g' _ R' p) in D. destruct (ever p (RM.evs g')) eqn:E; [reflexivity|].
    rewrite (ever_cnt_fin p _ E) in D. discriminate.
  Qed.

  Lemma glue_step_sweep g s g' : GL g s -> RP.Inv hashf g' -> RP.Quiet g' ->
    Csweep g = Some g' -> GL g' (sweep c17_rule true finT (c_order g) (c_marks g) s).
  Proof.
    intros L Hi' Hq' H. pose proof L as [_ Hq R G _]. pose proof (GL_Tab g s L) as T.
    destruct (sweep_full ltac:(constructor; apply T) Hq R G H) as (R' & G' & K' & Mo').
    apply (GL_next L); assumption.
  Qed.

  Lemma glue_step_collect {g s ws g'} : GL g s -> RP.Inv hashf g' -> RP.Quiet g' ->
    Ccollect g ws = (g', RM.OOk) -> GL g' (csweep_after_mark g ws s).
  Proof.
    intros L Hi' Hq' H. pose proof L as [Hi Hq R G _].
    destruct (glue_collect g s ws g' _ Hi Hq R G H eq_refl) as (R' & G' & K' & Mo').
    apply (GL_next L); assumption.
  Qed.

  Hypothesis dok : RP.dtors_ok d.

  Theorem glue_step g s o :
    GL g s -> RP.admissible g o -> gadm g o -> GL (fst (Cstep g o)) (cstep g s o).
  Proof.
    intros L Ha Hga. pose proof L as [Hi Hq _ _ _].
    destruct (RP.registry_step_thm hashf d true true g o dok Hi Hq Ha) as (g' & out & Hs & Hnf & Hnc & Hi' & Hq' & _).
    rewrite Hs. cbn [fst]. unfold RP.Gstep in Hs.
    destruct o as [p r ws|p|p|ws| | | |p]; cbn [RM.gc_step cstep] in *.
    - unfold RM.gc_set in Hs.
      destruct (RM.running g) eqn:Hrun; simpl negb in *; cbv iota in *; [|inversion Hs; subst; exact L].
      destruct (glue_register r L (Ha Hrun) (Hga Hrun)) as (g3 & Hreg & L3 & Hthr).
      rewrite Hreg in Hs |- *. cbn [fst]. rewrite Hthr. destruct (RM.mitems g3 <? RM.nitems g3).
      + rewrite (collect_out Hs Hnf Hnc) in Hs. apply (glue_step_collect L3 Hi' Hq' Hs).
      + injection Hs as <- <-. exact L3.
    - apply step_some in Hs; eauto using glue_step_rem.
    - apply step_some in Hs; eauto using glue_step_finraw.
    - rewrite (collect_out Hs Hnf Hnc) in Hs. apply (glue_step_collect L Hi' Hq' Hs).
    - apply step_some in Hs; eauto using glue_step_sweep.
    - injection Hs as <- <-. apply GL_running; assumption.
    - injection Hs as <- <-. apply GL_running; assumption.
    - destruct (RM.gc_mem hashf g p); inversion Hs; subst; exact L.
  Qed.

  Local Notation Crun := (RP.Grun hashf d true true).
  Local Notation Cadm := (RP.Gadm hashf d true true).

  Lemma crun_fst : forall ops g s, fst (crun ops g s) = Crun ops g.
  Proof.
    induction ops as [|o ops IH]; intros g s; [reflexivity|].
    cbn [crun]. rewrite IH. reflexivity.
  Qed.

  Lemma crun_app : forall a b g s, crun (a ++ b) g s = crun b (fst (crun a g s)) (snd (crun a g s)).
  Proof. induction a as [|o a IH]; intros b g s; [reflexivity|]. cbn [crun app]. apply IH. Qed.

  Theorem glue_run : forall ops g s,
    GL g s -> Cadm ops g -> gadm_run ops g -> GL (fst (crun ops g s)) (snd (crun ops g s)).
  Proof.
    induction ops as [|o ops IH]; intros g s L Ha Hg; [exact L|].
    destruct Ha as [Ha Har]. destruct Hg as [Hg Hgr]. cbn [crun].
    apply IH; [apply glue_step; assumption | exact Har | exact Hgr].
  Qed.

  Lemma Cadm_app : forall a b g, Cadm (a ++ b) g -> Cadm a g /\ Cadm b (Crun a g).
  Proof. exact (RP.Gadm_app hashf d true true). Qed.

  Lemma gadm_app : forall a b g, gadm_run (a ++ b) g -> gadm_run a g /\ gadm_run b (Crun a g).
  Proof.
    induction a as [|o a IH]; intros b g H; [split; [exact I | exact H]|].
    destruct H as [H1 H2]. destruct (IH b _ H2) as [H3 H4]. split; [split; assumption | exact H4].
  Qed.

  (* the two machines just before and just after the last operation of a history *)
  Lemma glue_last {ops o} : Cadm (ops ++ [o]) RM.gc_init -> gadm_run (ops ++ [o]) RM.gc_init ->
    exists s, GL (Crun ops RM.gc_init) s /\ GL (Crun (ops ++ [o]) RM.gc_init) (cstep (Crun ops RM.gc_init) s o).
  Proof.
    intros Ha Hg. destruct (Cadm_app ops [o] _ Ha) as [Ha1 [Ha2 _]]. destruct (gadm_app ops [o] _ Hg) as [Hg1 [Hg2 _]].
    pose proof (glue_run ops RM.gc_init cinit GL_init Ha1 Hg1) as L. rewrite crun_fst in L.
    exists (snd (crun ops RM.gc_init cinit)). split; [exact L|].
    replace (Crun (ops ++ [o]) RM.gc_init) with (fst (Cstep (Crun ops RM.gc_init) o))
      by (unfold RP.Grun, RM.gc_run; rewrite fold_left_app; reflexivity).
    apply glue_step; assumption.
  Qed.

  (* (a) on the run whose registry is the concrete robin-hood table, no address is finalised twice *)
  Theorem concrete_finalised_at_most_once : forall ops p,
    Cadm ops RM.gc_init -> gadm_run ops RM.gc_init ->
    cnt_fin p (RM.evs (Crun ops RM.gc_init)) <= 1.
  Proof.
    intros ops p Ha Hg. pose proof (glue_run ops RM.gc_init cinit GL_init Ha Hg) as L.
    rewrite crun_fst in L. rewrite <- (rel_fin _ _ (gl_rel _ _ L) p).
    apply (g_rest _ _ (gl_ginv _ _ L) (idn p) (fun f => f)).
  Qed.

  (* (b) teardown — GC_Del's sweep, no mark phase — on the concrete table: every non-root address
     registered at that moment has been finalised exactly once afterwards *)
  Theorem concrete_teardown_complete : forall ops p,
    Cadm (ops ++ [RM.OSweep]) RM.gc_init -> gadm_run (ops ++ [RM.OSweep]) RM.gc_init ->
    RP.Regs (RM.slots (Crun ops RM.gc_init)) p false ->
    cnt_fin p (RM.evs (Crun (ops ++ [RM.OSweep]) RM.gc_init)) = 1.
  Proof.
    intros ops p Ha Hg Hreg. destruct (glue_last Ha Hg) as [s [L L']].
    set (g := Crun ops RM.gc_init) in *. rewrite <- (rel_fin _ _ (gl_rel _ _ L') p). cbn [cstep].
    pose proof (GL_Tab g s L) as T. pose proof (gl_rel g s L) as R. pose proof (gl_ginv g s L) as G.
    assert (Hpe : pend s = []) by (rewrite (rel_pend g s R), (gl_quiet g s L); reflexivity).
    destruct (LifecycleProofs.sweep_ok c17_rule finT (S (measure s)) (fin_top_ok c17_rule _) (c_order g) (c_marks g) [] s G Hpe ltac:(lia))
      as (_ & _ & _ & Hdead & _).
    destruct (Hdead (idn p)) as [Hd _]; [| |rewrite (clear_no_marks g (t_clear g T)); intros [] | exact Hd].
    - apply in_reg_spec, (rel_in_reg p R). exists false. exact Hreg.
    - apply (reg_not_root g s p T R Hreg).
  Qed.

  (* (c) del / del_root with the collector running, on the concrete table: the address is finalised
     exactly once, at once *)
  Theorem concrete_delete_finalises : forall ops p r,
    Cadm (ops ++ [RM.ORem p]) RM.gc_init -> gadm_run (ops ++ [RM.ORem p]) RM.gc_init ->
    RM.running (Crun ops RM.gc_init) = true -> RP.Regs (RM.slots (Crun ops RM.gc_init)) p r ->
    cnt_fin p (RM.evs (Crun (ops ++ [RM.ORem p]) RM.gc_init)) = 1.
  Proof.
    intros ops p r Ha Hg Hrun Hreg. destruct (glue_last Ha Hg) as [s [L L']].
    set (g := Crun ops RM.gc_init) in *. rewrite <- (rel_fin _ _ (gl_rel _ _ L') p). cbn [cstep].
    pose proof (gl_rel g s L) as R.
    destruct (LifecycleProofs.gc_rem_ok c17_rule finT (S (measure s)) (fin_top_ok c17_rule _) [] s (idn p) (gl_ginv g s L) ltac:(lia))
      as (_ & _ & Hd & _).
    destruct Hd as [Hd _]; [rewrite (rel_run g s R); exact Hrun | | exact Hd].
    left. apply in_reg_spec, (rel_in_reg p R). exists r. exact Hreg.
  Qed.

End Glue.

(* the two hypotheses of Section Glue as one predicate on d *)
Definition boxlike (d : RP.dtors) : Prop :=
  (forall q, RP.d_owns d q = [] \/ exists t, RP.d_owns d q = [t]) /\ (forall q, RP.d_spawns d q = []).

(* boolean form of the extra admissibility (no address reuse), for examples *)
Fixpoint gadm_runb (hashf : N -> N) (d : RP.dtors) (ops : list RM.op) (g : RM.gc) : bool :=
  match ops with
  | [] => true
  | o :: r =>
    (match o with
     | RM.OAlloc p _ _ => negb (RM.running g) || negb (ever p (RM.evs g))
     | RM.OFinRaw p => negb (ever p (RM.evs g))
     | _ => true
     end) && gadm_runb hashf d r (fst (RP.Gstep hashf d true true g o))
  end.

Lemma gadm_runb_ok hashf d : forall ops g, gadm_runb hashf d ops g = true -> gadm_run hashf d ops g.
Proof.
  induction ops as [|o ops IH]; intros g H; [exact I|].
  simpl in H. apply andb_true_iff in H. destruct H as [H1 H2]. split; [|apply IH; exact H2].
  destruct o; simpl; auto.
  - intros Hr. rewrite Hr in H1. apply negb_true_iff, H1.
  - apply negb_true_iff, H1.
Qed.

Theorem glue_sweep_thm : forall hashf d, boxlike d -> forall A g s g',
  TabM hashf g -> RM.pending g = [] -> Rel d g s -> GInv A s ->
  RP.Gsweep hashf d true true g = Some g' ->
  Tab hashf g' /\ Rel d g' (sweep c17_rule true (fin_top c17_rule true true true nopro) (c_order g) (c_marks g) s) /\
  RM.pending g' = [] /\ Mono g g'.
Proof. intros hashf d [B N]. exact (glue_sweep hashf d B N). Qed.

Theorem glue_rem_thm : forall hashf d, boxlike d -> forall f A g s p g',
  Tab hashf g -> Rel d g s -> GInv A s ->
  RP.Grem hashf d true f g p = Some g' ->
  Tab hashf g' /\ Rel d g' (gc_rem c17_rule true (fin_top c17_rule true true true nopro) s (idn p)) /\ Mono g g'.
Proof. intros hashf d [B N]. exact (glue_rem hashf d B N). Qed.

Theorem glue_history_thm : forall hashf d, boxlike d -> RP.dtors_ok d -> forall ops,
  RP.Gadm hashf d true true ops RM.gc_init -> gadm_run hashf d ops RM.gc_init ->
  let gs := crun hashf d ops RM.gc_init (cinit d) in
  fst gs = RP.Grun hashf d true true ops RM.gc_init /\ GL hashf d (fst gs) (snd gs).
Proof.
  intros hashf d [B N] Hd ops Ha Hg. split; [apply crun_fst|].
  apply (glue_run hashf d B N Hd); [apply GL_init | exact Ha | exact Hg].
Qed.

Theorem over_concrete_registry_partial : forall hashf d, boxlike d -> RP.dtors_ok d -> forall ops,
  RP.Gadm hashf d true true ops RM.gc_init -> gadm_run hashf d ops RM.gc_init ->
  (forall p, cnt_fin p (RM.evs (RP.Grun hashf d true true ops RM.gc_init)) <= 1) /\
  (forall ops' p, ops = ops' ++ [RM.OSweep] ->
     RP.Regs (RM.slots (RP.Grun hashf d true true ops' RM.gc_init)) p false ->
     cnt_fin p (RM.evs (RP.Grun hashf d true true ops RM.gc_init)) = 1) /\
  (forall ops' p r, ops = ops' ++ [RM.ORem p] ->
     RM.running (RP.Grun hashf d true true ops' RM.gc_init) = true ->
     RP.Regs (RM.slots (RP.Grun hashf d true true ops' RM.gc_init)) p r ->
     cnt_fin p (RM.evs (RP.Grun hashf d true true ops RM.gc_init)) = 1).
Proof.
  intros hashf d [B N] Hd ops Ha Hg. split; [|split].
  - intros p. apply (concrete_finalised_at_most_once hashf d B N Hd); assumption.
  - intros ops' p -> Hreg. apply (concrete_teardown_complete hashf d B N Hd); assumption.
  - intros ops' p r -> Hrun Hreg. apply (concrete_delete_finalises hashf d B N Hd ops' p r); assumption.
Qed.

(* non-vacuity: Box 8 owns 16 (both managed), 24 is a root, 32 and 40 plain managed objects; addresses
   collide modulo small table sizes; 32 is deleted explicitly; a collection whose stack holds 40 reclaims
   8 and 16 (the Box and its object in the same sweep: the D18 scenario on the concrete table), then
   teardown *)
Definition gx_hash (p : N) : N := N.shiftr p 3.
Definition gx_d : RP.dtors := RP.mkD (fun p => if N.eqb p 8 then [16%N] else []) (fun _ => []) [16%N].
Definition gx_ops : list RM.op :=
  [RM.OAlloc 16 false [16%N]; RM.OAlloc 8 false [8%N; 16%N]; RM.OAlloc 24 true [8%N; 16%N; 24%N];
   RM.OAlloc 32 false [8%N; 16%N; 24%N; 32%N]; RM.OAlloc 40 false [8%N; 16%N; 24%N; 32%N; 40%N];
   RM.ORem 32; RM.OCollect [40%N]; RM.OSweep].

Lemma gx_boxlike : boxlike gx_d.
Proof.
  split; [|reflexivity]. intros q. simpl. destruct (N.eqb q 8); [right; exists 16%N; reflexivity | left; reflexivity].
Qed.

Lemma gx_dok : RP.dtors_ok gx_d.
Proof.
  split; [|split].
  - simpl. constructor; [intros [] | constructor].
  - intros q t. simpl. destruct (N.eqb q 8); simpl; [tauto | intros []].
  - intros q p r [].
Qed.

Example gx_admissible :
  RP.Gadm gx_hash gx_d true true gx_ops RM.gc_init /\ gadm_run gx_hash gx_d gx_ops RM.gc_init.
Proof. split; [apply RP.adm_runb_ok | apply gadm_runb_ok]; vm_compute; reflexivity. Qed.

Example gx_not_trivial :
  let g := RP.Grun gx_hash gx_d true true gx_ops RM.gc_init in
  cnt_fin 8 (RM.evs g) = 1 /\ cnt_fin 16 (RM.evs g) = 1 /\ cnt_fin 32 (RM.evs g) = 1 /\
  cnt_fin 40 (RM.evs g) = 1 /\ cnt_fin 24 (RM.evs g) = 0 /\
  In (RM.EvReclaim 8) (RM.evs g) /\ In (RM.EvReclaim 16) (RM.evs g) /\ In (RM.EvRem 16) (RM.evs g).
Proof. vm_compute. repeat split; tauto. Qed.

Definition gx_owned : N := 16%N.
Example gx_owned_once : cnt_fin gx_owned (RM.evs (RP.Grun gx_hash gx_d true true gx_ops RM.gc_init)) = 1.
Proof. exact (proj1 (proj2 gx_not_trivial)). Qed.
