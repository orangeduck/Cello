(* HashProofs.v — proofs about the hashing / equality model (property C10).
   Main results (instantiated in Properties_C10.v):
     v_eq_hash        eq(a,b) implies hash(a) = hash(b) for all well-formed values, any nesting, across kinds
     v_cmp_refl       cmp(a,a) = 0 (Float: also inf - inf = NaN; Table: every key finds itself)
     v_copy_id        a copy, when it exists, is the value (so it is eq to it and hashes the same)
     assign_eq_hash   assign(dst, src) is eq to src (or, Ref vs Box, not comparable) and hashes the same
     map_perm_eq      Table equality and hash do not depend on the order of the bindings (slot order)
   and the refutations of the pinned variants (float_hash_raw_refuted, table_walk_refuted).
   The slot level (Table_Assign yields the same bindings in some order) is HashTable.v. *)
From Coq Require Export List NArith ZArith Bool.
From Coq Require Import Lia Permutation Arith.
From CelloV Require Import HashModel HashFloat.
Import ListNotations.

Arguments hash_data : simpl never.
Arguments float_cmp : simpl never.
Arguments float_hash : simpl never.
Arguments le_split : simpl never.

(* injectivity of Some as a lemma: `apply some_inj in E` leaves float_cmp and le_split in E unreduced, where
   `injection` would first evaluate them (Flocq's subtraction) *)
Lemma some_inj (A : Type) (x y : A) : Some x = Some y -> x = y.
Proof. congruence. Qed.

Section ValueInd.
  Variable P : value -> Prop.
  Hypothesis Hint : forall z, P (VInt z).
  Hypothesis Hflt : forall b, P (VFloat b).
  Hypothesis Hstr : forall s, P (VStr s).
  Hypothesis Htyp : forall s, P (VType s).
  Hypothesis Href : forall p, P (VRef p).
  Hypothesis Hbox : forall p, P (VBox p).
  Hypothesis Hblob : forall bs, P (VBlob bs).
  Hypothesis Hseq : forall k l, Forall P l -> P (VSeq k l).
  Hypothesis Hmap : forall k mp, Forall (fun kv => P (fst kv) /\ P (snd kv)) mp -> P (VMap k mp).

  Fixpoint value_ind' (a : value) : P a :=
    match a with
    | VInt z => Hint z | VFloat b => Hflt b | VStr s => Hstr s | VType s => Htyp s
    | VRef p => Href p | VBox p => Hbox p | VBlob bs => Hblob bs
    | VSeq k l => Hseq k l (list_ind (Forall P) (Forall_nil _) (fun x _ => Forall_cons x (value_ind' x)) l)
    | VMap k mp =>
        Hmap k mp (list_ind (Forall _) (Forall_nil _)
                     (fun kv _ => Forall_cons kv (conj (value_ind' (fst kv)) (value_ind' (snd kv)))) mp)
    end.
End ValueInd.

Lemma bytes_cmp_eq a : forall b, bytes_cmp a b = 0%Z -> a = b.
Proof.
  induction a as [|x a IH]; intros [|y b] H; simpl in H; try discriminate; try reflexivity.
  destruct (x <? y)%N eqn:E1; [discriminate|]. destruct (y <? x)%N eqn:E2; [discriminate|].
  apply N.ltb_ge in E1, E2. f_equal; [lia|auto].
Qed.

Lemma bytes_cmp_refl a : bytes_cmp a a = 0%Z.
Proof. induction a as [|x a IH]; simpl; [reflexivity|]. rewrite N.ltb_irrefl. exact IH. Qed.

Lemma int_cmp_eq a b : int_cmp a b = 0%Z -> a = b.
Proof.
  unfold int_cmp. destruct (a <? b)%Z eqn:E1; [discriminate|]. destruct (b <? a)%Z eqn:E2; [discriminate|].
  intros _. apply Z.ltb_ge in E1, E2. lia.
Qed.

Lemma int_cmp_refl a : int_cmp a a = 0%Z.
Proof. unfold int_cmp. rewrite Z.ltb_irrefl. reflexivity. Qed.

Lemma le_word_split : forall n p, le_word (le_split n p) = (p mod 256 ^ N.of_nat n)%N.
Proof.
  induction n as [|n IH]; intros p.
  - simpl. rewrite N.mod_1_r. reflexivity.
  - change (le_split (S n) p) with ((p mod 256)%N :: le_split n (p / 256)%N).
    cbn [le_word]. rewrite IH. rewrite Nat2N.inj_succ, N.pow_succ_r'.
    rewrite N.mod_mul_r by (try apply N.pow_nonzero; discriminate). reflexivity.
Qed.

Lemma le_split_inj p q : (p < M64)%N -> (q < M64)%N -> le_split 8 p = le_split 8 q -> p = q.
Proof.
  intros Hp Hq E. apply (f_equal le_word) in E. rewrite !le_word_split in E.
  change (256 ^ N.of_nat 8)%N with M64 in E. rewrite !N.mod_small in E by assumption. exact E.
Qed.

Lemma f_is_zero_0 : f_is_zero 0 = true.
Proof. vm_compute. reflexivity. Qed.

Section Main.
  Variable hd : list N -> N.          (* the byte hash: any function of the bytes *)
  Variable tl : bool.                  (* Table_Cmp compares by lookup first *)
  Variable fs : nat.                   (* shape of Float_Hash *)
  Hypothesis Hfs : fh_normalising fs = true.
  Notation H := (v_hash hd fs).
  Notation C := (v_cmp tl).

  Lemma v_cmp_scalar a b : scalar a = true -> C a b = s_cmp a b.
  Proof. destruct a; intros E; try discriminate; reflexivity. Qed.

  Lemma wf_float b : v_wf (VFloat b) = true -> (b < M64)%N /\ f_is_nan b = false.
  Proof.
    cbn [v_wf]. intros E. apply andb_true_iff in E. destruct E as [E1 E2].
    apply N.ltb_lt in E1. apply negb_true_iff in E2. auto.
  Qed.

  (* one step of a walk: the result is 0 only if this comparison is 0 and the rest gives 0 *)
  Lemma step_zero d (r : option Z) :
    (if (d <? 0)%Z then Some (-1)%Z else if (0 <? d)%Z then Some 1%Z else r) = Some 0%Z -> d = 0%Z /\ r = Some 0%Z.
  Proof. destruct (Z.ltb_spec d 0), (Z.ltb_spec 0 d); try discriminate. split; [lia | assumption]. Qed.

  (* a walk that gives 0 has reached both ends with every pair comparing 0: two folds whose steps agree
     on such pairs agree on the lists *)
  Lemma walk_zero_fold A B (c : A -> B -> option Z) T (F : A -> T -> T) (G : B -> T -> T) e : forall l1 l2,
    walk A B c l1 l2 = Some 0%Z ->
    (forall x y, In x l1 -> In y l2 -> c x y = Some 0%Z -> forall t, F x t = G y t) ->
    fold_right F e l1 = fold_right G e l2.
  Proof.
    induction l1 as [|x l1 IH]; intros [|y l2] E S; simpl in E; try discriminate; [reflexivity|].
    destruct (c x y) as [d|] eqn:Ec; [|discriminate]. apply step_zero in E. destruct E as [-> E].
    simpl. rewrite (S x y (or_introl eq_refl) (or_introl eq_refl) Ec). f_equal.
    apply (IH l2 E). intros x' y' Ix Iy. apply S; right; assumption.
  Qed.

  Lemma walk_refl A (c : A -> A -> option Z) l :
    Forall (fun x => c x x = Some 0%Z) l -> walk A A c l l = Some 0%Z.
  Proof. induction 1 as [|x l Hx _ IH]; simpl; [reflexivity|]. rewrite Hx. simpl. exact IH. Qed.

  Lemma pair_c_zero (c : value -> value -> option Z) x y :
    pair_c c x y = Some 0%Z -> c (fst x) (fst y) = Some 0%Z /\ c (snd x) (snd y) = Some 0%Z.
  Proof.
    unfold pair_c. destruct (c (fst x) (fst y)) as [d|]; [|discriminate]. intros [-> E]%step_zero. auto.
  Qed.

  (* eq on scalar keys is equality up to the sign of a zero (Float) and up to String / Type of a name *)
  Definition knorm (k : value) : value :=
    match k with
    | VFloat b => VFloat (if f_is_zero b then 0%N else b)
    | VType n => VStr n
    | _ => k
    end.

  Lemma hash_knorm k : v_wf k = true -> H (knorm k) = H k.
  Proof.
    destruct k; try reflexivity. intros W. apply wf_float in W. destruct W as [W _]. cbn [knorm v_hash].
    rewrite (float_hash_norm fs bits Hfs W).
    destruct (f_is_zero bits) eqn:Z.
    - rewrite (float_hash_norm fs 0 Hfs eq_refl). reflexivity.
    - rewrite (float_hash_norm fs bits Hfs W), Z. reflexivity.
  Qed.

  Lemma key_norm k' k : v_wf k' = true -> v_wf k = true -> s_cmp k' k = Some 0%Z -> knorm k' = knorm k.
  Proof.
    intros W' W E. destruct k', k; try discriminate E; cbn [s_cmp] in E; cbn [knorm].
    - injection E as ->%int_cmp_eq. reflexivity.
    - apply some_inj in E. apply wf_float in W', W. destruct W' as [L' N'], W as [L N].
      destruct (float_cmp_zero bits bits0 L' L N' N E) as [->|[-> ->]]; reflexivity.
    - injection E as ->%bytes_cmp_eq. reflexivity.
    - injection E as ->%bytes_cmp_eq. reflexivity.
    - injection E as ->%bytes_cmp_eq. reflexivity.
    - (* Ref, Box: memcmp of the 8 bytes of the address *)
      apply some_inj, bytes_cmp_eq in E. f_equal. apply le_split_inj; [apply N.ltb_lt, W' | apply N.ltb_lt, W | exact E].
    - apply some_inj, bytes_cmp_eq in E. f_equal. apply le_split_inj; [apply N.ltb_lt, W' | apply N.ltb_lt, W | exact E].
    - destruct (length bytes =? length bytes0); [|discriminate]. injection E as ->%bytes_cmp_eq. reflexivity.
  Qed.

  Lemma key_norm_conv k' k : scalar k' = true -> kclass k' = kclass k -> v_wf k' = true -> v_wf k = true ->
    knorm k' = knorm k -> s_cmp k' k = Some 0%Z.
  Proof.
    intros S Cl W' W E. destruct k'; try discriminate S; destruct k; try discriminate Cl;
      cbn [knorm] in E; cbn [s_cmp].
    2: { f_equal. destruct (f_is_zero bits) eqn:Z1, (f_is_zero bits0) eqn:Z2; [|injection E as E ..].
         - apply float_cmp_zeros; assumption.
         - rewrite <- E, f_is_zero_0 in Z2. discriminate Z2.
         - rewrite E, f_is_zero_0 in Z1. discriminate Z1.
         - subst bits0. apply float_cmp_refl, (proj2 (wf_float _ W')). }
    all: injection E as E; subst; rewrite ?Nat.eqb_refl, ?int_cmp_refl, ?bytes_cmp_refl; reflexivity.
  Qed.

  (* eq implies equal hash, and cmp(a,a) = 0, on values that are not containers *)
  Lemma s_cmp_hash a b : v_wf a = true -> v_wf b = true -> s_cmp a b = Some 0%Z -> H a = H b.
  Proof.
    intros Wa Wb E. rewrite <- (hash_knorm a Wa), <- (hash_knorm b Wb), (key_norm a b Wa Wb E). reflexivity.
  Qed.

  Lemma s_cmp_refl a : scalar a = true -> v_wf a = true -> s_cmp a a = Some 0%Z.
  Proof. intros Sa Wa. apply key_norm_conv; auto. Qed.

  Definition nkeys (mp : list (value * value)) := map (fun kv => knorm (fst kv)) mp.
  Definition kwf (mp : list (value * value)) :=
    Forall (fun kv => scalar (fst kv) = true /\ v_wf (fst kv) = true) mp.
  Definition kcl (c : nat * nat) (mp : list (value * value)) := Forall (fun kv => kclass (fst kv) = c) mp.

  Lemma nkeys_in mp k v : In (k, v) mp -> In (knorm k) (nkeys mp).
  Proof. apply (in_map (fun kv => knorm (fst kv))). Qed.
  Lemma kwf_in mp kv : kwf mp -> In kv mp -> scalar (fst kv) = true /\ v_wf (fst kv) = true.
  Proof. unfold kwf. rewrite Forall_forall. auto. Qed.
  Lemma kcl_in c mp kv : kcl c mp -> In kv mp -> kclass (fst kv) = c.
  Proof. unfold kcl. rewrite Forall_forall. auto. Qed.

  Lemma m_get_some mp k v : kwf mp -> v_wf k = true -> m_get mp k = Some v ->
    exists k', In (k', v) mp /\ knorm k' = knorm k.
  Proof.
    intros Hk Wk. induction Hk as [|[k1 v1] mp [S1 W1] _ IH]; simpl; [discriminate|].
    simpl in S1, W1. destruct (s_cmp k1 k) as [d|] eqn:E; [destruct d as [|p|p]|];
      try (intros G; destruct (IH G) as [k' [I N]]; exists k'; auto).
    intros G. injection G as <-. exists k1. split; [auto|]. apply key_norm; assumption.
  Qed.

  Lemma m_get_in mp k k' v c : kwf mp -> kcl c mp -> v_wf k = true -> kclass k = c -> NoDup (nkeys mp) ->
    In (k', v) mp -> knorm k' = knorm k -> m_get mp k = Some v.
  Proof.
    intros Hk Hc Wk Ck. revert Hc. induction Hk as [|[k1 v1] mp [S1 W1] Hk IH]; intros Hc ND I N; [destruct I|].
    simpl in S1, W1. pose proof (Forall_inv Hc) as C1. pose proof (Forall_inv_tail Hc) as Hc'. simpl in C1.
    simpl in ND. apply NoDup_cons_iff in ND. destruct ND as [Nin ND']. simpl.
    destruct I as [E|I].
    - injection E as -> ->.
      assert (Ek : s_cmp k' k = Some 0%Z) by (apply key_norm_conv; try assumption; congruence).
      rewrite Ek. reflexivity.
    - destruct (s_cmp k1 k) as [d|] eqn:E; [destruct d as [|p|p]|]; auto.
      exfalso. apply key_norm in E; auto. apply Nin. simpl in E. rewrite E, <- N. apply (nkeys_in _ _ _ I).
  Qed.

  Lemma keys_distinct_nodup mp c : kwf mp -> kcl c mp -> keys_distinct mp = true -> NoDup (nkeys mp).
  Proof.
    intros Hk. induction Hk as [|[k v] mp [S1 W1] Hk IH]; intros Hc; simpl; [constructor|].
    simpl in S1, W1. pose proof (Forall_inv Hc) as C1. pose proof (Forall_inv_tail Hc) as Hc'. simpl in C1.
    destruct (m_get mp k) eqn:E; [discriminate|]. intros D.
    constructor; auto. intros I. apply in_map_iff in I. destruct I as [[k2 v2] [N I]].
    rewrite (m_get_in mp k k2 v2 c) in E; auto. discriminate.
  Qed.

  Lemma nodup_keys_distinct mp : kwf mp -> NoDup (nkeys mp) -> keys_distinct mp = true.
  Proof.
    intros Hk. induction Hk as [|[k v] mp [S1 W1] Hk IH]; simpl; [reflexivity|].
    simpl in S1, W1. intros ND. inversion ND as [|? ? Nin ND']; subst.
    destruct (m_get mp k) as [v'|] eqn:E; [|auto].
    exfalso. apply m_get_some in E; auto. destruct E as [k' [I N]]. apply Nin. simpl. rewrite <- N. apply (nkeys_in _ _ _ I).
  Qed.

  (* the XOR of a map depends only on its (normal key, hash of the value) pairs, in any order *)
  Definition ent (kv : value * value) : value * N := (knorm (fst kv), H (snd kv)).
  Definition xh (l : list (value * N)) : N :=
    fold_right (fun p acc => N.lxor acc (N.lxor (H (fst p)) (snd p))) 0%N l.

  Lemma hash_ents k mp : kwf mp -> H (VMap k mp) = xh (map ent mp).
  Proof.
    induction 1 as [|[k1 v1] mp [_ W] _ IH]; [reflexivity|].
    change (H (VMap k ((k1, v1) :: mp))) with (N.lxor (N.lxor (H (VMap k mp)) (H k1)) (H v1)).
    rewrite IH, <- (hash_knorm k1 W). apply N.lxor_assoc.
  Qed.

  Lemma xh_perm l l' : Permutation l l' -> xh l = xh l'.
  Proof.
    induction 1 as [| |x y l|]; simpl; try congruence.
    generalize (N.lxor (H (fst x)) (snd x)), (N.lxor (H (fst y)) (snd y)). intros a b.
    rewrite !N.lxor_assoc. f_equal. apply N.lxor_comm.
  Qed.

  (* two association lists with matching keys and hash-equal values have the same XOR *)
  Lemma match_hash mp mp' : kwf mp -> kwf mp' -> NoDup (nkeys mp) -> length mp = length mp' ->
    (forall k v, In (k, v) mp -> exists k' v', In (k', v') mp' /\ knorm k' = knorm k /\ H v = H v') ->
    forall kd kd', H (VMap kd mp) = H (VMap kd' mp').
  Proof.
    intros Kw Kw' ND L M kd kd'. rewrite !hash_ents by assumption. apply xh_perm, NoDup_Permutation_bis.
    - apply (NoDup_map_inv fst). rewrite map_map. exact ND.
    - rewrite !map_length, L. reflexivity.
    - intros p I. apply in_map_iff in I. destruct I as ([k v] & <- & I).
      destruct (M k v I) as (k' & v' & I' & Nk & Hv).
      unfold ent. simpl. rewrite <- Nk, Hv. apply (in_map ent _ (k', v') I').
  Qed.

  Lemma class_eqb_eq c d : class_eqb c d = true <-> c = d.
  Proof.
    destruct c as [c1 c2], d as [d1 d2]. unfold class_eqb. simpl. rewrite andb_true_iff, !Nat.eqb_eq.
    split; [intros [-> ->]; reflexivity|intros E; injection E; auto].
  Qed.

  Lemma same_class_kcl mp : same_class mp = true -> exists c, kcl c mp.
  Proof.
    destruct mp as [|[k0 v0] mp]; [exists (0, 0); constructor|].
    unfold same_class. intros E. exists (kclass k0). apply Forall_forall. intros kv I.
    rewrite forallb_forall in E. apply E in I. apply class_eqb_eq in I. auto.
  Qed.

  Lemma kcl_same_class c mp : kcl c mp -> same_class mp = true.
  Proof.
    intros Hc. destruct mp as [|[k0 v0] mp]; [reflexivity|]. unfold same_class.
    apply forallb_forall. intros kv I. apply class_eqb_eq.
    rewrite (kcl_in _ _ _ Hc I). apply (kcl_in _ _ (k0, v0) Hc). left. reflexivity.
  Qed.

  Lemma wf_seq k l : v_wf (VSeq k l) = true -> Forall (fun x => v_wf x = true) l.
  Proof. cbn [v_wf]. intros E. apply Forall_forall. rewrite forallb_forall in E. exact E. Qed.

  Lemma wf_map k mp : v_wf (VMap k mp) = true <->
    kwf mp /\ (exists c, kcl c mp) /\
    Forall (fun kv => v_wf (fst kv) = true /\ v_wf (snd kv) = true) mp /\ NoDup (nkeys mp).
  Proof.
    cbn [v_wf]. rewrite !andb_true_iff, forallb_forall. split.
    - intros [[E1 E2] E3].
      assert (A : forall kv, In kv mp -> scalar (fst kv) = true /\ v_wf (fst kv) = true /\ v_wf (snd kv) = true)
        by (intros kv I; apply E1 in I; rewrite !andb_true_iff in I; destruct I as [[S Wk] Wv]; exact (conj S (conj Wk Wv))).
      assert (K : kwf mp) by (apply Forall_forall; intros kv I; destruct (A kv I) as (S & Wk & _); auto).
      destruct (same_class_kcl _ E2) as [c Hc].
      repeat split; [exact K | exists c; exact Hc | | apply (keys_distinct_nodup mp c); assumption].
      apply Forall_forall. intros kv I. destruct (A kv I) as (_ & Wk & Wv). auto.
    - intros (K & [c Hc] & Wm & ND). rewrite Forall_forall in Wm.
      repeat split; [| apply (kcl_same_class c), Hc | apply nodup_keys_distinct; assumption].
      intros kv I. destruct (Wm kv I) as [-> ->], (kwf_in _ _ K I) as [S _]. unfold key_ok. rewrite S. reflexivity.
  Qed.

  Lemma all_in_iff (c : value -> value -> option Z) m2 m1 : all_in c m2 m1 = true <->
    forall k v, In (k, v) m1 -> exists v', m_get m2 k = Some v' /\ c v v' = Some 0%Z.
  Proof.
    induction m1 as [|[k1 v1] m1 IH]; simpl; [intuition|]. split.
    - destruct (m_get m2 k1) as [v'|] eqn:G; [|discriminate].
      destruct (c v1 v') as [[| |]|] eqn:Ec; try discriminate.
      intros A k v [[= <- <-]|I]; [eauto | apply IH; assumption].
    - intros A. destruct (A k1 v1 (or_introl eq_refl)) as [v' [-> ->]]. apply IH. auto.
  Qed.

  Lemma v_cmp_seq k k' l l' : C (VSeq k l) (VSeq k' l') = walk _ _ C l l'.
  Proof. reflexivity. Qed.

  (* two maps compare 0 through the lookup of the repaired Table_Cmp, or through the walk in slot order *)
  Lemma v_cmp_map k k' mp mp' : C (VMap k mp) (VMap k' mp') = Some 0%Z <->
    (k = KTable /\ tl = true /\ length mp = length mp' /\ all_in C mp' mp = true) \/
    walk _ _ (pair_c C) mp mp' = Some 0%Z.
  Proof.
    destruct k; cbn [v_cmp]; [|split; [auto | intros [(D & _)|E]; [discriminate D | exact E]]].
    change (fun x y : value => C x y) with C. rewrite <- Nat.eqb_eq.
    destruct (tl && (length mp =? length mp') && all_in C mp' mp) eqn:G.
    - split; [intros _; left | reflexivity].
      apply andb_true_iff in G. destruct G as [G A]. apply andb_true_iff in G. destruct G as [T L]. auto.
    - split; [intros E; right; exact E|].
      intros [(_ & T & L & A)|E]; [rewrite L, A, !andb_true_r in G; congruence | exact E].
  Qed.

  Theorem v_eq_hash : forall a b, v_wf a = true -> v_wf b = true -> C a b = Some 0%Z -> H a = H b.
  Proof.
    induction a as [z|bts|s|s|p|p|bs|k l IH|k mp IH] using value_ind'; intros b Wa Wb E;
      try (rewrite v_cmp_scalar in E by reflexivity; apply s_cmp_hash; assumption).
    - destruct b as [| | | | | | |k' l'|]; try discriminate.
      apply wf_seq in Wa, Wb. rewrite Forall_forall in *.
      cbn [v_hash]. eapply walk_zero_fold; [exact E|]. intros x y Ix Iy Exy t. f_equal. apply (IH x Ix); auto.
    - destruct b as [| | | | | | | |k' mp']; try discriminate.
      destruct (proj1 (wf_map _ _) Wa) as [Ka [_ [Wma NDa]]]. destruct (proj1 (wf_map _ _) Wb) as [Kb [_ [Wmb _]]].
      rewrite Forall_forall in IH, Wma, Wmb.
      apply v_cmp_map in E. destruct E as [(_ & _ & L & A)|Ew].
      + (* lookup: every binding of mp has an eq key in mp' holding an eq value *)
        apply match_hash; auto. intros kk v I.
        destruct (proj1 (all_in_iff _ _ _) A kk v I) as [v' [G Ec]].
        apply m_get_some in G; [|exact Kb|apply (Wma _ I)]. destruct G as [k2 [I' Nk]].
        exists k2, v'. repeat split; [exact I' | exact Nk|].
        apply (proj2 (IH _ I)); [apply (Wma _ I) | apply (Wmb _ I') | exact Ec].
      + (* walk: the bindings are pairwise eq, in order *)
        cbn [v_hash]. eapply walk_zero_fold; [exact Ew|]. intros x y Ix Iy Exy t.
        apply pair_c_zero in Exy. destruct Exy as [Ek Ev], (IH _ Ix) as [IHk IHv], (Wma _ Ix) as [Wk Wv], (Wmb _ Iy) as [Wk' Wv'].
        rewrite (IHk _ Wk Wk' Ek), (IHv _ Wv Wv' Ev). reflexivity.
  Qed.

  Lemma map_self_zero k k' mp :
    Forall (fun kv => C (fst kv) (fst kv) = Some 0%Z /\ C (snd kv) (snd kv) = Some 0%Z) mp ->
    C (VMap k mp) (VMap k' mp) = Some 0%Z.
  Proof.
    intros R. apply v_cmp_map. right. apply walk_refl.
    eapply Forall_impl; [|exact R]. intros kv [R1 R2]. unfold pair_c. rewrite R1. exact R2.
  Qed.

  Theorem v_cmp_refl : forall a, v_wf a = true -> C a a = Some 0%Z.
  Proof.
    induction a as [z|bts|s|s|p|p|bs|k l IH|k mp IH] using value_ind'; intros Wa;
      try (rewrite v_cmp_scalar by reflexivity; apply s_cmp_refl; [reflexivity|assumption]).
    - rewrite v_cmp_seq. apply walk_refl. apply wf_seq in Wa. rewrite Forall_forall in *. auto.
    - destruct (proj1 (wf_map _ _) Wa) as [_ [_ [Wm _]]]. apply map_self_zero.
      rewrite Forall_forall in *. intros kv I. destruct (IH _ I), (Wm _ I). auto.
  Qed.

  Lemma seq_kind_irrelevant k k' l l' : C (VSeq k l) (VSeq k' l') = C (VSeq KArray l) (VSeq KArray l').
  Proof. reflexivity. Qed.

  (* a fold that conses what each element turns into, when an element can only turn into itself *)
  Lemma fold_some_id A (f : A -> option (list A) -> option (list A)) (l : list A) :
    Forall (fun x => forall acc r, f x acc = Some r -> exists t, acc = Some t /\ r = x :: t) l ->
    forall l', fold_right f (Some []) l = Some l' -> l' = l.
  Proof.
    induction 1 as [|x l Hx _ IH]; simpl; intros l' E; [injection E as <-; reflexivity|].
    destruct (Hx _ _ E) as (t & Et & ->). f_equal. auto.
  Qed.

  (* in a functional model a copy, where v_copy gives one (not for a Type object, nor for an Array, List
     or map holding one), IS the value: that it is eq to the value is reflexivity of cmp *)
  Lemma v_copy_id : forall a c, v_copy a = Some c -> c = a.
  Proof.
    induction a as [z|bts|s|s|p|p|bs|k l IH|k mp IH] using value_ind'; intros c E;
      try (injection E as <-; reflexivity); try discriminate.
    - destruct k; cbn [v_copy] in E; [| |injection E as <-; reflexivity];
        (destruct (fold_right _ _ l) as [l'|] eqn:El; [|discriminate]; injection E as <-; f_equal;
         eapply fold_some_id; [|exact El]; eapply Forall_impl; [|exact IH]; intros x Hx acc r; simpl in Hx;
         destruct (v_copy x) as [y|], acc; try discriminate; intros [= <-]; rewrite (Hx _ eq_refl); eauto).
    - cbn [v_copy] in E. destruct (fold_right _ _ mp) as [mp'|] eqn:El; [|discriminate]. injection E as <-. f_equal.
      eapply fold_some_id; [|exact El]. eapply Forall_impl; [|exact IH]. intros [k0 v0] [Hk Hv] acc r. simpl in *.
      destruct (v_copy k0), (v_copy v0), acc; try discriminate. intros [= <-].
      rewrite (Hk _ eq_refl), (Hv _ eq_refl). eauto.
  Qed.

  (* sequences: the result has dst's kind and src's elements *)
  Lemma assign_seq k l0 src y : v_assign (VSeq k l0) src = Some y -> exists k' l, src = VSeq k' l /\ y = VSeq k l.
  Proof.
    intros E. destruct src as [| | | | | | |k' l|]; try (destruct k; discriminate E).
    exists k', l. split; [reflexivity|].
    destruct k, k'; cbn [v_assign] in E; try discriminate;
      try (injection E as <-; reflexivity);
      (destruct (v_copy _) as [v|] eqn:Ec; [|discriminate]; injection E as <-; apply v_copy_id in Ec; exact Ec).
  Qed.

  Theorem assign_eq_hash dst src y : v_wf src = true -> v_assign dst src = Some y ->
    H y = H src /\
    (C y src = Some 0%Z \/ exists p, (y = VBox p /\ src = VRef p) \/ (y = VRef p /\ src = VBox p)).
  Proof.
    intros W E. destruct dst as [z|bts|s|s|p|p|bs|k l0|k mp0].
    8: { apply assign_seq in E. destruct E as (k' & l & -> & ->).
         split; [reflexivity | left; exact (v_cmp_refl _ W)]. }
    all: destruct src as [z'|bts'|s'|s'|p'|p'|bs'|k' l|k' mp]; try discriminate E;
      try (injection E as <-; split; [reflexivity | left; exact (v_cmp_refl _ W)]).
    - injection E as <-. split; [reflexivity|]. right. eauto.
    - injection E as <-. split; [reflexivity|]. right. eauto.
    - cbn [v_assign] in E. destruct (length bs =? length bs'); [|discriminate].
      injection E as <-. split; [reflexivity | left; exact (v_cmp_refl _ W)].
    - apply v_copy_id in E. subst. split; [reflexivity|left].
      destruct (proj1 (wf_map _ _) W) as [Ka [_ [Wm ND]]]. apply map_self_zero.
      rewrite Forall_forall in *. intros kv I. destruct (Wm _ I). auto using v_cmp_refl.
  Qed.

  Theorem swap_exchanges a b a' b' : v_swap a b = Some (a', b') -> a' = b /\ b' = a.
  Proof. unfold v_swap. destruct (same_type a b); [|discriminate]. intros E. injection E as <- <-. auto. Qed.

  Theorem map_perm_eq k k' mp mp' : tl = true -> v_wf (VMap KTable mp) = true -> Permutation mp mp' ->
    v_wf (VMap k' mp') = true /\ C (VMap KTable mp) (VMap k' mp') = Some 0%Z /\ H (VMap k mp) = H (VMap k' mp').
  Proof.
    intros Htl W P. destruct (proj1 (wf_map _ _) W) as (Ka & [c Hc] & Wm & ND).
    pose proof (Permutation_Forall P Ka) as Kb. pose proof (Permutation_Forall P Hc) as Hcb.
    pose proof (Permutation_NoDup (Permutation_map _ P) ND) as NDb.
    assert (Wb : v_wf (VMap k' mp') = true)
      by (apply wf_map; repeat split; [exact Kb | exists c; exact Hcb | exact (Permutation_Forall P Wm) | exact NDb]).
    assert (Cz : C (VMap KTable mp) (VMap k' mp') = Some 0%Z).
    { (* every key finds itself in the permuted bindings, with its own value *)
      apply v_cmp_map. left. repeat split; [exact Htl | apply Permutation_length, P |].
      apply all_in_iff. intros kk v I. exists v. rewrite Forall_forall in Wm. destruct (Wm _ I) as [Wk Wv].
      split; [|apply v_cmp_refl, Wv].
      apply (m_get_in mp' kk kk v c); auto; [apply (kcl_in _ _ _ Hc I) | apply (Permutation_in _ P I)]. }
    repeat split; [exact Wb | exact Cz |]. apply (v_eq_hash (VMap KTable mp)); assumption.
  Qed.
End Main.

(* D5: with the pinned Float_Hash (raw bit pattern) eq does not imply equal hashes *)
Lemma float_hash_raw_refuted :
  exists a b, v_wf (VFloat a) = true /\ v_wf (VFloat b) = true /\
              float_cmp a b = 0%Z /\ float_hash 0 a <> float_hash 0 b.
Proof.
  exists 0%N, 9223372036854775808%N. vm_compute. repeat split; discriminate.
Qed.

(* F5: the pinned Table_Cmp (slot-order walk only) separates two orders of the same bindings *)
Lemma table_walk_refuted :
  exists mp mp', v_wf (VMap KTable mp) = true /\ Permutation mp mp' /\
                 v_cmp false (VMap KTable mp) (VMap KTable mp') <> Some 0%Z.
Proof.
  exists [(VInt 7, VInt 1); (VInt 3, VInt 2)], [(VInt 3, VInt 2); (VInt 7, VInt 1)].
  split; [reflexivity|]. split; [apply perm_swap|]. vm_compute. discriminate.
Qed.

(* an Array and a List, different floats (-0.0 / +0.0) inside, well-formed, eq: the hypothesis of
   v_eq_hash is satisfiable by values that are not identical *)
Definition ex_a : value := VSeq KArray [VFloat 9223372036854775808; VFloat 4607182418800017408; VStr [72; 105]]%N.
Definition ex_b : value := VSeq KList [VFloat 0; VFloat 4607182418800017408; VStr [72; 105]]%N.

(* a Table of three bindings (a nested List as one value) and the same bindings in another order *)
Definition ex_m : list (value * value) :=
  [(VInt 5, VSeq KList [VInt 1; VInt 2]); (VInt 10, VSeq KList []); (VInt 0, VSeq KList [VInt 3])].
Definition ex_m' : list (value * value) :=
  [(VInt 0, VSeq KList [VInt 3]); (VInt 5, VSeq KList [VInt 1; VInt 2]); (VInt 10, VSeq KList [])].

(* maps keyed by Float: -0.0 and +0.0 are the same key *)
Definition ex_fa : value := VMap KTable [(VFloat 9223372036854775808, VInt 1); (VFloat 4607182418800017408, VInt 2)]%N.
Definition ex_fb : value := VMap KTable [(VFloat 4607182418800017408, VInt 2); (VFloat 0, VInt 1)]%N.

Lemma set_nth_middle (l : list N) z w t : set_nth (length l) z (l ++ w :: t) = l ++ z :: t.
Proof. induction l as [|h l IH]; simpl; [|rewrite IH]; reflexivity. Qed.

(* p and q are the prefixes already exchanged *)
Lemma memswap_loop_spec : forall a b p q : list N, length a = length b -> length p = length q ->
  memswap_loop (length a) (length p) (p ++ a) (q ++ b) = (p ++ b, q ++ a).
Proof.
  induction a as [|x a IH]; intros [|y b] p q L Lp; try discriminate; [reflexivity|].
  cbn [memswap_loop length]. rewrite nth_middle, set_nth_middle, Lp, nth_middle, set_nth_middle, <- Lp.
  specialize (IH b (p ++ [y]) (q ++ [x])). rewrite !app_length, Nat.add_1_r, <- !app_assoc in IH.
  apply IH; simpl in *; lia.
Qed.

Theorem memswap_exchanges a b : length a = length b -> memswap a b (length a) = (b, a).
Proof. intros L. apply (memswap_loop_spec a b [] [] L eq_refl). Qed.

(* a word fits in 64 bits when nothing is left after shifting 64 bits out *)
Lemma lt_M64_shiftr a : (a < M64)%N <-> N.shiftr a 64 = 0%N.
Proof. rewrite N.shiftr_div_pow2. symmetry. apply N.div_small_iff. discriminate. Qed.

Lemma lxor_lt_M64 a b : (a < M64)%N -> (b < M64)%N -> (N.lxor a b < M64)%N.
Proof. rewrite !lt_M64_shiftr, N.shiftr_lxor. intros -> ->. reflexivity. Qed.

Lemma w64_lt x : (w64 x < M64)%N.
Proof. unfold w64. apply N.mod_lt. discriminate. Qed.

Lemma shiftr_lt_M64 a n : (a < M64)%N -> (N.shiftr a n < M64)%N.
Proof.
  rewrite !lt_M64_shiftr, N.shiftr_shiftr, N.add_comm, <- N.shiftr_shiftr. intros ->. apply N.shiftr_0_l.
Qed.

Theorem hash_data_lt m r seed ts d : (hash_data m r seed ts d < M64)%N.
Proof.
  unfold hash_data. destruct (blocks m r _ _) as [h t]. unfold finish.
  apply lxor_lt_M64; [|apply shiftr_lt_M64]; apply w64_lt.
Qed.

Lemma fold_right_inv A T (P : T -> Prop) (F : A -> T -> T) e l :
  P e -> (forall x t, In x l -> P t -> P (F x t)) -> P (fold_right F e l).
Proof.
  intros He HF. induction l as [|x l IH]; simpl; [exact He|].
  apply HF; [left; reflexivity|]. apply IH. intros y t I. apply HF. right. exact I.
Qed.

Theorem v_hash_lt hd fs : (forall d, (hd d < M64)%N) -> fh_normalising fs = true ->
  forall a, v_wf a = true -> (v_hash hd fs a < M64)%N.
Proof.
  intros Hd Hfs.
  induction a as [z|bts|s|s|p|p|bs|k l IH|k mp IH] using value_ind'; intros W; cbn [v_hash];
    try apply Hd.
  - unfold int_hash. change (Z.of_N M64) with 18446744073709551616%Z.
    pose proof (Z.mod_pos_bound z 18446744073709551616 eq_refl). unfold M64. lia.
  - apply wf_float in W. destruct W as [W _]. rewrite (float_hash_norm fs bts Hfs W). destruct (f_is_zero bts); [reflexivity|exact W].
  - apply wf_seq in W. rewrite Forall_forall in *.
    apply fold_right_inv; [reflexivity|]. intros x t I Lt. apply lxor_lt_M64; auto.
  - destruct (proj1 (wf_map _ _) W) as [_ [_ [Wm _]]]. rewrite Forall_forall in *.
    apply fold_right_inv; [reflexivity|]. intros kv t I Lt. destruct (IH _ I), (Wm _ I).
    repeat apply lxor_lt_M64; auto.
Qed.

Lemma memswap_loop_fold : forall fuel i a b,
  memswap_loop fuel i a b = fold_left swap_at (seq i fuel) (a, b).
Proof. induction fuel as [|f IH]; intros i a b; simpl; [reflexivity|]. rewrite IH. reflexivity. Qed.

Lemma seq_upto i x s : i + x <= s -> seq i x ++ seq (i + x) (s - (i + x)) = seq i (s - i).
Proof. intros L. rewrite <- seq_app. f_equal. lia. Qed.

(* guarded, advancing steps that end in a byte loop exchange bytes i, i+1, ..., s-1 in this order *)
Lemma tail_ok_spec : forall plan, tail_ok plan = true ->
  forall s i, i <= s -> plan_indices s plan i = seq i (s - i).
Proof.
  induction plan as [|[tag w] r IH]; intros Ok s i Hi; [discriminate|].
  destruct tag as [|[|tag]]; [| |discriminate]; cbn [plan_indices step_indices].
  - (* while (i + w <= s) *)
    destruct r as [|st r'].
    + cbn [tail_ok] in Ok. apply Nat.eqb_eq in Ok. subst w.
      rewrite Nat.div_1_r, Nat.mul_1_r. apply app_nil_r.
    + change (tail_ok ((0, w) :: st :: r')) with ((0 <? w) && tail_ok (st :: r')) in Ok.
      apply andb_true_iff in Ok. destruct Ok as [Hw Ok]. apply Nat.ltb_lt in Hw.
      assert (Hn : (s - i) / w * w <= s - i) by (rewrite Nat.mul_comm; apply Nat.mul_div_le; lia).
      rewrite (IH Ok) by lia. apply seq_upto. lia.
  - (* if (i + w <= s) { ...; i += w } *)
    cbn [tail_ok] in Ok. destruct (Nat.leb_spec (i + w) s) as [G|G].
    + rewrite (IH Ok) by lia. apply seq_upto, G.
    + apply (IH Ok s i Hi).
Qed.

(* coverage: every byte index below s is exchanged exactly once, in increasing order *)
Theorem plan_covers plan : plan_ok plan = true -> forall s, plan_indices s plan 0 = seq 0 s.
Proof.
  intros Ok s.
  assert (T : tail_ok plan = true -> plan_indices s plan 0 = seq 0 s)
    by (intros Ht; rewrite (tail_ok_spec plan Ht s 0), Nat.sub_0_r by lia; reflexivity).
  destruct plan as [|[t1 w1] [|[t2 w2] [|st3 r]]]; try (apply T; exact Ok).
  cbn [plan_ok] in Ok. destruct ((t1 =? 3) && (t2 =? 4)) eqn:E34; [|apply T; exact Ok].
  (* (3, w); (4, w'): s / w words, then s % w bytes *)
  apply andb_true_iff in E34, Ok. destruct E34 as [->%Nat.eqb_eq ->%Nat.eqb_eq], Ok as [Hw%Nat.ltb_lt <-%Nat.eqb_eq].
  cbn [plan_indices step_indices]. rewrite app_nil_r, <- seq_app. f_equal.
  rewrite Nat.mul_comm. symmetry. apply Nat.div_mod. lia.
Qed.

Theorem plan_exchanges plan : plan_ok plan = true ->
  forall a b : list N, length a = length b -> run_plan plan (length a) a b = (b, a).
Proof.
  intros Ok a b L. unfold run_plan. rewrite (plan_covers plan Ok).
  rewrite <- memswap_loop_fold. apply (memswap_exchanges a b L).
Qed.

Record hcall := mk_hcall { hc_addr : N; hc_val : value }.
Definition hinst (S : Type) := S -> hcall -> N * S.

Fixpoint run_hist (S : Type) (f : hinst S) (st : S) (calls : list hcall) : list N :=
  match calls with
  | [] => []
  | c :: r => let '(h, st') := f st c in h :: run_hist S f st' r
  end.

(* the instances of the source (Generated.hash_instances_stateless): no static state, the value only *)
Definition stateless_inst (hd : list N -> N) (fs : nat) : hinst unit :=
  fun _ c => (v_hash hd fs (hc_val c), tt).

(* an instance with static state: the last hash memoised by buffer address, never invalidated *)
Definition memo_inst (hd : list N -> N) (fs : nat) : hinst (option (N * N)) :=
  fun st c =>
    match st with
    | Some (a, h) => if (a =? hc_addr c)%N then (h, st)
                     else let h' := v_hash hd fs (hc_val c) in (h', Some (hc_addr c, h'))
    | None => let h' := v_hash hd fs (hc_val c) in (h', Some (hc_addr c, h'))
    end.

(* every call returns the hash of the value the object has AT THAT CALL: nothing else — not the
   address, not earlier values, not which other objects were hashed in between — matters *)
Theorem stateless_history hd fs : forall calls,
  run_hist unit (stateless_inst hd fs) tt calls = map (fun c => v_hash hd fs (hc_val c)) calls.
Proof. induction calls as [|c r IH]; simpl; [reflexivity|]. rewrite IH. reflexivity. Qed.
