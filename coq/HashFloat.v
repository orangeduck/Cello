(* HashFloat.v — what Float_Cmp's `sign (a - b)` means on binary64 (Flocq), as far as C10 needs it:
   for non-NaN a, b the difference is zero or NaN only when a and b are the same float or both
   zeros (gradual underflow: the rounded difference of two distinct floats is never 0), and
   a - a is +0 or NaN (inf - inf), so cmp(a, a) = 0.  Both come from FloatDiff.v: the difference
   compares with +0 as the operands compare with each other. *)
From Coq Require Import ZArith NArith Bool Lia.
From Flocq Require Import Core BinarySingleNaN Binary Bits.
From CelloV Require Import FloatDiff HashModel.

Local Instance prec53 : Prec_gt_0 53 := eq_refl.
Local Instance emax1024 : Prec_lt_emax 53 1024 := eq_refl.

Definition sign_of (c : comparison) : Z := match c with Lt => -1 | Eq => 0 | Gt => 1 end.

(* the sign of the rounded difference, on ALL pairs of doubles, is the sign of the IEEE comparison
   (unordered read as 0): NaN gives 0 either way, inf - inf = NaN and inf == inf *)
Lemma float_cmp_compare a b :
  float_cmp a b = sign_of (ord_of (b64_compare (f_of_bits a) (f_of_bits b))).
Proof.
  unfold float_cmp, b64_compare, Binary.Bcompare. rewrite <- Bminus_compare.
  set (r := b64_minus mode_NE _ _).
  replace (BinarySingleNaN.Bminus mode_NE _ _) with (B2BSN 53 1024 r) by apply B2BSN_BSN2B.
  destruct r as [[]|[]| |[]]; reflexivity.
Qed.

Theorem float_cmp_forms_agree : forall form a b, float_cmp_of_form form a b = float_cmp a b.
Proof.
  intros [|n] a b; [reflexivity|]. rewrite float_cmp_compare. simpl. unfold float_cmp_direct.
  destruct (b64_compare _ _) as [[]|]; reflexivity.
Qed.

Lemma of_bits_inj a b : (a < M64)%N -> (b < M64)%N -> f_of_bits a = f_of_bits b -> a = b.
Proof.
  intros Ha Hb H. unfold f_of_bits, b64_of_bits in H.
  apply (f_equal (bits_of_binary_float 52 11)) in H.
  rewrite !bits_of_binary_float_of_bits in H; try (change (2 ^ (52 + 11 + 1))%Z with (Z.of_N M64); lia).
Qed.

(* B2BSN forgets only the payload of a NaN: it has a left inverse on the other doubles *)
Definition a_nan : {z : binary64 | Binary.is_nan 53 1024 z = true} :=
  exist _ (B754_nan 53 1024 false 1 eq_refl) eq_refl.

Lemma BSN2B_B2BSN (z : binary64) : Binary.is_nan 53 1024 z = false -> BSN2B 53 1024 a_nan (B2BSN 53 1024 z) = z.
Proof. destruct z; intros N; discriminate N || reflexivity. Qed.

Definition b64_is_zero (z : binary64) : bool := match z with B754_zero _ _ _ => true | _ => false end.

Lemma b64_compare_Eq (x y : binary64) : Binary.is_nan 53 1024 x = false -> Binary.is_nan 53 1024 y = false ->
  ord_of (b64_compare x y) = Eq -> x = y \/ (b64_is_zero x = true /\ b64_is_zero y = true).
Proof.
  intros Nx Ny E. apply Bcompare_Eq in E; try (rewrite is_nan_B2BSN; assumption).
  rewrite <- (BSN2B_B2BSN x Nx), <- (BSN2B_B2BSN y Ny).
  destruct (B2BSN 53 1024 x); [destruct (B2BSN 53 1024 y)|..];
    [right; split; reflexivity | left; apply f_equal, E ..].
Qed.

Theorem float_cmp_zero a b : (a < M64)%N -> (b < M64)%N -> f_is_nan a = false -> f_is_nan b = false ->
  float_cmp a b = 0%Z -> a = b \/ (f_is_zero a = true /\ f_is_zero b = true).
Proof.
  intros Ha Hb Na Nb Hc. rewrite float_cmp_compare in Hc.
  destruct (b64_compare_Eq (f_of_bits a) (f_of_bits b) Na Nb) as [E|Z].
  - destruct (ord_of _); [reflexivity | discriminate Hc ..].
  - left. apply of_bits_inj; assumption.
  - right. exact Z.
Qed.

Theorem float_cmp_refl a : f_is_nan a = false -> float_cmp a a = 0%Z.
Proof.
  intros Na. rewrite float_cmp_compare.
  replace (ord_of _) with Eq; [reflexivity|]. symmetry. apply Bcompare_Eq; try (rewrite is_nan_B2BSN; exact Na).
  destruct (B2BSN _ _ _); auto.
Qed.

Lemma float_cmp_zeros a b : f_is_zero a = true -> f_is_zero b = true -> float_cmp a b = 0%Z.
Proof.
  rewrite float_cmp_compare. unfold f_is_zero.
  destruct (f_of_bits a), (f_of_bits b); try discriminate. reflexivity.
Qed.

Lemma f_is_zero_nonnan b : f_is_zero b = true -> f_is_nan b = false.
Proof. unfold f_is_zero, f_is_nan. destruct (f_of_bits b); try discriminate. reflexivity. Qed.

(* the zeros are exactly the bit patterns 0 and 2^63 *)
Lemma f_is_zero_iff b : (b < M64)%N -> (f_is_zero b = true <-> b = 0%N \/ b = 9223372036854775808%N).
Proof.
  intros Hb. split.
  - unfold f_is_zero, f_of_bits, b64_of_bits. intros Z.
    pose proof (bits_of_binary_float_of_bits 52 11 eq_refl eq_refl eq_refl (Z.of_N b)) as R.
    destruct (binary_float_of_bits 52 11 eq_refl eq_refl eq_refl (Z.of_N b)) as [s| | |]; try discriminate.
    assert (Hr : (0 <= Z.of_N b < 2 ^ (52 + 11 + 1))%Z)
      by (change (2 ^ (52 + 11 + 1))%Z with (Z.of_N M64); lia).
    specialize (R Hr). destruct s; cbv - [Z.of_N] in R; [right|left]; lia.
  - intros [->| ->]; vm_compute; reflexivity.
Qed.

(* (bits << 1) in a 64-bit word is 0 exactly for the same two patterns *)
Lemma shift_zero_iff b : (b < M64)%N ->
  ((w64 (N.shiftl b 1) =? 0)%N = true <-> b = 0%N \/ b = 9223372036854775808%N).
Proof.
  intros Hb. rewrite N.eqb_eq, N.shiftl_mul_pow2. unfold w64. rewrite N.mod_divide by discriminate.
  change (2 ^ 1)%N with 2%N. unfold M64 in *. split.
  - intros [q E]. lia.
  - intros [->| ->]; [exists 0%N | exists 1%N]; reflexivity.
Qed.

Lemma float_hash_norm shape b : fh_normalising shape = true -> (b < M64)%N ->
  float_hash shape b = if f_is_zero b then 0%N else b.
Proof.
  intros Hs Hb. destruct shape as [|[|[|n]]]; try discriminate; [reflexivity|].
  unfold float_hash.
  destruct (f_is_zero b) eqn:Z, (w64 (N.shiftl b 1) =? 0)%N eqn:S; try reflexivity.
  - apply (f_is_zero_iff b Hb) in Z. apply (shift_zero_iff b Hb) in Z. congruence.
  - apply (shift_zero_iff b Hb) in S. apply (f_is_zero_iff b Hb) in S. congruence.
Qed.
