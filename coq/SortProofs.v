(* SortProofs.v — the quicksort of Array_Sort_By / Tuple_Sort_By as modelled in SeqModels.v
   (Lomuto partition around the middle element, over swap) returns, with fuel = length, a
   permutation of its input that is strongly sorted by the comparison function (property C04).
   The list is read as  pre ++ window ++ post : the sort of a window touches nothing else. *)
From Coq Require Import List Arith Bool ZArith Lia Permutation Sorted.
From CelloV Require Import ListFacts SeqModels SeqProofs.
Import ListNotations.

Section SortCorrect.
  Variable X : Type.
  Variable f : X -> X -> bool.
  Hypothesis f_asym : forall x y, f x y = true -> f y x = false.
  Hypothesis f_trans : forall x y z, f x y = true -> f y z = true -> f x z = true.

  Implicit Types xs ys pre post lo hi win : list X.

  Lemma swap_at_in (l : list X) i j l' : swap_at l i j = Some l' -> i < length l /\ j < length l.
  Proof.
    unfold swap_at. destruct (nth_error l i) eqn:Ea; [|discriminate].
    destruct (nth_error l j) eqn:Eb; [|discriminate]. intros _.
    split; apply nth_error_Some; congruence.
  Qed.

  (* pre ends with the elements found smaller than the pivot v, which stay where they are;
     hi: those found not smaller, todo: not yet looked at *)
  Lemma part_loop_spec v post todo : forall pre hi i s r,
    s = length pre -> i = length (pre ++ hi) -> r = length (pre ++ hi ++ todo) ->
    Forall (fun x => f x v = false) hi ->
    exists lo' hi',
      part_loop f (length todo) (pre ++ hi ++ todo ++ v :: post) i s r =
        Some (pre ++ lo' ++ hi' ++ v :: post, length (pre ++ lo')) /\
      Permutation (hi ++ todo) (lo' ++ hi') /\
      Forall (fun x => f x v = true) lo' /\ Forall (fun x => f x v = false) hi'.
  Proof.
    induction todo as [|x todo IH]; intros pre hi i s r -> -> -> Hhi.
    - exists [], hi. rewrite !app_nil_r. auto.
    - cbn [part_loop length].
      assert (Hi : nth_error (pre ++ hi ++ (x :: todo) ++ v :: post) (length (pre ++ hi)) = Some x)
        by (rewrite app_assoc; apply nth_error_app_len).
      assert (Hr : nth_error (pre ++ hi ++ (x :: todo) ++ v :: post) (length (pre ++ hi ++ x :: todo)) = Some v)
        by (rewrite !app_assoc; apply nth_error_app_len).
      rewrite Hi, Hr. clear Hi Hr. destruct (f x v) eqn:Fx.
      + destruct (swap_at_rotate X pre hi x (todo ++ v :: post)) as (hi1 & Hp & _ & Hs).
        cbn [app]. rewrite Hs. apply Permutation_length in Hp as Hl.
        destruct (IH (pre ++ [x]) hi1 (S (length (pre ++ hi))) (S (length pre)) (length (pre ++ hi ++ x :: todo)))
          as (lo' & hi' & H1 & H2 & Hlo & Hhi'); [len.. | eapply Permutation_Forall; eassumption |].
        exists (x :: lo'), hi'. rewrite <- !app_assoc in H1. cbn [app] in *.
        split; [exact H1|]. split; [|auto].
        rewrite <- Permutation_middle, Hp, H2. reflexivity.
      + destruct (IH pre (hi ++ [x]) (S (length (pre ++ hi))) (length pre) (length (pre ++ hi ++ x :: todo)))
          as (lo' & hi' & H1 & H2 & H3); [len.. | apply Forall_app; auto |].
        exists lo', hi'. rewrite <- !app_assoc in *. cbn [app] in *. auto.
  Qed.

  Lemma partition_spec pre win post l r :
    l = length pre -> S r = length (pre ++ win) -> l < r ->
    exists lo v hi,
      partition f (pre ++ win ++ post) l r = Some (pre ++ lo ++ v :: hi ++ post, length (pre ++ lo)) /\
      Permutation win (lo ++ v :: hi) /\
      Forall (fun x => f x v = true) lo /\ Forall (fun x => f x v = false) hi.
  Proof.
    intros -> Hr Hlr. rewrite app_length in Hr.
    assert (Hp : (r - length pre) / 2 < r - length pre) by (apply Nat.div_lt; lia).
    destruct (split_at X win ((r - length pre) / 2)) as (w1 & m & w & -> & Hw1); [lia|].
    destruct w as [|z w2 _] using rev_ind; [rewrite app_length in Hr; cbn in Hr; lia|].
    assert (Hr' : r = length (pre ++ w1 ++ m :: w2)) by (revert Hr; len).
    (* the middle element m becomes the pivot at the right end, the loop runs over the rest,
       the pivot comes to stand behind the smaller elements *)
    destruct (swap_at_ends X (pre ++ w1) m w2 z post) as [Hs1 _].
    destruct (part_loop_spec m post (w1 ++ z :: w2) pre [] (length pre) (length pre) r)
      as (lo & hi & H1 & H2 & Hlo & Hhi); [subst r; len.. | constructor |].
    destruct (swap_at_rotate X (pre ++ lo) hi m post) as (hi' & Hp' & Hs2 & _).
    assert (Hrl : r = length (pre ++ lo ++ hi)) by (apply Permutation_length in H2; revert H2; subst r; len).
    repeat (rewrite <- !app_assoc in *; cbn [app] in *).
    exists lo, m, hi'. split; [|split; [|split; [exact Hlo | eapply Permutation_Forall; eassumption]]].
    - unfold partition. rewrite <- Hw1, <- app_length.
      replace (r - length pre) with (length (w1 ++ z :: w2)) by (subst r; len).
      rewrite <- Hr' in Hs1. rewrite Hs1, H1, Hrl, Hs2. reflexivity.
    - rewrite <- Hp', <- (Permutation_middle lo), <- H2, <- (Permutation_middle w1). apply perm_skip, Permutation_app_head.
      symmetry. apply Permutation_cons_append.
  Qed.

  Lemma sorted_around v lo hi :
    sorted_by_ltb X f lo -> sorted_by_ltb X f hi ->
    Forall (fun x => f x v = true) lo -> Forall (fun x => f x v = false) hi ->
    sorted_by_ltb X f (lo ++ v :: hi).
  Proof.
    unfold sorted_by_ltb. intros Slo Shi Hlo Hhi. induction Slo as [|a lo Slo IH Ha]; cbn [app].
    - constructor; assumption.
    - apply Forall_cons_iff in Hlo as [Hav Hlo]. constructor; [apply IH, Hlo|].
      apply Forall_app. split; [exact Ha|]. constructor; [apply f_asym, Hav|].
      apply (Forall_impl _ (P := fun x => f x v = false)); [|exact Hhi].
      intros y Hy. destruct (f y a) eqn:Eya; [|reflexivity]. rewrite (f_trans y a v Eya Hav) in Hy. discriminate.
  Qed.

  (* the window holds at most S fuel elements; the pivot leaves it, so each of the two recursive windows holds at
     most fuel: started with fuel = length, the recursion never runs out *)
  Lemma sort_part_spec fuel : forall pre win post (l r : Z),
    l = Z.of_nat (length pre) -> r = (Z.of_nat (length (pre ++ win)) - 1)%Z -> length win <= S fuel ->
    exists win', sort_part f fuel (pre ++ win ++ post) l r = Ok (pre ++ win' ++ post) /\
                 Permutation win win' /\ sorted_by_ltb X f win'.
  Proof.
    induction fuel as [|fu IH]; intros pre win post l r -> -> Hfu; rewrite app_length in *; cbn [sort_part];
      (destruct (Z.ltb_spec (Z.of_nat (length pre)) (Z.of_nat (length pre + length win) - 1));
       [|exists win; split; [reflexivity|]; split; [reflexivity|];
         destruct win as [|a [|b w]]; cbn in *; [repeat constructor.. | lia]]); [lia|].
    destruct (Z.ltb_spec (Z.of_nat (length pre)) 0); [lia|]. rewrite Nat2Z.id.
    destruct (partition_spec pre win post (length pre) (length pre + length win - 1))
      as (lo & v & hi & Hp & Hw & Hlo & Hhi); [reflexivity | rewrite app_length; lia | lia |].
    replace (Z.to_nat (Z.of_nat (length pre + length win) - 1)) with (length pre + length win - 1) by lia.
    rewrite Hp. apply Permutation_length in Hw as Hl. rewrite app_length in Hl. cbn [length] in Hl.
    destruct (IH pre lo (v :: hi ++ post) (Z.of_nat (length pre)) (Z.of_nat (length (pre ++ lo)) - 1)%Z)
      as (lo' & -> & Plo & Slo); [reflexivity | reflexivity | lia |].
    apply Permutation_length in Plo as Hl'.
    destruct (IH (pre ++ lo' ++ [v]) hi post (Z.of_nat (length (pre ++ lo)) + 1)%Z
                 (Z.of_nat (length pre + length win) - 1)%Z) as (hi' & Hs & Phi & Shi); [len | len | lia |].
    rewrite <- !app_assoc in Hs. cbn [app] in Hs. rewrite Hs.
    exists (lo' ++ v :: hi'). rewrite <- !app_assoc. cbn [app]. split; [reflexivity|]. split.
    - rewrite Hw, Plo, Phi. reflexivity.
    - apply sorted_around; auto.
      + eapply Permutation_Forall; eassumption.
      + eapply Permutation_Forall; eassumption.
  Qed.

  (* fuel = length is adequate (never Fuel, never Crash); the result is a
     permutation of the input, strongly sorted: an earlier element is never f-greater than a later one *)
  Theorem qsort_correct : forall xs : list X,
    exists ys, qsort f xs = Ok ys /\ Permutation xs ys /\
               StronglySorted (fun x y => f y x = false) ys.
  Proof.
    intros xs. destruct (sort_part_spec (length xs) [] xs [] 0%Z (Z.of_nat (length xs) - 1)%Z)
      as (ys & H); [reflexivity | reflexivity | lia |].
    rewrite !app_nil_r in H. exists ys. exact H.
  Qed.

  Lemma qsort_length xs ys : qsort f xs = Ok ys -> length ys = length xs.
  Proof.
    intros H. destruct (qsort_correct xs) as (ys' & H1 & H2 & _).
    rewrite H in H1. injection H1 as <-. symmetry. apply Permutation_length. exact H2.
  Qed.
End SortCorrect.
