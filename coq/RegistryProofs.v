(* RegistryProofs.v — proofs about RegistryModel.v (property C17).

   Facts about slot arrays come first: the position-wise relation PW (same homes, addresses and
   root flags: what the mark phase preserves), where an entry can sit after a backward shift, what
   one run of GC_Mark_Item's loop can change.  Section RP starts with what needs the hash function
   only: the mark and compaction loops, the registry invariant Inv (robin-hood order, count, room,
   address bounds, pending entries out of the table, registry = ledger `led` of the event log,
   marks clear) and how it follows a table that loses entries.  With a displacement rule, a
   capacity rule and destructors it then shows that every operation of the model keeps Inv and
   never runs out of fuel, destructor-issued removals and allocations included; the nesting of
   removals is bounded by the number of live owned addresses (measureO).  The instances for the
   generated parameters and the example history follow the section. *)
From Coq Require Import List Arith Bool NArith Lia PeanoNat.
From CelloV Require Import ListFacts Generated RobinHood RobinHoodProofs RegistryModel.
Import ListNotations.

Local Notation at_ := (at_ gentry).
Local Notation upd := (upd gentry).
Local Notation Holds := (Holds gentry).
Local Notation occupied := (occupied gentry).
Local Notation entries := (entries gentry).
Local Notation Absent := (Absent N gentry ptr).

(* same home, address and root flag; the mark bit is free *)
Inductive srel : gslot -> gslot -> Prop :=
| srel_none : srel None None
| srel_some h e e' : ptr e = ptr e' -> root e = root e' -> srel (Some (h, e)) (Some (h, e')).

Definition PW (l l' : list gslot) : Prop := Forall2 srel l l'.

Lemma srel_refl s : srel s s.
Proof. destruct s as [[h e]|]; constructor; reflexivity. Qed.

Lemma PW_refl l : PW l l.
Proof. induction l; constructor; auto using srel_refl. Qed.

Lemma PW_trans a b c : PW a b -> PW b c -> PW a c.
Proof.
  intros H. revert c. induction H as [|x y l l' Hxy _ IH]; intros c Hc; inversion Hc as [|? z ? ? Hyz]; subst;
    constructor; [|apply IH; assumption].
  destruct Hxy; inversion Hyz; subst; constructor; congruence.
Qed.

Lemma PW_sym l l' : PW l l' -> PW l' l.
Proof. induction 1 as [|? ? ? ? []]; constructor; auto; constructor; auto. Qed.

Lemma PW_length l l' : PW l l' -> length l' = length l.
Proof. induction 1; simpl; congruence. Qed.

Lemma PW_at l l' i : PW l l' -> srel (at_ l i) (at_ l' i).
Proof.
  intros H. revert i. induction H; intros [|i]; try constructor; auto.
  unfold RobinHood.at_. simpl. apply IHForall2.
Qed.

Lemma PW_at_some l l' i h e' : PW l l' -> at_ l' i = Some (h, e') ->
  exists e, at_ l i = Some (h, e) /\ ptr e = ptr e' /\ root e = root e'.
Proof. intros H Hat. pose proof (PW_at l l' i H) as Hs. rewrite Hat in Hs. inversion Hs; subst. eauto. Qed.

Lemma PW_occupied l l' : PW l l' -> occupied l' = occupied l.
Proof.
  induction 1; [reflexivity|]. rewrite !occupied_cons, IHForall2. inversion H; reflexivity.
Qed.

Lemma PW_upd l i h e e' : at_ l i = Some (h, e) -> ptr e = ptr e' -> root e = root e' ->
  PW l (upd i (Some (h, e')) l).
Proof.
  revert i. induction l as [|s l IH]; intros [|i] Hat Hp Hr; try discriminate; simpl.
  - unfold RobinHood.at_ in Hat; simpl in Hat. subst s. constructor; [constructor; auto|apply PW_refl].
  - constructor; [apply srel_refl|]. apply IH; auto.
Qed.

(* f applied to every entry, homes kept *)
Definition smap (f : gentry -> gentry) (l : list gslot) : list gslot :=
  map (fun s => match s with Some (h, e) => Some (h, f e) | None => None end) l.

Lemma PW_smap f l : (forall e, ptr (f e) = ptr e /\ root (f e) = root e) -> PW l (smap f l).
Proof.
  intros Hf. induction l as [|[[h e]|] l IH]; simpl; constructor; auto; constructor;
    destruct (Hf e); congruence.
Qed.

Lemma PW_clear_marks l : PW l (clear_marks l).
Proof. apply PW_smap. intros e; split; reflexivity. Qed.

Lemma at_smap f l i : at_ (smap f l) i = match at_ l i with Some (h, e) => Some (h, f e) | None => None end.
Proof. exact (map_nth _ l None i). Qed.

Lemma Holds_smap f l x : Holds (smap f l) x <-> exists e, Holds l e /\ x = f e.
Proof.
  split.
  - intros [i [h Hat]]. rewrite at_smap in Hat. destruct (at_ l i) as [[h0 e]|] eqn:H0; [|discriminate].
    injection Hat as <- <-. exists e. split; [exists i, h0; assumption|reflexivity].
  - intros [e [[i [h Hat]] ->]]. exists i, h. rewrite at_smap, Hat. reflexivity.
Qed.

Lemma PW_holds l l' x' : PW l l' -> Holds l' x' -> exists x, Holds l x /\ ptr x = ptr x' /\ root x = root x'.
Proof.
  intros H [i [h Hat]]. destruct (PW_at_some _ _ _ _ _ H Hat) as [e [He Hpr]]. exists e. split; [exists i, h; exact He|exact Hpr].
Qed.

(* registered (address, root flag) pairs of a slot array *)
Definition Regs (l : list gslot) (q : N) (s : bool) : Prop :=
  exists e, Holds l e /\ ptr e = q /\ root e = s.

Lemma PW_regs l l' q s : PW l l' -> (Regs l' q s <-> Regs l q s).
Proof.
  assert (H : forall a b, PW a b -> Regs b q s -> Regs a q s).
  { intros a b H [e [He [Hp Hr]]]. destruct (PW_holds _ _ _ H He) as [x [Hx [Hpx Hrx]]].
    exists x. split; [auto|split; congruence]. }
  intros Hpw. split; [apply H, Hpw|apply H, PW_sym, Hpw].
Qed.

Lemma Regs_absent l q : Absent l q <-> (forall s, ~ Regs l q s).
Proof.
  split.
  - intros Ha s [e [[i [h Hat]] [Hp _]]]. eapply Ha; eauto.
  - intros Hn i h e Hat Hp. apply (Hn (root e)). exists e. split; [exists i, h; auto|auto].
Qed.

(* RobinHoodProofs.Absent at the key `ptr`, read through Holds (tbl_find concludes it in this form) *)
Definition HAbsent (l : list gslot) (q : N) : Prop := forall e, Holds l e -> ptr e <> q.

Lemma Regs_sub (gone : N -> Prop) l l' : (forall x, Holds l' x <-> Holds l x /\ ~ gone (ptr x)) ->
  forall q s, Regs l' q s <-> Regs l q s /\ ~ gone q.
Proof.
  intros Hh q s. split.
  - intros [e [He [<- Hr]]]. apply Hh in He. split; [exists e|]; tauto.
  - intros [[e [He [<- Hr]]] Hn]. exists e. split; [apply Hh|]; auto.
Qed.

(* Every entry of the result sits where it was or one slot before: nothing jumps.  An empty slot z
   stops the shifting before it comes round to the hole again: the slots that receive an entry lie
   from the hole on, before z. *)
Lemma backshift_from : forall fuel (l : list gslot) i z l',
  i < length l -> z < length l -> i <> z -> at_ l z = None ->
  backshift gentry fuel l i = Some l' ->
  forall s x, at_ l' s = Some x ->
    at_ l s = Some x \/
    (at_ l (nxt (length l) s) = Some x /\ s < length l /\ s <> z /\ dist (length l) z s <= dist (length l) z i).
Proof.
  induction fuel as [|f IH]; intros l i z l' Hi Hz Hiz Hzn Hb s x Hs; [discriminate|].
  rewrite backshift_S in Hb. set (n := length l) in *. set (ni := nxt n i) in *.
  destruct (at_ l ni) as [[h e]|] eqn:Hnat; [destruct (0 <? dist n ni h)|]; try (injection Hb as <-; auto; fail).
  set (l1 := upd ni None (upd i (Some (h, e)) l)) in *.
  pose proof (nxt_lt n i Hi) as Hni. pose proof (dist_from_nxt n i z Hi Hz Hiz) as Hdi. fold ni in Hdi.
  assert (Hlen1 : length l1 = n) by (unfold l1; rewrite !upd_length; reflexivity).
  assert (Hat1 : forall a, at_ l1 a = if a =? ni then None else if a =? i then Some (h, e) else at_ l a).
  { intros a. unfold l1. rewrite !at_upd by (rewrite ?upd_length; assumption). reflexivity. }
  assert (Hniz : ni <> z) by congruence.
  assert (Hz1 : at_ l1 z = None).
  { rewrite Hat1. destruct (z =? ni); [reflexivity|]. destruct (Nat.eqb_spec z i); [congruence|assumption]. }
  pose proof (IH l1 ni z l') as IH1. rewrite Hlen1 in IH1.
  destruct (IH1 Hni Hz Hniz Hz1 Hb s x Hs) as [H1|[H1 [Hsn [Hsz Hd]]]]; rewrite Hat1 in H1.
  - destruct (Nat.eqb_spec s ni); [discriminate|]. destruct (Nat.eqb_spec s i) as [->|]; [|left; assumption].
    right. split; [fold ni; congruence|]. auto.
  - destruct (Nat.eqb_spec (nxt n s) ni); [discriminate|]. right.
    pose proof (dist_from_nxt n s z Hsn Hz Hsz) as Hds.
    (* were the slot after s the old hole i, s would be further from z than i *)
    destruct (Nat.eqb_spec (nxt n s) i) as [Heq|]; [rewrite Heq in Hds; clear - Hds Hd Hdi; lia|].
    split; [assumption|]. split; [assumption|]. split; [assumption|rewrite Hdi; apply le_S, Hd].
Qed.

Lemma delete_at_from (l : list gslot) i h e l' : at_ l i = Some (h, e) -> occupied l < length l ->
  delete_at gentry l i = Some l' ->
  forall s x, at_ l' s = Some x -> s <> i /\ at_ l s = Some x \/ (nxt (length l) s <> i /\ at_ l (nxt (length l) s) = Some x).
Proof.
  intros Hat Hocc Hd s x Hs. pose proof (at_some_lt _ _ _ _ Hat) as Hi.
  destruct (empty_slot_exists _ l Hocc) as [z [Hz Hzn]]. assert (Hiz : i <> z) by congruence.
  assert (Hat0 : forall a, at_ (upd i None l) a = if a =? i then None else at_ l a) by (intros a; apply at_upd; assumption).
  pose proof (backshift_from (length l + 2) (upd i None l) i z l') as Hbs. rewrite upd_length, Hat0 in Hbs.
  destruct (Nat.eqb_spec z i) as [|_]; [congruence|].
  destruct (Hbs Hi Hz Hiz Hzn Hd s x Hs) as [H1|[H1 _]]; rewrite Hat0 in H1.
  - destruct (Nat.eqb_spec s i); [discriminate|]. left. auto.
  - destruct (Nat.eqb_spec (nxt (length l) s) i); [discriminate|]. right. auto.
Qed.

Lemma is_reg_spec l a : is_reg l a = true <-> exists e, Holds l e /\ ptr e = a.
Proof.
  unfold is_reg. rewrite existsb_exists.
  split; intros [e [H1 H2]]; exists e; (split; [apply in_entries; assumption|apply N.eqb_eq; assumption]).
Qed.

Lemma is_reg_absent l a : is_reg l a = false <-> HAbsent l a.
Proof.
  rewrite <- not_true_iff_false, is_reg_spec.
  split; [intros Hn e He Hp; apply Hn; eauto|intros Ha [e [He Hp]]; exact (Ha e He Hp)].
Qed.

Lemma is_pending_spec p pl : is_pending p pl = true <-> In (Some p) pl.
Proof.
  unfold is_pending. rewrite existsb_exists. split.
  - intros [[q|] [Hin Hq]]; [|discriminate]. apply N.eqb_eq in Hq. subst q. exact Hin.
  - intros H. exists (Some p). split; [assumption|apply N.eqb_refl].
Qed.

Lemma null_out_in p pl q : In (Some q) (null_out p pl) -> In (Some q) pl.
Proof.
  unfold null_out. rewrite in_map_iff. intros [[y|] [Hy Hin]]; [|discriminate].
  destruct (N.eqb y p); [discriminate|]. rewrite <- Hy. exact Hin.
Qed.

Lemma null_out_not_pending p pl : is_pending p (null_out p pl) = false.
Proof.
  apply not_true_iff_false. rewrite is_pending_spec. unfold null_out. rewrite in_map_iff.
  intros [[y|] [Hy _]]; [|discriminate]. destruct (N.eqb_spec y p); [discriminate|congruence].
Qed.

Lemma upd_opt_in k pl q : In (Some q) (upd_opt k pl) -> In (Some q) pl.
Proof.
  revert k. induction pl as [|x pl IH]; intros [|k]; simpl; try tauto.
  - intros [H|H]; [discriminate|right; assumption].
  - intros [H|H]; [left; assumption|right; eauto].
Qed.

Lemma upd_opt_length k pl : length (upd_opt k pl) = length pl.
Proof. revert k. induction pl as [|x pl IH]; intros [|k]; simpl; auto. Qed.

Definition keeper (e : gentry) : bool := marked e || root e.
Definition pend_of (rm : list gentry) : list (option N) := map (fun e => Some (ptr e)) rm.
Definition reclaim_evs (rm : list gentry) : list event := map EvReclaim (rev (map ptr rm)).

Lemma led_reclaim rm t q s : led (reclaim_evs rm ++ t) q s <-> led t q s /\ ~ In q (map ptr rm).
Proof.
  unfold reclaim_evs. rewrite (in_rev (map ptr rm)).
  induction (rev (map ptr rm)) as [|p ps IH]; simpl; [tauto|]. rewrite IH. intuition congruence.
Qed.

Lemma drop_ptr_in p l q s : In (q, s) (drop_ptr p l) <-> In (q, s) l /\ q <> p.
Proof.
  unfold drop_ptr. rewrite filter_In. simpl. destruct (N.eqb_spec q p); simpl; intuition congruence.
Qed.

(* GC_Mark_Item's probe loop sets at most one mark bit, on an entry with the address looked for *)
Lemma mark_loop_shape p : forall f (l : list gslot) i j l', mark_loop f l i j p = Some l' ->
  l' = l \/ exists k h e, at_ l k = Some (h, e) /\ ptr e = p /\ l' = upd k (Some (h, setmark e)) l.
Proof.
  induction f as [|f IH]; intros l i j l' H; [discriminate|]. simpl in H.
  destruct (at_ l i) as [[h e]|] eqn:Hat; [|injection H as <-; left; reflexivity].
  destruct (dist (length l) i h <? j); [injection H as <-; left; reflexivity|].
  destruct (N.eqb_spec (ptr e) p) as [Hp|Hp]; simpl in H; [destruct (marked e); simpl in H|]; eauto.
  injection H as <-. right. exists i, h, e. auto.
Qed.

(* as long as the entry found is not marked yet, the probe loop is RobinHood.find followed by one update *)
Lemma mark_find p : forall f (l : list gslot) i j k h e, find_loop N gentry N.eqb ptr f l i j p = Some (Some k) ->
  at_ l k = Some (h, e) -> marked e = false -> mark_loop f l i j p = Some (upd k (Some (h, setmark e)) l).
Proof.
  induction f as [|f IH]; intros l i j k h e Hf Hk Hm; [discriminate|]. simpl in *.
  destruct (at_ l i) as [[h0 e0]|] eqn:Hat; [|discriminate].
  destruct (dist (length l) i h0 <? j); [discriminate|].
  destruct (N.eqb (ptr e0) p); simpl; [|eauto].
  injection Hf as <-. rewrite Hk in Hat. injection Hat as <- <-. rewrite Hm. reflexivity.
Qed.

Lemma mark_loop_PW p f (l : list gslot) i j l' : mark_loop f l i j p = Some l' -> PW l l'.
Proof.
  intros H. destruct (mark_loop_shape p _ _ _ _ _ H) as [->|[k [h [e [Hk [_ ->]]]]]]; [apply PW_refl|].
  apply PW_upd with (e := e); auto.
Qed.

Lemma PW_mark_roots l : PW l (mark_roots l).
Proof.
  induction l as [|[[h e]|] l IH]; simpl; constructor; auto; [|constructor].
  destruct (root e); constructor; reflexivity.
Qed.

(* the compaction loop of GC_Sweep keeps an entry iff it is marked or a root *)
Lemma sweep_loop_S f (l : list gslot) i nit pl ev : sweep_loop (S f) l i nit pl ev =
  if length l <=? i then Some (l, nit, pl, ev) else
  match at_ l i with
  | Some (h, e) =>
    if keeper e then sweep_loop f l (S i) nit pl ev else
    match delete_at gentry l i with
    | Some l' => sweep_loop f l' i (pred nit) (pl ++ [Some (ptr e)]) (EvReclaim (ptr e) :: ev)
    | None => None
    end
  | None => sweep_loop f l (S i) nit pl ev
  end.
Proof.
  simpl. destruct (length l <=? i), (at_ l i) as [[h e]|]; try reflexivity.
  unfold keeper. destruct (marked e), (root e); reflexivity.
Qed.

(* the compaction loop has passed the slots before i: what they hold stays *)
Definition kept_below (l : list gslot) i : Prop := forall s h e, s < i -> at_ l s = Some (h, e) -> keeper e = true.

Lemma kept_S l i : kept_below l i -> (forall h e, at_ l i = Some (h, e) -> keeper e = true) -> kept_below l (S i).
Proof.
  intros Hinv Hk s h e Hs Hat.
  destruct (proj1 (Nat.lt_eq_cases s i) (proj1 (Nat.lt_succ_r s i) Hs)) as [Hs'| ->]; [exact (Hinv s h e Hs' Hat)|exact (Hk h e Hat)].
Qed.

(* a deletion at i moves entries from behind i only *)
Lemma kept_delete l i h e l1 : kept_below l i -> at_ l i = Some (h, e) -> occupied l < length l ->
  delete_at gentry l i = Some l1 -> kept_below l1 i.
Proof.
  intros Hinv Hat Hocc Hd s h0 e0 Hs Hat0. pose proof (at_some_lt _ _ _ _ Hat) as Hlt.
  destruct (delete_at_from l i h e l1 Hat Hocc Hd s (h0, e0) Hat0) as [[Hne Ho]|[Hne Ho]].
  - apply (Hinv s h0 e0); assumption.
  - (* s < i is S s <= i *)
    pose proof (Nat.le_lt_trans _ _ _ Hs Hlt) as Hss. unfold nxt in Hne, Ho. rewrite (Nat.mod_small _ _ Hss) in Hne, Ho.
    apply (Hinv (S s) h0 e0); [apply Nat.le_neq; split; assumption|exact Ho].
Qed.

Section RP.
  Variable hashf : N -> N.

  Local Notation home := (home hashf).

  (* the generic robin-hood invariant for the current slot count *)
  Definition Core (l : list gslot) : Prop := core N gentry ptr (fun p => home p (length l)) l.

  Lemma home_lt p n : 0 < n -> home p n < n.
  Proof. apply mod_home_lt. Qed.

  Lemma Holds_nslots g e : Holds (slots g) e -> nslots g <> 0.
  Proof. intros [i [h Hat]]. pose proof (at_some_lt _ _ _ _ Hat). unfold nslots. lia. Qed.

  Lemma Core_PW l l' : PW l l' -> Core l -> Core l'.
  Proof.
    intros H [HL [Hwf Huq]]. pose proof (PW_length _ _ H) as Hlen. unfold Core. rewrite Hlen.
    split; [|split].
    - assert (Hwt : forall a, wt gentry l' a = wt gentry l a).
      { intros a. unfold wt. rewrite Hlen. destruct (PW_at l l' a H); reflexivity. }
      intros a Ha. rewrite Hlen in *. rewrite !Hwt. apply HL. assumption.
    - intros a h e' Hat. destruct (PW_at_some _ _ _ _ _ H Hat) as [e [He [Hp _]]].
      rewrite Hlen, <- Hp. exact (Hwf a h e He).
    - intros a b h h' e e' Ha Hb Hk.
      destruct (PW_at_some _ _ _ _ _ H Ha) as [x [Hx [Hpx _]]]. destruct (PW_at_some _ _ _ _ _ H Hb) as [y [Hy [Hpy _]]].
      eapply Huq; eauto. congruence.
  Qed.

  Lemma Core_UQ_same l x y : Core l -> Holds l x -> Holds l y -> ptr x = ptr y -> x = y.
  Proof.
    intros [_ [_ Huq]] Hx [j [h Hj]]. exact (UQ_same N gentry ptr l j h y x Huq Hj Hx).
  Qed.

  (* the table part that InvM below and LifecycleGlue's Tab and TabM share *)
  Definition Tbl : list gslot -> nat -> Prop := tbl_inv N gentry ptr home.

  Lemma Tbl_nz l n : Tbl l n -> n <> 0 -> length l <> 0.
  Proof. intros [H _]. exact (counted_nz N gentry ptr home l n H). Qed.

  Lemma Tbl_PW l l' n : PW l l' -> Tbl l n -> Tbl l' n.
  Proof.
    intros H ((Hc & Hn) & Hr).
    split; [split; [exact (Core_PW _ _ H Hc)|rewrite (PW_occupied _ _ H); exact Hn]|rewrite (PW_length _ _ H); exact Hr].
  Qed.

  (* GC_Mem_Ptr's probe: the slot of p, or p is absent *)
  Lemma reg_find l p : Core l -> length l <> 0 ->
    exists r, rh_find l (home p (length l)) p = Some r /\
      match r with
      | Some i => exists e, at_ l i = Some (home p (length l), e) /\ ptr e = p
      | None => HAbsent l p
      end.
  Proof. exact (tbl_find N gentry N.eqb ptr N.eqb_eq home home_lt l p). Qed.

  (* GC_Rem_Ptr's lookup followed by its backward shift (delete_at), read on the entry set *)
  Lemma Tbl_take l n p : Tbl l n -> length l <> 0 ->
    exists r, rh_find l (home p (length l)) p = Some r /\
      match r with
      | None => HAbsent l p
      | Some i => exists e l1, Holds l e /\ ptr e = p /\ rh_delete l i = Some l1 /\ Tbl l1 (pred n) /\
                    length l1 = length l /\ forall x, Holds l1 x <-> Holds l x /\ ptr x <> p
      end.
  Proof.
    intros T Hnz. destruct (reg_find l p (proj1 (proj1 T)) Hnz) as [r [Hf Hres]].
    exists r. split; [exact Hf|]. destruct r as [i|]; [|exact Hres].
    destruct Hres as [e [Hat <-]].
    destruct (tbl_delete N gentry ptr home l n i _ e T Hat) as (l1 & Hd & T1 & Hr1 & Hlen & Hh).
    exists e, l1. split; [exists i, (home (ptr e) (length l)); exact Hat|]. do 2 (split; [trivial|]).
    split; [exact (conj T1 (or_intror Hr1))|split; assumption].
  Qed.

  Lemma mark_loop_ok (l : list gslot) p : Core l ->
    forall f i j, i < length l -> length l - j < f ->
      exists l', mark_loop f l i j p = Some l' /\ PW l l'.
  Proof.
    intros [_ [Hwf _]] f i j Hi Hf.
    enough (exists l', mark_loop f l i j p = Some l') as [l' H]
      by (exists l'; split; [exact H|exact (mark_loop_PW _ _ _ _ _ _ H)]).
    revert i j Hi Hf. induction f as [|f IH]; intros i j Hi Hf; [lia|]. simpl.
    destruct (at_ l i) as [[h e]|] eqn:Hat; [|eauto].
    destruct (Nat.ltb_spec (dist (length l) i h) j); [eauto|].
    destruct (N.eqb (ptr e) p && negb (marked e)); [eauto|].
    destruct (Hwf _ _ _ Hat) as [_ Hh]. pose proof (dist_lt (length l) i h Hh Hi).
    apply IH; [apply nxt_lt; assumption|lia].
  Qed.

  (* every field but the slot array *)
  Definition same_rest (g g' : gc) : Prop :=
    nitems g' = nitems g /\ mitems g' = mitems g /\ minptr g' = minptr g /\ maxptr g' = maxptr g /\
    running g' = running g /\ pending g' = pending g /\ evs g' = evs g.

  Lemma mark_item_ok g p : Core (slots g) -> nslots g <> 0 ->
    exists g', mark_item hashf g p = Some (Some g') /\ PW (slots g) (slots g') /\ same_rest g g'.
  Proof.
    intros Hc Hn. unfold mark_item.
    destruct (negb (p mod 8 =? 0)%N || (p <? minptr g)%N || (maxptr g <? p)%N).
    - exists g. split; [reflexivity|]. split; [apply PW_refl|repeat split].
    - destruct (Nat.eqb_spec (nslots g) 0) as [|_]; [contradiction|]. unfold nslots in *.
      destruct (mark_loop_ok (slots g) p Hc (length (slots g) + 2) (home p (length (slots g))) 0) as [l' [-> Hpw]];
        [apply home_lt; lia|lia|].
      eexists. split; [reflexivity|]. split; [exact Hpw|repeat split].
  Qed.

  Lemma mark_words_ok ws : forall g, Core (slots g) -> nslots g <> 0 ->
    exists g', mark_words hashf g ws = Some (Some g') /\ PW (slots g) (slots g') /\ same_rest g g'.
  Proof.
    induction ws as [|w ws IH]; intros g Hc Hn; simpl.
    - exists g. split; [reflexivity|]. split; [apply PW_refl|repeat split].
    - destruct (mark_item_ok g w Hc Hn) as [g1 [-> [Hpw1 Hs1]]].
      destruct (IH g1) as [g2 [H2 [Hpw2 Hs2]]].
      + eapply Core_PW; eauto.
      + unfold nslots in *. rewrite (PW_length _ _ Hpw1). assumption.
      + exists g2. split; [exact H2|]. split; [eapply PW_trans; eauto|].
        unfold same_rest in *. destruct Hs1 as [<- [<- [<- [<- [<- [<- <-]]]]]]. exact Hs2.
  Qed.

  (* l' keeps exactly the marked-or-root entries of l, rm holds the others *)
  Definition Swept (l l' : list gslot) (rm : list gentry) : Prop :=
    Core l' /\ length l' = length l /\
    (forall x, Holds l' x <-> Holds l x /\ keeper x = true) /\
    (forall x, In x rm <-> Holds l x /\ keeper x = false) /\
    occupied l' + length rm = occupied l.

  Lemma Tbl_swept l n l' rm : Tbl l n -> Swept l l' rm -> Tbl (clear_marks l') (n - length rm).
  Proof.
    intros ((_ & Hn) & Hr) (Hc & Hlen & _ & _ & Ho). apply (Tbl_PW l'); [apply PW_clear_marks|].
    split; [split; [exact Hc|]|rewrite Hlen]; lia.
  Qed.

  Lemma Swept_nil l : Core l -> (forall x, Holds l x -> keeper x = true) -> Swept l l [].
  Proof.
    intros Hc Hk. split; [assumption|]. split; [reflexivity|].
    split; [|split; [|apply Nat.add_0_r]]; intros x; (split; [|intros [Hx Hkx]]).
    - intros Hx. split; [exact Hx|exact (Hk x Hx)].
    - exact Hx.
    - intros [].
    - rewrite (Hk x Hx) in Hkx. discriminate.
  Qed.

  (* e, not a keeper, was taken out of l first: by uniqueness of addresses it is the only entry that went *)
  Lemma Swept_cons l l1 l' e rm : Core l -> Holds l e -> keeper e = false -> length l1 = length l ->
    (forall x, Holds l1 x <-> Holds l x /\ ptr x <> ptr e) -> S (occupied l1) = occupied l ->
    Swept l1 l' rm -> Swept l l' (e :: rm).
  Proof.
    intros Hc He Hke Hlen1 Hh1 Ho1 [Hc' [Hlen' [Hh' [Hrm' Ho']]]].
    assert (Hxe : forall x, Holds l x -> ptr x = ptr e -> x = e) by (intros x Hx; exact (Core_UQ_same l x e Hc Hx He)).
    split; [exact Hc'|]. split; [congruence|]. split; [|split; [|rewrite <- Ho1, <- Ho'; apply Nat.add_succ_r]]; intros x; split.
    - intros Hx. apply Hh' in Hx. destruct Hx as [Hx Hk]. apply Hh1 in Hx. split; [apply Hx|exact Hk].
    - intros [Hx Hk]. apply Hh'. split; [|exact Hk]. apply Hh1. split; [exact Hx|].
      intros Hp. rewrite (Hxe x Hx Hp) in Hk. congruence.
    - intros [<-|Hx]; [split; assumption|].
      apply Hrm' in Hx. destruct Hx as [Hx Hk]. apply Hh1 in Hx. split; [apply Hx|exact Hk].
    - intros [Hx Hk]. destruct (N.eq_dec (ptr x) (ptr e)) as [Hp|Hp]; [left; symmetry; exact (Hxe x Hx Hp)|right].
      apply Hrm'. split; [apply Hh1; split; assumption|exact Hk].
  Qed.

  (* by uniqueness of addresses, the kept entries are those whose address is not reclaimed *)
  Lemma Swept_regs l l' rm : Core l -> Swept l l' rm ->
    forall q s, Regs l' q s <-> Regs l q s /\ ~ In q (map ptr rm).
  Proof.
    intros Hc [_ [_ [Hh [Hrm _]]]]. apply (Regs_sub (fun q => In q (map ptr rm))). intros x. rewrite Hh.
    enough (Hk : Holds l x -> (keeper x = true <-> ~ In (ptr x) (map ptr rm))) by tauto.
    intros Hx. split.
    - intros Hkx Hin. apply in_map_iff in Hin. destruct Hin as [y [Hpy Hy]]. apply Hrm in Hy. destruct Hy as [Hy Hky].
      rewrite (Core_UQ_same l y x Hc Hy Hx Hpy) in Hky. congruence.
    - intros Hn. destruct (keeper x) eqn:Hkx; [reflexivity|]. destruct Hn. apply in_map, Hrm. auto.
  Qed.

  (* each reclaimed address once: the kept and the reclaimed addresses together are as many as the
     addresses before, and cover them *)
  Lemma Swept_reclaimed_once l l' rm : Core l -> Swept l l' rm -> NoDup (map ptr rm).
  Proof.
    intros Hc (_ & _ & Hkeep & Hrm & Hcnt).
    assert (Hnd : NoDup (map ptr (entries l' ++ rm))).
    { apply NoDup_incl_NoDup with (l := map ptr (entries l)).
      - apply (UQ_NoDup N gentry ptr), Hc.
      - rewrite !map_length, app_length, <- !(occupied_entries gentry). lia.
      - intros p Hp. apply in_map_iff in Hp as [x [<- Hx]]. apply (in_entries gentry) in Hx. apply in_map, in_or_app.
        destruct (keeper x) eqn:Hk; [left; apply in_entries, Hkeep|right; apply Hrm]; auto. }
    rewrite map_app in Hnd. clear - Hnd. induction (map ptr (entries l')) as [|a k IH]; [exact Hnd|].
    inversion Hnd. auto.
  Qed.

  (* the third premise is kept_below l i, the last five conjuncts are Swept l l' rm.  Fuel: a step either
     advances i or deletes an entry, so (length l - i) + occupied l falls *)
  Lemma sweep_loop_ok : forall f (l : list gslot) i nit pl ev,
    Core l -> (length l = 0 \/ occupied l < length l) ->
    (forall s h e, s < i -> at_ l s = Some (h, e) -> keeper e = true) ->
    (length l - i) + occupied l < f ->
    exists l' rm,
      sweep_loop f l i nit pl ev = Some (l', nit - length rm, pl ++ pend_of rm, reclaim_evs rm ++ ev) /\
      Core l' /\ length l' = length l /\
      (forall x, Holds l' x <-> Holds l x /\ keeper x = true) /\
      (forall x, In x rm <-> Holds l x /\ keeper x = false) /\
      occupied l' + length rm = occupied l.
  Proof.
    induction f as [|f IH]; intros l i nit pl ev Hc Hocc0 Hinv Hf; [inversion Hf|].
    rewrite sweep_loop_S. destruct (Nat.leb_spec (length l) i) as [Hge|Hlt].
    - exists l, []. cbn [length pend_of reclaim_evs map rev app]. rewrite Nat.sub_0_r, app_nil_r.
      split; [reflexivity|]. apply (Swept_nil l Hc). intros x [s [h Hs]].
      apply (Hinv s h x); [|assumption]. exact (Nat.lt_le_trans _ _ _ (at_some_lt _ _ _ _ Hs) Hge).
    - assert (Hf' : length l - S i + occupied l < f) by (clear - Hf Hlt; lia).
      destruct (at_ l i) as [[h e]|] eqn:Hat; [destruct (keeper e) eqn:Hke|];
        try (apply IH; [exact Hc|exact Hocc0|apply (kept_S l i Hinv); congruence|exact Hf']).
      assert (Hocc : occupied l < length l).
      { destruct Hocc0 as [Hz|]; [rewrite Hz in Hlt; inversion Hlt|assumption]. }
      destruct (delete_at_spec N gentry ptr _ l i h e Hc Hat Hocc) as [l1 [Hd [Hc1 [Hlen1 [Hh1 Ho1]]]]].
      rewrite Hd. rewrite <- Hlen1 in Hc1.
      destruct (IH l1 i (pred nit) (pl ++ [Some (ptr e)]) (EvReclaim (ptr e) :: ev) Hc1) as [l' [rm [Hs Hsw]]];
        [clear - Hlen1 Ho1 Hocc; lia|exact (kept_delete l i h e l1 Hinv Hat Hocc Hd)|clear - Hlen1 Ho1 Hf'; lia|].
      exists l', (e :: rm). split.
      + rewrite Hs, <- Nat.sub_1_r, <- Nat.sub_add_distr. unfold pend_of, reclaim_evs. cbn [map rev length].
        rewrite map_app, <- !app_assoc. reflexivity.
      + apply (Swept_cons l l1 l' e rm Hc); auto. exists i, h. exact Hat.
  Qed.

  (* GC_Sweep's compaction loop started at slot 0 on any marking: never out of fuel, keeps the
     robin-hood invariant, keeps exactly the marked-or-root entries and hands exactly the others
     to the pending list, in the order of the Reclaim events *)
  Lemma sweep_loop_tbl (l : list gslot) n pl ev : Tbl l n ->
    exists l' rm,
      sweep_loop (length l + occupied l + 1) l 0 n pl ev = Some (l', n - length rm, pl ++ pend_of rm, reclaim_evs rm ++ ev) /\
      Swept l l' rm.
  Proof. intros ((Hc & ->) & Hr). apply sweep_loop_ok; auto; [intros; lia|lia]. Qed.

  Definition Reg (g : gc) : N -> bool -> Prop := Regs (slots g).

  (* everything but "marks are clear": this is what holds between GC_Mark and the end of the
     compaction loop *)
  Record InvM (g : gc) : Prop := mkInvM {
    inv_core : Core (slots g);
    inv_count : nitems g = occupied (slots g);
    inv_room : nslots g = 0 \/ nitems g < nslots g;
    inv_bounds : forall e, Holds (slots g) e -> (minptr g <= ptr e <= maxptr g)%N;
    inv_pend : forall q, In (Some q) (pending g) -> HAbsent (slots g) q;
    inv_led : forall q s, Reg g q s <-> led (evs g) q s
  }.

  Definition Clear (l : list gslot) : Prop := forall e, Holds l e -> marked e = false.

  Definition Inv (g : gc) : Prop := InvM g /\ Clear (slots g).

  Definition Quiet (g : gc) : Prop := pending g = [].

  Lemma Inv_init : Inv gc_init /\ Quiet gc_init.
  Proof.
    assert (He : forall e, ~ Holds [] e) by (intros e [[|i] [h H]]; discriminate).
    split; [|reflexivity]. split; [constructor|]; simpl.
    - apply (core_repeat N gentry ptr _ 0).
    - reflexivity.
    - left. reflexivity.
    - intros e H. destruct (He e H).
    - intros q [].
    - intros q s. split; [intros [e [H _]]; destruct (He e H)|intros []].
    - intros e H. destruct (He e H).
  Qed.

  Lemma Clear_clear_marks l : Clear (clear_marks l).
  Proof. intros x Hx. apply Holds_smap in Hx. destruct Hx as [e [_ ->]]. reflexivity. Qed.

  Lemma clear_id l : Clear l -> clear_marks l = l.
  Proof.
    intros Hc. unfold clear_marks. rewrite <- (map_id l) at 2. apply map_ext_in.
    intros [[h [p r m]]|] Hs; [|reflexivity]. destruct (In_nth _ _ None Hs) as [i [_ Hi]].
    assert (Hm : marked (mkE p r m) = false) by (apply Hc; exists i, h; exact Hi).
    simpl in Hm. subst m. reflexivity.
  Qed.

  Lemma InvM_tbl g : InvM g -> Tbl (slots g) (nitems g).
  Proof. intros H. exact (conj (conj (inv_core g H) (inv_count g H)) (inv_room g H)). Qed.

  (* The invariant when the registered set shrinks: the addresses `gone` leave the table and the
     ledger alike, and are the only ones that may join the pending list.  The table part of the
     new slot array is the caller's. *)
  Lemma InvM_sub (gone : N -> Prop) g g' : InvM g -> Tbl (slots g') (nitems g') ->
    minptr g' = minptr g -> maxptr g' = maxptr g ->
    (forall q s, Regs (slots g') q s <-> Regs (slots g) q s /\ ~ gone q) ->
    (forall q, In (Some q) (pending g') -> In (Some q) (pending g) \/ gone q) ->
    (forall q s, led (evs g') q s <-> led (evs g) q s /\ ~ gone q) -> InvM g'.
  Proof.
    intros H ((Hc & Hn) & Hroom) Hlo Hhi Hr Hp He.
    assert (Hsub : forall e, Holds (slots g') e -> ~ gone (ptr e) /\ exists x, Holds (slots g) x /\ ptr x = ptr e).
    { intros e He'. destruct (Hr (ptr e) (root e)) as [[[x [Hx [Hpx _]]] Hng] _]; [exists e|]; eauto. }
    constructor; auto.
    - intros e He'. destruct (Hsub e He') as [_ [x [Hx <-]]]. rewrite Hlo, Hhi. apply (inv_bounds g H x Hx).
    - intros q Hq e He' <-. destruct (Hsub e He') as [Hng [x [Hx Hpx]]].
      destruct (Hp _ Hq) as [Hq'|Hq']; [exact (inv_pend g H _ Hq' x Hx Hpx)|auto].
    - intros q s. pose proof (inv_led g H q s) as Hl. unfold Reg in *. rewrite Hr, He, Hl. reflexivity.
  Qed.

  (* the invariant when an entry whose address is neither registered nor pending joins the table and
     the ledger *)
  Lemma InvM_add g g' p r : InvM g -> Tbl (slots g') (nitems g') ->
    minptr g' = N.min p (minptr g) -> maxptr g' = N.max p (maxptr g) ->
    (forall x, Holds (slots g') x <-> Holds (slots g) x \/ x = mkE p r false) ->
    pending g' = pending g -> ~ In (Some p) (pending g) ->
    (forall q s, led (evs g') q s <-> (q = p /\ s = r) \/ led (evs g) q s) -> InvM g'.
  Proof.
    intros H ((Hc & Hn) & Hroom) Hlo Hhi Hh Hp Hnp He. constructor; auto.
    - intros e He'. rewrite Hlo, Hhi. apply Hh in He'. destruct He' as [He'| ->].
      + destruct (inv_bounds g H e He') as [Hl Hu].
        split; [exact (N.le_trans _ _ _ (N.le_min_r _ _) Hl)|exact (N.le_trans _ _ _ Hu (N.le_max_r _ _))].
      + split; [apply N.le_min_l|apply N.le_max_l].
    - rewrite Hp. intros q Hq e He'. apply Hh in He'. destruct He' as [He'| ->]; [exact (inv_pend g H q Hq e He')|].
      simpl. intros ->. contradiction.
    - intros q s. rewrite He, <- (inv_led g H q s). unfold Reg, Regs. split.
      + intros [e [He' [Hpe Hre]]]. apply Hh in He'.
        destruct He' as [He'| ->]; [right; exists e; auto|left; split; symmetry; assumption].
      + intros [[-> ->]|[e [He' Hpr]]]; [exists (mkE p r false)|exists e]; (split; [apply Hh|]); auto.
  Qed.

  (* what the mark phase changes does not matter to InvM *)
  Lemma InvM_PW g g' : InvM g -> PW (slots g) (slots g') -> same_rest g g' -> InvM g'.
  Proof.
    intros H Hpw [Hn [_ [Hlo [Hhi [_ [Hp He]]]]]]. apply (InvM_sub (fun _ => False) g _ H); auto.
    - rewrite Hn. exact (Tbl_PW _ _ _ Hpw (InvM_tbl g H)).
    - intros q s. rewrite (PW_regs _ _ q s Hpw). tauto.
    - rewrite Hp. auto.
    - rewrite He. tauto.
  Qed.

  (* the invariant looks at the table, the count, the bounds, the addresses in the pending list
     and the ledger of the log only *)
  Lemma Inv_ext g g' : Inv g -> slots g' = slots g -> nitems g' = nitems g ->
    minptr g' = minptr g -> maxptr g' = maxptr g ->
    (forall q, In (Some q) (pending g') -> In (Some q) (pending g)) ->
    (forall q s, led (evs g') q s <-> led (evs g) q s) -> Inv g'.
  Proof.
    intros [H Hcl] Hs Hn Hlo Hhi Hp He. unfold Inv, Clear. rewrite Hs. split; [|assumption].
    apply (InvM_sub (fun _ => False) g _ H); rewrite ?Hs, ?Hn; auto; [exact (InvM_tbl g H)|tauto|].
    intros q s. rewrite He. tauto.
  Qed.

  Theorem gc_mem_ok g p : InvM g -> exists b, gc_mem hashf g p = Some b /\ (b = true <-> exists s, Reg g p s).
  Proof.
    intros H. unfold gc_mem. destruct (Nat.eqb_spec (nslots g) 0) as [Hz|Hnz].
    - exists false. split; [reflexivity|]. split; [discriminate|].
      intros [s [e [He _]]]. destruct (Holds_nslots g e He Hz).
    - unfold nslots in *. destruct (reg_find (slots g) p (inv_core g H) Hnz) as [[i|] [-> Hres]].
      + exists true. split; [reflexivity|]. split; [|reflexivity]. intros _.
        destruct Hres as [e [Hat Hpe]]. exists (root e), e. split; [exists i, (home p (nslots g)); exact Hat|auto].
      + exists false. split; [reflexivity|]. split; [discriminate|].
        intros [s [e [He [Hpe _]]]]. destruct (Hres e He Hpe).
  Qed.

  (* GC_Mark_Item's probe for the address of a held entry leaves that entry marked *)
  Lemma mark_loop_marks g e sl : InvM g -> Holds (slots g) e ->
    mark_loop (nslots g + 2) (slots g) (home (ptr e) (nslots g)) 0 (ptr e) = Some sl ->
    exists e', Holds sl e' /\ ptr e' = ptr e /\ root e' = root e /\ marked e' = true.
  Proof.
    intros H He Hl. pose proof (inv_core g H) as Hc.
    (* wherever the loop sets the mark on e, e is held marked afterwards *)
    assert (Hset : forall k h, at_ (slots g) k = Some (h, e) -> sl = upd k (Some (h, setmark e)) (slots g) ->
              exists e', Holds sl e' /\ ptr e' = ptr e /\ root e' = root e /\ marked e' = true).
    { intros k h Hk ->. exists (setmark e). split; [exists k, h; apply at_upd_eq, (at_some_lt _ _ _ _ Hk)|auto]. }
    destruct (marked e) eqn:Hme.
    - (* marked already: the loop goes on, and whatever it does then can only mark e again *)
      destruct (mark_loop_shape _ _ _ _ _ _ Hl) as [->|[k [h [e2 [Hk [Hp2 Hsl]]]]]]; [exists e; auto|].
      assert (e2 = e) by (apply (Core_UQ_same _ _ _ Hc); [exists k, h; exact Hk|exact He|exact Hp2]). subst e2. eauto.
    - (* GC_Mem_Ptr's probe finds e, and the loop marks what that finds *)
      destruct (reg_find (slots g) (ptr e) Hc (Holds_nslots g e He)) as [[i|] [Hf Hres]]; [|destruct (Hres e He eq_refl)].
      destruct Hres as [e1 [Hat Hp1]].
      assert (e1 = e) by (apply (Core_UQ_same _ _ _ Hc); [exists i, (home (ptr e) (nslots g)); exact Hat|exact He|exact Hp1]).
      subst e1. apply (Hset i _ Hat). unfold nslots in *. rewrite (mark_find _ _ _ _ _ _ _ _ Hf Hat Hme) in Hl. congruence.
  Qed.

  (* a registered, aligned address handed to GC_Mark_Item ends up marked: the [minptr, maxptr]
     pre-filter never rejects a registered address (this is what the bounds invariant is for) *)
  Theorem mark_item_marks_thm : forall g p s, InvM g -> Reg g p s -> (p mod 8 = 0)%N ->
    exists g', mark_item hashf g p = Some (Some g') /\ PW (slots g) (slots g') /\
      exists e', Holds (slots g') e' /\ ptr e' = p /\ root e' = s /\ marked e' = true.
  Proof.
    intros g p s H [e [He [<- <-]]] Hal.
    pose proof (inv_bounds g H e He) as Hb. pose proof (Holds_nslots g e He) as Hnz.
    unfold mark_item. rewrite Hal. simpl.
    destruct (N.ltb_spec (ptr e) (minptr g)) as [|_]; [lia|]. destruct (N.ltb_spec (maxptr g) (ptr e)) as [|_]; [lia|]. simpl.
    destruct (Nat.eqb_spec (nslots g) 0) as [|_]; [contradiction|].
    destruct (mark_loop_ok (slots g) (ptr e) (inv_core g H) (nslots g + 2) (home (ptr e) (nslots g)) 0) as [sl [Hl Hpw]];
      [apply home_lt; unfold nslots in *; lia|unfold nslots; lia|].
    rewrite Hl. eexists. split; [reflexivity|]. split; [exact Hpw|exact (mark_loop_marks g e sl H He Hl)].
  Qed.

  Variable swap : nat -> nat -> bool.
  Variable primes : list N.
  Variables num den : N.
  Variable owns : N -> list N.
  Variable spawns : N -> list dact.
  Variables rem_fin null_first : bool.
  Hypothesis swap_le : forall j p, swap j p = true -> p <= j.
  Hypothesis swap_ge : forall j p, swap j p = false -> j <= p.
  Hypothesis ideal_gt : forall n, n < ideal_size primes num den n.

  Local Notation ideal := (ideal primes num den).

  (* GC_Mark: never out of fuel, never `% 0`, changes mark bits only.  The proof uses none of den, owns and
     spawns; `Proof using` keeps them as arguments of the closed statement, which the call in LifecycleGlue.v passes. *)
  Lemma gc_mark_ok g ws : Tbl (slots g) (nitems g) ->
    exists g', gc_mark hashf g ws = Some (Some g') /\ PW (slots g) (slots g') /\ same_rest g g'.
  Proof using hashf den owns spawns.
    intros T. pose proof T as [[Hc _] _]. unfold gc_mark. destruct (Nat.eqb_spec (nitems g) 0) as [|Hne].
    - exists g. split; [reflexivity|]. split; [apply PW_refl|repeat split].
    - pose proof (PW_mark_roots (slots g)) as Hpw0.
      destruct (mark_words_ok ws (set_slots g (mark_roots (slots g)))) as [g' [H [Hpw Hs]]].
      + simpl. eapply Core_PW; eauto.
      + unfold nslots. simpl. rewrite (PW_length _ _ Hpw0). exact (Tbl_nz _ _ T Hne).
      + exists g'. split; [exact H|]. split; [eapply PW_trans; eauto|exact Hs].
  Qed.

  Lemma g_rehash_ok g n : Core (slots g) -> Clear (slots g) -> occupied (slots g) <= n -> 0 < n ->
    exists l', g_rehash hashf swap g n = Some (set_slots g l') /\ Core l' /\ length l' = n /\
      (forall x, Holds l' x <-> Holds (slots g) x) /\ occupied l' = occupied (slots g).
  Proof.
    intros [_ [_ Huq]] Hcl Hocc Hn. unfold g_rehash, rh_rehash. rewrite (clear_id _ Hcl).
    destruct (tbl_rehash N gentry N.eqb ptr swap (fun old _ => old) N.eqb_eq swap_le swap_ge home home_lt
                (slots g) n Huq Hocc Hn) as (l' & -> & [Hc' Ho] & Hlen & Hh).
    exists l'. auto.
  Qed.

  (* GC_Resize_More: a table with the same entries and room for one more than the count says *)
  Lemma resize_more_ok g : Core (slots g) -> Clear (slots g) -> occupied (slots g) <= nitems g ->
    exists l', resize_more hashf swap primes num den g = Some (set_slots g l') /\ Core l' /\
      (forall x, Holds l' x <-> Holds (slots g) x) /\ occupied l' = occupied (slots g) /\ nitems g < length l'.
  Proof.
    intros Hc Hcl Hocc. pose proof (ideal_gt (nitems g)) as Hid. unfold resize_more. fold (ideal (nitems g)) in *.
    destruct (Nat.ltb_spec (nslots g) (ideal (nitems g))) as [Hlt|Hge].
    - destruct (g_rehash_ok g (ideal (nitems g)) Hc Hcl) as [l' [Hr [Hc' [Hlen [Hh Ho]]]]]; [lia|lia|].
      exists l'. rewrite Hlen. auto.
    - exists (slots g). unfold nslots in Hge. split; [destruct g; reflexivity|]. split; [exact Hc|].
      split; [intros x; reflexivity|]. split; [reflexivity|lia].
  Qed.

  (* GC_Resize_Less for ANY shrink condition (the generated one is never looked at): either the
     table is rebuilt at ideal(nitems) > nitems slots, or it is left alone.  As for gc_mark_ok, `Proof using`
     keeps the unused owns and spawns as arguments of the closed statement (here and in resize_less_ok). *)
  Lemma resize_less_tbl g : Tbl (slots g) (nitems g) -> Clear (slots g) ->
    exists l', resize_less hashf swap primes num den g = Some (set_slots g l') /\ Tbl l' (nitems g) /\
      (forall x, Holds l' x <-> Holds (slots g) x) /\ (length l' = 0 -> nslots g = 0).
  Proof using hashf swap primes num den owns spawns swap_le swap_ge ideal_gt.
    intros T Hcl. pose proof T as ((Hc & Hn) & _). unfold resize_less. cbv zeta.
    pose proof (ideal_gt (nitems g)) as Hid. fold (ideal (nitems g)) in *.
    match goal with |- context [if ?c then _ else _] => destruct c end.
    - destruct (g_rehash_ok g (ideal (nitems g)) Hc Hcl) as (l' & Hr & Hc' & Hlen & Hh & Ho); [lia|lia|].
      exists l'. split; [exact Hr|]. split; [|split; [exact Hh|lia]].
      split; [split; [exact Hc'|]|]; lia.
    - exists (slots g). destruct g. split; [reflexivity|]. split; [exact T|]. split; [reflexivity|exact (fun H => H)].
  Qed.

  Lemma resize_less_ok g : Inv g ->
    exists l', resize_less hashf swap primes num den g = Some (set_slots g l') /\ Inv (set_slots g l') /\
               (forall x, Holds l' x <-> Holds (slots g) x).
  Proof using hashf swap primes num den owns spawns swap_le swap_ge ideal_gt.
    intros [H Hcl]. destruct (resize_less_tbl g (InvM_tbl g H) Hcl) as (l' & Hr & T & Hh & _).
    exists l'. split; [exact Hr|]. split; [|exact Hh]. split; [|intros e He; apply Hcl, Hh, He].
    apply (InvM_sub (fun _ => False) g _ H); auto.
    - apply (Regs_sub (fun _ => False)). intros x. rewrite Hh. tauto.
    - intros q s. tauto.
  Qed.

  Local Notation gc_register' := (gc_register hashf swap primes num den).

  (* count, bounds, Resize_More, Set_Ptr for an address that is neither registered nor pending:
     total, keeps the invariant — also in the middle of a sweep (pending list not empty) *)
  Lemma gc_register_ok g p r ev : Inv g -> HAbsent (slots g) p -> ~ In (Some p) (pending g) ->
    (ev = EvAlloc p r \/ ev = EvSpawn p r) ->
    exists g3, gc_register' g p r ev = (g3, OOk) /\ Inv g3 /\ pending g3 = pending g /\
      running g3 = running g /\ nitems g3 = S (nitems g) /\
      (forall x, Holds (slots g3) x <-> Holds (slots g) x \/ x = mkE p r false).
  Proof.
    intros [H Hcl] Hfresh Hnp Hev. pose proof (inv_count g H) as Hcnt. unfold gc_register.
    set (g1 := set_bounds (set_nitems g (S (nitems g))) (N.min p (minptr g)) (N.max p (maxptr g))).
    destruct (resize_more_ok g1 (inv_core g H) Hcl) as [l2 [-> [Hc2 [Hh2 [Ho2 Hlen2]]]]]; [simpl; lia|].
    simpl in Hh2, Ho2, Hlen2. change (nslots (set_slots g1 l2)) with (length l2). change (slots (set_slots g1 l2)) with l2.
    destruct (Nat.eqb_spec (length l2) 0) as [|_]; [lia|].
    destruct (tbl_insert_absent N gentry N.eqb ptr swap (fun old _ => old) N.eqb_eq swap_le swap_ge home home_lt
                l2 (nitems g) (mkE p r false)) as (l3 & Hins & T3 & _ & Hh3);
      [split; [exact Hc2|lia]|exact Hlen2|intros e He; apply Hfresh, Hh2, He|].
    unfold rh_insert. cbn [ptr] in Hins. rewrite Hins.
    assert (Hh : forall x, Holds l3 x <-> Holds (slots g) x \/ x = mkE p r false) by (intros x; rewrite Hh3, Hh2; reflexivity).
    eexists. split; [reflexivity|]. split; [|split; [reflexivity|split; [reflexivity|split; [reflexivity|exact Hh]]]].
    split.
    - apply (InvM_add g _ p r H); simpl; auto.
      destruct Hev as [-> | ->]; reflexivity.
    - intros e He. apply Hh in He. destruct He as [He| ->]; [exact (Hcl e He)|reflexivity].
  Qed.

  Lemma gc_register_hd g p r ev g3 : gc_register' g p r ev = (g3, OOk) -> hd EvViol (evs g3) = ev.
  Proof.
    unfold gc_register. destruct (resize_more _ _ _ _ _ _) as [g2|]; [|discriminate].
    destruct (nslots g2 =? 0); [discriminate|]. destruct (rh_insert _ _ _ _) as [[sl b]|]; [|discriminate].
    intros [= <-]. reflexivity.
  Qed.

  (* destructors delete only addresses of a finite list, and never allocate one of them *)
  Variable olist : list N.
  Hypothesis olist_nodup : NoDup olist.
  Hypothesis owns_olist : forall q t, In t (owns q) -> In t olist.
  Hypothesis spawns_olist : forall q p r, In (p, r) (map dact_pair (spawns q)) -> ~ In p olist.

  (* an owned address that is still in the table or in the pending list *)
  Definition live (g : gc) (a : N) : bool := is_reg (slots g) a || is_pending a (pending g).
  Definition measureO (g : gc) : nat := length (filter (live g) olist).
  Definition Le (g' g : gc) : Prop := forall a, In a olist -> live g' a = true -> live g a = true.

  Lemma live_spec g a : live g a = true <-> (exists e, Holds (slots g) e /\ ptr e = a) \/ In (Some a) (pending g).
  Proof. unfold live. rewrite orb_true_iff, is_reg_spec, is_pending_spec. reflexivity. Qed.

  Lemma Le_measure g' g : Le g' g -> measureO g' <= measureO g.
  Proof. apply filter_length_mono. Qed.

  Lemma Lt_measure g' g p : Le g' g -> In p olist -> live g p = true -> live g' p = false ->
    measureO g' < measureO g.
  Proof.
    intros H Hin H1 H2. exact (filter_length_lt _ _ olist p H Hin H1 H2).
  Qed.

  Lemma Le_sub g' g : (forall e, Holds (slots g') e -> Holds (slots g) e \/ ~ In (ptr e) olist) ->
    (forall q, In (Some q) (pending g') -> In (Some q) (pending g)) -> Le g' g.
  Proof.
    intros Hs Hp a Ha. rewrite !live_spec. intros [[e [He Hpe]]|H]; [|right; auto].
    destruct (Hs e He) as [H1|H1]; [left; eauto|rewrite Hpe in H1; contradiction].
  Qed.

  (* there are no more live owned addresses than entries plus pending slots: the fuel `depth`
     of the model is enough *)
  Lemma measureO_bound g : InvM g -> measureO g <= nitems g + length (pending g).
  Proof.
    intros H. set (addr := fun x : option N => match x with Some q => q | None => 0%N end).
    apply Nat.le_trans with (length (map ptr (entries (slots g)) ++ map addr (pending g))).
    - apply NoDup_incl_length; [apply NoDup_filter; assumption|].
      intros a Ha. apply filter_In in Ha. destruct Ha as [_ Ha]. apply in_or_app.
      apply live_spec in Ha. destruct Ha as [[e [He <-]]|Ha]; [left|right].
      + apply in_map, in_entries, He.
      + exact (in_map addr _ _ Ha).
    - rewrite app_length, !map_length, (inv_count g H). reflexivity.
  Qed.

  Definition extra (p : N) : nat := if in_dec N.eq_dec p olist then 0 else 1.

  Lemma extra_in p : In p olist -> extra p = 0.
  Proof. intros H. unfold extra. destruct (in_dec N.eq_dec p olist); [reflexivity|contradiction]. Qed.

  (* what every operation issued from a destructor guarantees: the invariant, no new live owned
     address, a pending list of the same length *)
  Definition Next (g g' : gc) : Prop := Inv g' /\ Le g' g /\ length (pending g') = length (pending g).

  Lemma Next_refl g : Inv g -> Next g g.
  Proof. intros Hi. split; [exact Hi|split; [intros a _ Ha; exact Ha|reflexivity]]. Qed.

  Lemma Next_trans a b c : Next a b -> Next b c -> Next a c.
  Proof.
    intros [_ [L1 P1]] [I2 [L2 P2]]. split; [exact I2|split; [intros x Hx Hl; apply L1; auto|congruence]].
  Qed.

  Lemma ex_next_trans g g1 (X : option gc) : Next g g1 -> (exists g', X = Some g' /\ Next g1 g') ->
    exists g', X = Some g' /\ Next g g'.
  Proof. intros N1 [g' [HX N2]]. exists g'. split; [exact HX|eapply Next_trans; eauto]. Qed.

  Lemma Next_measure g g' : Next g g' -> measureO g' <= measureO g.
  Proof. intros [_ [L _]]. apply Le_measure, L. Qed.

  (* iterating an operation over a list, as dealloc(destruct(q)) does with deletions and allocations *)
  Lemma fold_next {A} (step : gc -> A -> option gc) g0 : forall xs,
    (forall g a, In a xs -> Next g0 g -> exists g', step g a = Some g' /\ Next g g') ->
    forall g, Next g0 g ->
      exists g', fold_left (fun og a => match og with Some g1 => step g1 a | None => None end) xs (Some g) = Some g'
                 /\ Next g0 g'.
  Proof.
    induction xs as [|a xs IH]; intros Hs g N; simpl; [eauto|].
    destruct (Hs g a (or_introl eq_refl) N) as [g1 [-> N1]].
    apply IH; [intros; apply Hs; simpl; auto|eapply Next_trans; eauto].
  Qed.

  (* an event the ledger ignores *)
  Lemma Next_log g e : match e with EvFin _ | EvViol => True | _ => False end -> Inv g -> Next g (log g e).
  Proof.
    intros He Hi. split; [|split; [intros a _ Ha; exact Ha|reflexivity]].
    apply (Inv_ext g); auto. destruct e; try contradiction; reflexivity.
  Qed.

  Lemma Inv_new_mitems g : Inv g -> Inv (new_mitems g).
  Proof. intros Hi. apply (Inv_ext g); auto. reflexivity. Qed.

  Local Notation spawn_set' := (spawn_set hashf swap primes num den).

  (* GC_Set called from a destructor: registers the object (unless the run leaves the model's
     scope, which is only flagged), keeps the invariant, adds no owned address *)
  Lemma spawn_set_ok g p r : Inv g -> ~ In p olist ->
    exists g', spawn_set' g (p, r) = Some g' /\ Next g g' /\
      (running g = true -> is_reg (slots g) p = false -> is_pending p (pending g) = false ->
       Reg g' p r /\ nitems g' = S (nitems g) /\ hd EvViol (evs g') <> EvViol \/ pending g = []).
  Proof.
    intros Hi Hno. unfold spawn_set.
    destruct (running g); cbn [negb]; [|exists g; split; [reflexivity|split; [apply Next_refl, Hi|discriminate]]].
    destruct (is_reg (slots g) p || is_pending p (pending g)) eqn:Hbusy.
    { exists (log g EvViol). split; [reflexivity|]. split; [apply (Next_log g EvViol I Hi)|].
      intros _ Hr Hp. rewrite Hr, Hp in Hbusy. discriminate. }
    apply orb_false_iff in Hbusy. destruct Hbusy as [Hr Hp].
    destruct (gc_register_ok g p r (EvSpawn p r) Hi) as [g3 [H3 [Hi3 [Hp3 [_ [Hn3 Hh3]]]]]];
      [apply is_reg_absent, Hr|rewrite <- is_pending_spec, Hp; discriminate|right; reflexivity|].
    rewrite H3, Hp3.
    assert (N3 : Next g g3).
    { split; [exact Hi3|split; [|rewrite Hp3; reflexivity]].
      apply Le_sub; [|rewrite Hp3; auto]. intros e He. apply Hh3 in He. destruct He as [He| ->]; auto. }
    destruct (pending g) eqn:Hpg.
    - destruct (mitems g3 <? nitems g3); eexists; (split; [reflexivity|split; [|auto]]); [|exact N3].
      eapply Next_trans; [exact N3|apply (Next_log g3 EvViol I Hi3)].
    - exists g3. split; [reflexivity|]. split; [exact N3|]. intros _ _ _. left.
      split; [exists (mkE p r false); split; [apply Hh3|]; auto|]. split; [exact Hn3|].
      rewrite (gc_register_hd _ _ _ _ _ H3). discriminate.
  Qed.

  Local Notation gc_rem' := (gc_rem hashf swap primes num den owns spawns rem_fin).
  Local Notation act_set' := (act_set hashf swap primes num den owns spawns).
  Local Notation finalise_with' := (finalise_with hashf swap primes num den owns spawns).

  Definition leaf (p : N) : Prop := owns p = [] /\ spawns p = [].

  (* enough nesting fuel: more than the live owned addresses (+1 for an address outside olist),
     or any fuel at all for an object whose destructor does nothing *)
  Definition fuel_ok (f : nat) (g : gc) (p : N) : Prop :=
    measureO g + extra p < f \/ (leaf p /\ 0 < f).

  Definition rem_good (f : nat) : Prop := forall g p, Inv g -> fuel_ok f g p ->
    exists g', gc_rem' f g p = Some g' /\ Inv g' /\ Le g' g /\
               length (pending g') = length (pending g).

  (* once p is gone from table and pending list, one owned address less is live *)
  Lemma fuel_dec f g g1 p : fuel_ok (S f) g p -> Le g1 g -> live g p = true -> live g1 p = false ->
    measureO g1 < f \/ leaf p.
  Proof.
    intros [Hm|[Hlf _]] Hl1 Hlp Hlp1; [left|right; exact Hlf].
    unfold extra in Hm. destruct (in_dec N.eq_dec p olist) as [Hin|Hnin].
    - pose proof (Lt_measure g1 g p Hl1 Hin Hlp Hlp1). lia.
    - pose proof (Le_measure _ _ Hl1). lia.
  Qed.

  (* the fuel `depth` of the model is enough for a removal *)
  Lemma depth_fuel g p f : InvM g -> depth g <= f -> fuel_ok f g p.
  Proof.
    intros H Hf. left. pose proof (measureO_bound g H). unfold depth in Hf. unfold extra.
    destruct (in_dec N.eq_dec p olist); lia.
  Qed.

  (* one allocation of a destructor; a temporary is deleted again by a nested GC_Rem, for which
     any positive fuel is enough because its own destructor does nothing *)
  Lemma act_set_ok f : rem_good f -> 0 < f -> forall g a, Inv g -> ~ In (fst (dact_pair a)) olist ->
    exists g', act_set' (gc_rem' f) g a = Some g' /\ Next g g'.
  Proof.
    intros Hg Hf g [p r|p r] Hi Hno; simpl in Hno; unfold act_set.
    - destruct (spawn_set_ok g p r Hi Hno) as [g' [Hs [N _]]]. eauto.
    - unfold temp_set. cbn [fst].
      destruct (owns p) eqn:Ho; [|exists (log g EvViol); split; [reflexivity|apply (Next_log g EvViol I Hi)]].
      destruct (spawns p) eqn:Hs; [|exists (log g EvViol); split; [reflexivity|apply (Next_log g EvViol I Hi)]].
      destruct (spawn_set_ok g p r Hi Hno) as [g1 [-> [N1 _]]].
      destruct (is_reg (slots g1) p && negb (is_reg (slots g) p)); [|eauto].
      eapply ex_next_trans; [exact N1|]. apply Hg; [apply N1|]. right. split; [split; assumption|exact Hf].
  Qed.

  Lemma finalise_ok f : rem_good f -> forall g q, Inv g -> (measureO g < f \/ leaf q) ->
    exists g', finalise_with hashf swap primes num den owns spawns (gc_rem' f) g q = Some g' /\ Inv g' /\ Le g' g /\
               length (pending g') = length (pending g).
  Proof.
    intros Hg g q Hi Hm. unfold finalise_with. pose proof (Next_log g (EvFin q) I Hi) as N0.
    destruct Hm as [Hm|[Ho Hs]]; [|rewrite Ho, Hs; eexists; split; [reflexivity|exact N0]].
    destruct (fold_next (gc_rem' f) g (owns q)) with (g := log g (EvFin q)) as [g1 [-> N1]]; [|exact N0|].
    { intros g1 t Ht N1. apply Hg; [apply N1|]. left.
      rewrite (extra_in t) by eauto. pose proof (Next_measure _ _ N1). lia. }
    apply (fold_next (act_set' (gc_rem' f)) g (spawns q)); [|exact N1].
    intros g2 a Ha N2. apply act_set_ok; [exact Hg|lia|apply N2|].
    destruct (dact_pair a) as [p r] eqn:Hd. apply (spawns_olist q p r). rewrite <- Hd. apply in_map, Ha.
  Qed.

  (* GC_Resize_Less and the new threshold, as they end GC_Rem and follow the compaction in GC_Sweep *)
  Lemma resize_less_next g : Inv g ->
    exists g2, resize_less hashf swap primes num den g = Some g2 /\ Next g (new_mitems g2).
  Proof.
    intros Hi. destruct (resize_less_ok g Hi) as [l' [-> [Hi2 Hh2]]]. eexists. split; [reflexivity|].
    split; [apply Inv_new_mitems, Hi2|split; [|reflexivity]].
    apply Le_sub; [intros e He; left; apply Hh2, He|auto].
  Qed.

  Lemma rem_tail g (X : option gc) : (exists g1, X = Some g1 /\ Next g g1) ->
    exists g', match X with
               | None => None
               | Some g1 => match resize_less hashf swap primes num den g1 with
                            | None => None
                            | Some g2 => Some (new_mitems g2)
                            end
               end = Some g' /\ Next g g'.
  Proof.
    intros [g1 [-> N1]]. destruct (resize_less_next g1 (proj1 N1)) as [g2 [-> N2]].
    eexists. split; [reflexivity|eapply Next_trans; eauto].
  Qed.

  (* GC_Rem_Ptr has logged the removal of p, which has left the table (or was not there) *)
  Lemma Next_rem g p l1 n1 pl : Inv g -> Tbl l1 n1 ->
    (forall x, Holds l1 x <-> Holds (slots g) x /\ ptr x <> p) -> n1 <= nitems g ->
    (forall q, In (Some q) pl -> In (Some q) (pending g)) -> length pl = length (pending g) ->
    Next g (mkGC l1 n1 (mitems g) (minptr g) (maxptr g) (running g) pl (EvRem p :: evs g)).
  Proof.
    intros [H Hcl] T Hh Hle Hp Hpl. split; [split|split; [|exact Hpl]].
    - apply (InvM_sub (fun q => q = p) g _ H); auto.
      + apply (Regs_sub (fun q => q = p)). exact Hh.
      + reflexivity.
    - intros e He. apply Hcl, Hh, He.
    - apply Le_sub; [intros e He; left; apply Hh, He|exact Hp].
  Qed.

  (* p is not in the table: only the log and the pending list change *)
  Lemma Next_rem_absent g p pl : Inv g -> HAbsent (slots g) p ->
    (forall q, In (Some q) pl -> In (Some q) (pending g)) -> length pl = length (pending g) ->
    Next g (set_pending (log g (EvRem p)) pl).
  Proof.
    intros Hi Ha. pose proof Hi as [H _].
    apply (Next_rem g p (slots g) (nitems g) pl Hi (InvM_tbl g H)); auto.
    intros x. split; [intros Hx; split; [exact Hx|exact (Ha x Hx)]|intros [Hx _]; exact Hx].
  Qed.

  (* p was live and is not any more: the fuel left is enough for its destructor *)
  Lemma finalise_next f g g1 p : rem_good f -> fuel_ok (S f) g p -> Next g g1 -> live g p = true -> live g1 p = false ->
    exists g2, finalise_with' (gc_rem' f) g1 p = Some g2 /\ Next g g2.
  Proof.
    intros IH Hm N1 Hl Hl1. eapply ex_next_trans; [exact N1|]. apply (finalise_ok f IH g1 p (proj1 N1)).
    eapply fuel_dec; eauto. apply N1.
  Qed.

  (* GC_Rem in any state with the invariant, nested removals and allocations of destructors included.
     Induction on the nesting fuel: in every branch p has left the table or the pending list before its
     destructor runs, so one owned address fewer is live (fuel_dec) and the induction hypothesis covers the
     nested removals (finalise_next) *)
  Theorem gc_rem_ok : forall f, rem_good f.
  Proof.
    induction f as [|f IH]; intros g p Hi Hm; [destruct Hm as [Hm|[_ Hm]]; lia|].
    cbn [gc_rem]. destruct (running g); cbn [negb]; [|exists g; split; [reflexivity|apply Next_refl, Hi]].
    apply rem_tail. pose proof Hi as [H Hcl]. set (gl := log g (EvRem p)).
    change (nslots gl) with (nslots g). change (pending gl) with (pending g).
    set (g0 := set_pending gl (null_out p (pending g))).
    destruct (Nat.eqb_spec (nslots g) 0) as [Hz|Hnz].
    { exists gl. split; [reflexivity|]. apply (Next_rem_absent g p (pending g) Hi); auto.
      intros e He. destruct (Holds_nslots g e He Hz). }
    assert (N0 : HAbsent (slots g) p -> Next g g0)
      by (intros Ha; apply (Next_rem_absent g p _ Hi Ha); [apply null_out_in|apply map_length]).
    destruct (is_pending p (pending g) && rem_fin) eqn:Hhit.
    - apply andb_prop in Hhit. destruct Hhit as [Hhit _]. apply is_pending_spec in Hhit.
      pose proof (inv_pend g H p Hhit) as Ha.
      apply (finalise_next f g g0 p IH Hm (N0 Ha)); [apply live_spec; right; exact Hhit|].
      unfold live. simpl. rewrite null_out_not_pending, orb_false_r. apply is_reg_absent, Ha.
    - change (slots g0) with (slots g). change (nslots g0) with (nslots g). change (nitems g0) with (nitems g).
      unfold nslots in *. destruct (Tbl_take _ _ p (InvM_tbl g H) Hnz) as [[i|] [-> Hres]]; [|exists g0; split; [reflexivity|exact (N0 Hres)]].
      destruct Hres as (e & l1 & He & Hpe & -> & T1 & _ & Hh1).
      apply (finalise_next f g _ p IH Hm).
      + apply (Next_rem g p l1 _ _ Hi T1 Hh1); [lia|apply null_out_in|apply map_length].
      + apply live_spec. left. exists e. auto.
      + unfold live. simpl. rewrite null_out_not_pending, orb_false_r. apply is_reg_absent. intros x Hx. apply Hh1, Hx.
  Qed.

  Local Notation fin_loop' := (fin_loop hashf swap primes num den owns spawns rem_fin null_first).

  Lemma fin_loop_ok d : rem_good d -> forall c k g, Inv g -> measureO g < d ->
    exists g', fin_loop' c k d g = Some g' /\ Next g g'.
  Proof.
    intros Hg. induction c as [|c IH]; intros k g Hi Hm; cbn [fin_loop]; [eauto using Next_refl|].
    destruct (nth k (pending g) None) as [q|]; [|apply IH; assumption].
    set (g1 := if null_first then set_pending g (upd_opt k (pending g)) else g).
    assert (N1 : Next g g1).
    { unfold g1. destruct null_first; [|apply Next_refl, Hi].
      split; [apply (Inv_ext g); auto; [apply upd_opt_in|reflexivity]|split; [|apply upd_opt_length]].
      apply Le_sub; [auto|apply upd_opt_in]. }
    pose proof (Next_measure _ _ N1). unfold finalise.
    destruct (finalise_ok d Hg g1 q (proj1 N1)) as [g2 [-> N2]]; [left; lia|].
    pose proof (Next_measure _ _ N2).
    eapply ex_next_trans; [eapply Next_trans; [exact N1|exact N2]|]. apply IH; [apply N2|lia].
  Qed.

  (* the state after the compaction and mark-clearing loops: the reclaimed entries wait in the
     pending list, so no owned address has become live *)
  Lemma Inv_compacted g l' rm m b : InvM g -> Swept (slots g) l' rm ->
    let g1 := mkGC (clear_marks l') (nitems g - length rm) m (minptr g) (maxptr g) b (pend_of rm)
                   (reclaim_evs rm ++ evs g) in
    Inv g1 /\ Le g1 g.
  Proof.
    intros H Hsw g1. pose proof Hsw as (_ & _ & Hh & Hrm & _). pose proof (PW_clear_marks l') as Hpw.
    assert (Hp : forall q, In (Some q) (pend_of rm) -> exists y, In y rm /\ ptr y = q).
    { intros q Hq. apply in_map_iff in Hq. destruct Hq as [y [[= <-] Hy]]. eauto. }
    split; [split; [|apply Clear_clear_marks]|].
    - apply (InvM_sub (fun q => In q (map ptr rm)) g _ H); simpl; auto.
      + exact (Tbl_swept _ _ _ _ (InvM_tbl g H) Hsw).
      + intros q s. rewrite (PW_regs _ _ q s Hpw). apply (Swept_regs _ _ _ (inv_core g H) Hsw).
      + intros q Hq. right. destruct (Hp q Hq) as [y [Hy <-]]. apply in_map, Hy.
      + intros q s. apply led_reclaim.
    - intros a _ Ha. apply live_spec. left. apply live_spec in Ha. destruct Ha as [[e [He <-]]|Ha].
      + destruct (PW_holds _ _ _ Hpw He) as [y [Hy [Hpy _]]]. exists y. split; [apply Hh, Hy|exact Hpy].
      + destruct (Hp a Ha) as [y [Hy Hpy]]. exists y. split; [apply Hrm, Hy|exact Hpy].
  Qed.

  Local Notation gc_sweep' := (gc_sweep hashf swap primes num den owns spawns rem_fin null_first).

  (* GC_Sweep from any marking: total, ends with the invariant and an empty pending list *)
  Theorem gc_sweep_ok g : InvM g -> Quiet g -> exists g', gc_sweep' g = Some g' /\ Inv g' /\ Quiet g'.
  Proof.
    intros H Hq. unfold gc_sweep.
    unfold nslots. destruct (sweep_loop_tbl _ _ [] (evs g) (InvM_tbl g H)) as [l' [rm [-> Hsw]]]. cbn [app].
    destruct (Inv_compacted g l' rm (mitems g) (running g) H Hsw) as [Hi1 Hl1].
    destruct (resize_less_next _ Hi1) as [g2 [-> N2]].
    destruct (fin_loop_ok (depth g) (gc_rem_ok (depth g)) (length (pend_of rm)) 0 (new_mitems g2) (proj1 N2))
      as [g3 [-> [Hi3 _]]].
    { pose proof (Next_measure _ _ N2). apply Le_measure in Hl1. pose proof (measureO_bound g H).
      unfold depth. lia. }
    eexists. split; [reflexivity|]. split; [|reflexivity]. apply (Inv_ext g3); auto; [intros q []|reflexivity].
  Qed.

  Local Notation collect' := (collect hashf swap primes num den owns spawns rem_fin null_first).
  Local Notation gc_set' := (gc_set hashf swap primes num den owns spawns rem_fin null_first).
  Local Notation gc_step' := (gc_step hashf swap primes num den owns spawns rem_fin null_first).
  Local Notation gc_run' := (gc_run hashf swap primes num den owns spawns rem_fin null_first).

  Lemma collect_ok g ws : Inv g -> Quiet g -> exists g', collect' g ws = (g', OOk) /\ Inv g' /\ Quiet g'.
  Proof.
    intros [H Hcl] Hq. unfold collect.
    destruct (gc_mark_ok g ws (InvM_tbl g H)) as [g1 [-> [Hpw Hsr]]].
    destruct (gc_sweep_ok g1) as [g2 [-> Hg2]]; [eapply InvM_PW; eauto| |eauto].
    unfold Quiet. destruct Hsr as [_ [_ [_ [_ [_ [-> _]]]]]]. exact Hq.
  Qed.

  (* GC_Set of an address that is not registered *)
  Theorem gc_set_ok g p r ws : Inv g -> Quiet g -> (running g = true -> HAbsent (slots g) p) ->
    exists g', gc_set' g p r ws = (g', OOk) /\ Inv g' /\ Quiet g'.
  Proof.
    intros Hi Hq Hfresh. unfold gc_set.
    destruct (running g) eqn:Hrun; cbn [negb]; [|exists g; auto].
    destruct (gc_register_ok g p r (EvAlloc p r) Hi (Hfresh eq_refl)) as [g3 [-> [Hi3 [Hp3 _]]]];
      [rewrite Hq; intros []|left; reflexivity|].
    assert (Hq3 : Quiet g3) by (unfold Quiet; rewrite Hp3; exact Hq).
    destruct (mitems g3 <? nitems g3); [apply collect_ok; assumption|exists g3; auto].
  Qed.

  (* the allocator's contract: it never returns an address that is still registered *)
  Definition admissible (g : gc) (o : op) : Prop :=
    match o with
    | OAlloc p _ _ => running g = true -> HAbsent (slots g) p
    | _ => True
    end.

  Theorem gc_step_ok g o : Inv g -> Quiet g -> admissible g o ->
    exists g' out, gc_step' g o = (g', out) /\ out <> OFuel /\ out <> OCrash /\ Inv g' /\ Quiet g' /\
      (forall p, o = OMem p -> out = OBool true <-> exists s, Reg g p s).
  Proof.
    intros Hi Hq Ha. pose proof Hi as [H Hcl].
    (* the operations that change the state return OOk *)
    assert (Hok : forall r, (forall p, o <> OMem p) -> (exists g', r = (g', OOk) /\ Inv g' /\ Quiet g') ->
              exists g' out, r = (g', out) /\ out <> OFuel /\ out <> OCrash /\ Inv g' /\ Quiet g' /\
                (forall p, o = OMem p -> out = OBool true <-> exists s, Reg g p s)).
    { intros r Hno [g' [-> [Hi' Hq']]]. exists g', OOk. split; [reflexivity|]. split; [discriminate|]. split; [discriminate|].
      split; [exact Hi'|]. split; [exact Hq'|]. intros p Hp. destruct (Hno p Hp). }
    assert (HQ : forall g', length (pending g') = length (pending g) -> Quiet g').
    { intros g' Hp'. apply length_zero_iff_nil. rewrite Hp', Hq. reflexivity. }
    destruct o as [p r ws|p|p|ws| | | |p]; cbn [gc_step]; try (apply Hok; [discriminate|]).
    - apply gc_set_ok; assumption.
    - destruct (gc_rem_ok (depth g) g p Hi (depth_fuel g p _ H (le_n _))) as [g' [-> [Hi' [_ Hp']]]]. eauto.
    - unfold finalise. pose proof (measureO_bound g H).
      destruct (finalise_ok (depth g) (gc_rem_ok (depth g)) g p Hi) as [g' [-> [Hi' [_ Hp']]]];
        [left; unfold depth; lia|eauto].
    - apply collect_ok; assumption.
    - destruct (gc_sweep_ok g H Hq) as [g' [-> Hg']]. eauto.
    - eexists. split; [reflexivity|]. split; [apply (Inv_ext g); auto; reflexivity|exact Hq].
    - eexists. split; [reflexivity|]. split; [apply (Inv_ext g); auto; reflexivity|exact Hq].
    - destruct (gc_mem_ok g p H) as [b [-> Hbs]].
      exists g, (OBool b). split; [reflexivity|]. split; [discriminate|]. split; [discriminate|].
      split; [exact Hi|]. split; [exact Hq|]. intros p0 [= <-]. rewrite <- Hbs. split; congruence.
  Qed.

  Fixpoint adm_run (ops : list op) (g : gc) : Prop :=
    match ops with
    | [] => True
    | o :: r => admissible g o /\ adm_run r (fst (gc_step' g o))
    end.

  Theorem gc_run_ok : forall ops g, Inv g -> Quiet g -> adm_run ops g ->
    Inv (gc_run' ops g) /\ Quiet (gc_run' ops g).
  Proof.
    induction ops as [|o ops IH]; intros g Hi Hq Ha; [split; assumption|].
    destruct Ha as [Ha Har]. unfold gc_run. cbn [fold_left].
    destruct (gc_step_ok g o Hi Hq Ha) as [g' [out [Hs [_ [_ [Hi' [Hq' _]]]]]]].
    rewrite Hs in *. apply IH; assumption.
  Qed.

End RP.

(* the capacity rule of the registry always leaves a free slot: GC_Ideal_Size(n) > n *)
Lemma gc_ideal_gt : forall n : nat, n < ideal_size gc_primes gc_load_num gc_load_den n.
Proof. apply ideal_size_gt; vm_compute; reflexivity. Qed.

(* gc_swap is generated, `p <=? j` or `p <? j` as the source has it: bdestr splits on every comparison of
   naturals in the goal and the hypotheses, whichever it is *)
Ltac bdestr :=
  repeat match goal with
  | |- context [?a <=? ?b] => destruct (Nat.leb_spec a b)
  | |- context [?a <? ?b] => destruct (Nat.ltb_spec a b)
  | |- context [?a =? ?b] => destruct (Nat.eqb_spec a b)
  | H : context [?a <=? ?b] |- _ => destruct (Nat.leb_spec a b)
  | H : context [?a <? ?b] |- _ => destruct (Nat.ltb_spec a b)
  | H : context [?a =? ?b] |- _ => destruct (Nat.eqb_spec a b)
  end.

Lemma gc_swap_le j p : gc_swap j p = true -> p <= j.
Proof. unfold gc_swap. intros H. bdestr; lia. Qed.

Lemma gc_swap_ge j p : gc_swap j p = false -> j <= p.
Proof. unfold gc_swap. intros H. bdestr; lia. Qed.

(* what destructors do: the addresses they delete, the (address, root flag) they allocate
   afterwards, and a finite list bounding what may be deleted *)
Record dtors := mkD { d_owns : N -> list N; d_spawns : N -> list dact; d_olist : list N }.

(* no destructor allocates an address that a destructor may delete *)
Definition dtors_ok (d : dtors) : Prop :=
  NoDup (d_olist d) /\ (forall q t, In t (d_owns d q) -> In t (d_olist d)) /\
  (forall q p r, In (p, r) (map dact_pair (d_spawns d q)) -> ~ In p (d_olist d)).

Definition Gstep (hashf : N -> N) (d : dtors) (rf nf : bool) :=
  gc_step hashf gc_swap gc_primes gc_load_num gc_load_den (d_owns d) (d_spawns d) rf nf.
Definition Grun (hashf : N -> N) (d : dtors) (rf nf : bool) :=
  gc_run hashf gc_swap gc_primes gc_load_num gc_load_den (d_owns d) (d_spawns d) rf nf.
Definition Gadm (hashf : N -> N) (d : dtors) (rf nf : bool) :=
  adm_run hashf gc_swap gc_primes gc_load_num gc_load_den (d_owns d) (d_spawns d) rf nf.
Definition Gsweep (hashf : N -> N) (d : dtors) (rf nf : bool) :=
  gc_sweep hashf gc_swap gc_primes gc_load_num gc_load_den (d_owns d) (d_spawns d) rf nf.
Definition Grem (hashf : N -> N) (d : dtors) (rf : bool) :=
  gc_rem hashf gc_swap gc_primes gc_load_num gc_load_den (d_owns d) (d_spawns d) rf.
Definition Gspawn (hashf : N -> N) :=
  spawn_set hashf gc_swap gc_primes gc_load_num gc_load_den.
Definition Gact (hashf : N -> N) (d : dtors) (rf : bool) (f : nat) :=
  act_set hashf gc_swap gc_primes gc_load_num gc_load_den (d_owns d) (d_spawns d) (Grem hashf d rf f).

Theorem registry_step_thm : forall hashf d rf nf g o, dtors_ok d ->
  Inv hashf g -> Quiet g -> admissible g o ->
  exists g' out, Gstep hashf d rf nf g o = (g', out) /\ out <> OFuel /\ out <> OCrash /\
    Inv hashf g' /\ Quiet g' /\
    (forall p, o = OMem p -> out = OBool true <-> exists s, Reg g p s).
Proof.
  intros hashf d rf nf g o [H1 [H2 H3]].
  exact (gc_step_ok hashf gc_swap gc_primes gc_load_num gc_load_den (d_owns d) (d_spawns d) rf nf
           gc_swap_le gc_swap_ge gc_ideal_gt (d_olist d) H1 H2 H3 g o).
Qed.

Theorem registry_history_thm : forall hashf d rf nf ops, dtors_ok d ->
  Gadm hashf d rf nf ops gc_init ->
  Inv hashf (Grun hashf d rf nf ops gc_init) /\ Quiet (Grun hashf d rf nf ops gc_init).
Proof.
  intros hashf d rf nf ops [H1 [H2 H3]] Ha. destruct (Inv_init hashf).
  apply (gc_run_ok hashf gc_swap gc_primes gc_load_num gc_load_den (d_owns d) (d_spawns d) rf nf
           gc_swap_le gc_swap_ge gc_ideal_gt (d_olist d) H1 H2 H3); assumption.
Qed.

Theorem sweep_total_thm : forall hashf d rf nf g, dtors_ok d -> InvM hashf g -> Quiet g ->
  exists g', Gsweep hashf d rf nf g = Some g' /\ Inv hashf g' /\ Quiet g'.
Proof.
  intros hashf d rf nf g [H1 [H2 H3]].
  exact (gc_sweep_ok hashf gc_swap gc_primes gc_load_num gc_load_den (d_owns d) (d_spawns d) rf nf
           gc_swap_le gc_swap_ge gc_ideal_gt (d_olist d) H1 H2 H3 g).
Qed.

Lemma Gadm_app hashf d rf nf : forall a b g, Gadm hashf d rf nf (a ++ b) g ->
  Gadm hashf d rf nf a g /\ Gadm hashf d rf nf b (Grun hashf d rf nf a g).
Proof.
  induction a as [|o a IH]; intros b g H; [split; [exact I | exact H]|].
  destruct H as [H1 H2]. destruct (IH b _ H2) as [H3 H4]. split; [split; assumption | exact H4].
Qed.

Definition admb (g : gc) (o : op) : bool :=
  match o with
  | OAlloc p _ _ => negb (running g) || negb (is_reg (slots g) p)
  | _ => true
  end.

Lemma admb_ok g o : admb g o = true -> admissible g o.
Proof.
  destruct o; simpl; auto. intros H Hrun. rewrite Hrun in H. apply is_reg_absent, negb_true_iff, H.
Qed.

Fixpoint adm_runb (hashf : N -> N) (d : dtors) (rf nf : bool) (ops : list op) (g : gc) : bool :=
  match ops with
  | [] => true
  | o :: r => admb g o && adm_runb hashf d rf nf r (fst (Gstep hashf d rf nf g o))
  end.

Lemma adm_runb_ok hashf d rf nf ops : forall g, adm_runb hashf d rf nf ops g = true -> Gadm hashf d rf nf ops g.
Proof.
  induction ops as [|o ops IH]; intros g H; simpl in *; [exact I|].
  apply andb_prop in H. destruct H as [H1 H2]. split; [apply admb_ok; assumption|apply IH; assumption].
Qed.

Definition ex_hash (p : N) : N := N.shiftr p 3.
(* object 8 owns 16 and 24; object 16 owns 8 (a cycle); everything else owns nothing *)
Definition ex_owns (p : N) : list N :=
  if N.eqb p 8 then [16; 24]%N else if N.eqb p 16 then [8]%N else [].
(* the destructor of 8 also allocates a managed object at 4096 (outside the address window so
   far, home colliding modulo 5), a temporary at 4112 that it deletes at once, and a root at 4104 *)
Definition ex_spawns (p : N) : list dact :=
  if N.eqb p 8 then [DSpawn 4096 false; DTemp 4112 false; DSpawn 4104 true]%N else [].
Definition ex_d : dtors := mkD ex_owns ex_spawns [8; 16; 24]%N.

Lemma ex_d_ok : dtors_ok ex_d.
Proof.
  split; [|split].
  - repeat constructor; simpl; intuition discriminate.
  - intros q t. unfold ex_d, ex_owns; simpl. destruct (N.eqb q 8); [simpl; intuition|].
    destruct (N.eqb q 16); simpl; intuition.
  - intros q p r. unfold ex_d, ex_spawns; simpl. destruct (N.eqb q 8); simpl; [|tauto].
    intros [H|[H|[H|[]]]]; injection H as <- <-; intuition discriminate.
Qed.

(* allocations colliding modulo 5 (homes 1,1,1), a collection that reclaims 8 and 16 whose
   destructors delete a pending object and the marked survivor 24 from inside the sweep, an
   explicit deletion, re-use of a freed address, a root *)
Definition ex_ops : list op :=
  [OAlloc 8 false [8]; OAlloc 48 false [8; 48]; OAlloc 88 false [8; 48; 88];
   OAlloc 16 false [8; 48; 88; 16]; OAlloc 24 false [8; 48; 88; 16; 24];
   OMem 48; OCollect [24; 48; 88]; OMem 24; ORem 48; OAlloc 48 true [48; 88]; OStop; OAlloc 56 false [];
   OStart; OCollect []; OMem 48; OMem 88]%N.

(* the precondition on allocations is needed: registering an address twice breaks the count *)
Definition bad_ops : list op := [OAlloc 8 false [8]; OAlloc 8 false [8]]%N.

(* membership in a concrete event log is decided by evaluation *)
Definition event_eq_dec (a b : event) : {a = b} + {a <> b}.
Proof. decide equality; (apply N.eq_dec || apply Bool.bool_dec). Defined.

Lemma logged e l : (if in_dec event_eq_dec e l then true else false) = true -> In e l.
Proof. destruct (in_dec event_eq_dec e l); [trivial|discriminate]. Qed.

Lemma not_logged e l : (if in_dec event_eq_dec e l then true else false) = false -> ~ In e l.
Proof. destruct (in_dec event_eq_dec e l); [discriminate|trivial]. Qed.
