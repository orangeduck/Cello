(* SeqTheorems.v — the closed statements of property C04, assembled from SeqProofs.v (Array, List,
   specification facts), SortProofs.v (quicksort), SeqTupleProofs.v (Tuple) and SeqAccessProofs.v (reads,
   raising steps), with the comparisons of SeqCmps.v and the capacity
   rules of Array_Reserve_More/Less taken from Generated.v. *)
From Coq Require Import List Arith Bool ZArith Lia Permutation Sorted.
From CelloV Require Import Generated SeqModels SeqCmps SeqProofs SortProofs SeqTupleProofs SeqAccessProofs.
Import ListNotations.

Section Main.
  Variable E : Type.
  Variable eqb ltb same : E -> E -> bool.
  Variable zero : E.

  Notation a_stepG := (a_step E eqb ltb array_grow_cond array_shrink_cond array_grow_size array_shrink_size).

  Section WithOrder.
    (* the function handed to sort_by is asymmetric and transitive (a strict order such as lt) *)
    Hypothesis ltb_asym : forall x y, ltb x y = true -> ltb y x = false.
    Hypothesis ltb_trans : forall x y z, ltb x y = true -> ltb y z = true -> ltb x z = true.

    Theorem array_refines_list_all : forall (ops : list (sop E)) (a : array E),
      a_inv E a ->
      refines_all E eqb ltb zero (array E) a_stepG (a_abs E) (a_inv E) KArray (fun _ _ => True) a ops.
    Proof.
      apply refines_all_lift. intros s o Hs _.
      exact (a_step_ok E eqb ltb zero _ _ _ _ array_grow_ok array_shrink_ok
                      (qsort_correct E ltb ltb_asym ltb_trans) s o Hs).
    Qed.

    Theorem array_refines_list : forall (ops : list (sop E)) (a : array E),
      a_inv E a ->
      refines E eqb ltb zero (array E) a_stepG (a_abs E) (a_inv E) KArray (fun _ _ => True) a ops.
    Proof. intros ops a Ha. apply refines_all_refines, array_refines_list_all, Ha. Qed.

    (* Tuple: `same` reflexive, eq symmetric; that pointers are pairwise distinct (finding F3 excluded) is part
       of t_inv *)
    Hypothesis same_refl : forall x, same x x = true.
    Hypothesis eqb_sym : forall x y, eqb x y = eqb y x.

    Theorem tuple_refines_list_all : forall (ops : list (sop E)) (t : tuple E),
      t_inv E same t ->
      refines_all E eqb ltb zero (tuple E) (t_step E eqb ltb same) (t_abs E) (t_inv E same) KTuple
                  (t_fresh E same) t ops.
    Proof.
      apply refines_all_lift. exact (t_step_ok E eqb ltb same zero same_refl eqb_sym (qsort_correct E ltb ltb_asym ltb_trans)).
    Qed.

    Theorem tuple_refines_list : forall (ops : list (sop E)) (t : tuple E),
      t_inv E same t ->
      refines E eqb ltb zero (tuple E) (t_step E eqb ltb same) (t_abs E) (t_inv E same) KTuple
              (t_fresh E same) t ops.
    Proof. intros ops t Ht. apply refines_all_refines, tuple_refines_list_all, Ht. Qed.

    Theorem tuple_observe (t : tuple E) :
      t_inv E same t -> t_len E t = Some (length (t_abs E t)) /\ t_iter E same t = Ok (t_abs E t).
    Proof. exact (t_observe E same same_refl t). Qed.
  End WithOrder.

  Theorem list_refines_list_all : forall (ops : list (sop E)) (l : llist E),
    l_inv E l ->
    refines_all E eqb ltb zero (llist E) (l_step E eqb zero) (l_abs E) (l_inv E) KList (fun _ _ => True) l ops.
  Proof. apply refines_all_lift. intros s o Hs _. apply l_step_ok, Hs. Qed.

  Theorem list_refines_list : forall (ops : list (sop E)) (l : llist E),
    l_inv E l ->
    refines E eqb ltb zero (llist E) (l_step E eqb zero) (l_abs E) (l_inv E) KList (fun _ _ => True) l ops.
  Proof. intros ops l Hl. apply refines_all_refines, list_refines_list_all, Hl. Qed.

  (* finding F3: the excluded case does fail *)
  Theorem tuple_repeated_pointer_refuted (p : E) :
    same p p = true ->
    forall fuel, t_iter_fuel E same fuel (mkTu E [TObj E p; TObj E p; TTerm E] true) = Fuel.
  Proof. exact (t_iter_repeated E same p). Qed.
End Main.

(* sort for a total preorder leq: sort() hands over lt, i.e. x < y := not (y <= x) *)
Section TotalPreorder.
  Variable E : Type.
  Variable leq : E -> E -> bool.
  Hypothesis leq_total : forall x y, leq x y = true \/ leq y x = true.
  Hypothesis leq_trans : forall x y z, leq x y = true -> leq y z = true -> leq x z = true.

  Definition lt_of (x y : E) : bool := negb (leq y x).

  Lemma StronglySorted_impl (R S : E -> E -> Prop) l :
    (forall x y, R x y -> S x y) -> StronglySorted R l -> StronglySorted S l.
  Proof.
    intros H. induction 1 as [|a l Hs IH Hf]; constructor; auto.
    eapply Forall_impl; [|exact Hf]. auto.
  Qed.

  Theorem sort_perm_sorted : forall xs : list E,
    exists ys, qsort lt_of xs = Ok ys /\ Permutation xs ys /\
               StronglySorted (fun x y => leq x y = true) ys /\
               Sorted (fun x y => leq x y = true) ys.
  Proof.
    intros xs.
    assert (Hasym : forall x y, lt_of x y = true -> lt_of y x = false).
    { unfold lt_of. intros x y H. destruct (leq_total x y) as [->|H1]; [reflexivity | rewrite H1 in H; discriminate]. }
    assert (Htrans : forall x y z, lt_of x y = true -> lt_of y z = true -> lt_of x z = true).
    { unfold lt_of. intros x y z H1 H2. destruct (leq z x) eqn:Ezx; [|reflexivity].
      destruct (leq_total x y) as [H3|H3]; [rewrite (leq_trans z x y Ezx H3) in H2 | rewrite H3 in H1]; discriminate. }
    destruct (qsort_correct E lt_of Hasym Htrans xs) as (ys & H1 & H2 & H3).
    exists ys. split; [exact H1|]. split; [exact H2|].
    assert (Hs : StronglySorted (fun x y => leq x y = true) ys).
    { eapply StronglySorted_impl; [|exact H3]. unfold lt_of. intros x y H.
      destruct (leq x y); [reflexivity | discriminate]. }
    split; [exact Hs | apply StronglySorted_Sorted; exact Hs].
  Qed.
End TotalPreorder.

Section Corollaries.
  Variable E : Type.

  Theorem array_invariant_capacity (a : array E) :
    a_inv E a -> nitems E a <= nslots E a /\ length (cells E a) = nslots E a.
  Proof.
    intros (vs & rest & Hc & Hn & Hl). split; [|exact Hl].
    rewrite <- Hl, Hc, app_length, map_length. lia.
  Qed.
End Corollaries.

(* witnesses on the pre-repair variants of the models (DESIGN section 8 D13, D14, D15) *)
Section PreRepair.
  Local Open Scope Z_scope.
  (* D13: a failed push_at left the Array one element longer *)
  Theorem array_push_at_pre_repair_refuted :
    exists (a : array Z) (k v : Z),
      in_range Z Z.eqb KArray (a_abs Z a) (SPushAt Z k v) = false /\
      snd (a_push_at_old Z array_grow_cond array_grow_size a k v) = ORaise Z IndexError /\
      nitems Z (fst (a_push_at_old Z array_grow_cond array_grow_size a k v)) = S (nitems Z a).
  Proof. exists (a_new Z [1; 2; 3]), 7, 9. vm_compute. repeat split. Qed.

  (* D14: pop_at on a stack Tuple raised ValueError after the element was gone *)
  Theorem tuple_pop_at_pre_repair_refuted :
    exists (t : tuple Z) (k : Z),
      theap Z t = false /\
      snd (t_pop_at_old Z t 3 k) = ORaise Z ValueError /\
      t_abs Z (fst (t_pop_at_old Z t 3 k)) <> t_abs Z t.
  Proof.
    exists (t_new Z [1; 2; 3] false), 0. vm_compute. repeat split. intros H. discriminate H.
  Qed.

  (* D15: rem of an absent element was silent *)
  Theorem tuple_rem_pre_repair_refuted :
    exists (t : tuple Z) (v : Z),
      in_range Z Z.eqb KTuple (t_abs Z t) (SRem Z v) = false /\
      snd (t_rem_old Z Z.eqb t 3 v) = OUnit Z.
  Proof. exists (t_new Z [1; 2; 3] true), 9. vm_compute. repeat split. Qed.
End PreRepair.

Section Access.
  Variable E : Type.
  Variable eqb ltb same : E -> E -> bool.
  Variable zero : E.
  Variables gc sc : nat -> nat -> bool.
  Variables gs ss : nat -> nat -> nat.

  Theorem reads_never_disturb (ops : list (sop E)) :
    (forall a : array E,
       final E _ (a_step E eqb ltb gc sc gs ss) a ops =
         final E _ (a_step E eqb ltb gc sc gs ss) a (filter (is_write E) ops) /\
       filter (fun p => is_write E (fst p)) (trace E _ (a_step E eqb ltb gc sc gs ss) a ops) =
         trace E _ (a_step E eqb ltb gc sc gs ss) a (filter (is_write E) ops)) /\
    (forall l : llist E,
       final E _ (l_step E eqb zero) l ops = final E _ (l_step E eqb zero) l (filter (is_write E) ops) /\
       filter (fun p => is_write E (fst p)) (trace E _ (l_step E eqb zero) l ops) =
         trace E _ (l_step E eqb zero) l (filter (is_write E) ops)) /\
    (forall t : tuple E,
       final E _ (t_step E eqb ltb same) t ops = final E _ (t_step E eqb ltb same) t (filter (is_write E) ops) /\
       filter (fun p => is_write E (fst p)) (trace E _ (t_step E eqb ltb same) t ops) =
         trace E _ (t_step E eqb ltb same) t (filter (is_write E) ops)).
  Proof.
    split; [|split]; intros s; apply reads_do_not_disturb.
    - apply a_read_pure.
    - apply l_read_pure.
    - apply t_read_pure.
  Qed.
End Access.

(* the comparisons the harness hands to sort_by that are asymmetric and transitive (lt, gt, by absolute
   value, by a key with ties, never) satisfy the hypotheses of the sort theorem *)
Theorem driver_comparisons_in_contract (k : nat) :
  cmp_in_contract k = true ->
  (forall a b, e_cmp k a b = true -> e_cmp k b a = false) /\
  (forall a b c, e_cmp k a b = true -> e_cmp k b c = true -> e_cmp k a c = true).
Proof.
  unfold e_cmp. destruct k as [|[|[|[|[|[|[|k]]]]]]]; simpl; intros Hc; try discriminate Hc; split; intros;
    try discriminate; try reflexivity;
    repeat match goal with H : (_ <? _)%Z = true |- _ => apply Z.ltb_lt in H end;
    try (apply Z.ltb_ge); try (apply Z.ltb_lt); lia.
Qed.
