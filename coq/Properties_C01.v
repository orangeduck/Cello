(* Properties_C01.v — property C01: the collector never reclaims a reachable object and every
   collection terminates.  The statements, each followed by Print Assumptions.  The general theorems are
   instances of those of MarkSweepProofs.v / GCGlue.v; the concrete examples and refutations over the abstract
   registry carry their witnesses here, checked by computation (the example over C17's registry is proved in
   GCGlue.v).
   The switches gc_tls_recurses / gc_mar_guarded come from Generated.v (read off src/GC.c). *)
From CelloV Require Import Generated RobinHood RobinHoodProofs RegistryModel RegistryProofs HeapGraph MarkSweep MarkSweepProofs MarkSource GCGlue.

(* the model's two switches and the transcribed function bodies agree with the C text *)
Theorem mark_model_matches_source :
  gc_mark_shape_ok = true /\ gc_tls_recurses = true /\ gc_mar_guarded = true.
Proof. exact MarkSource.source_switches. Qed.
Print Assumptions mark_model_matches_source.

(* GC_Recurse has no early exit besides the leaf-type one, and the decision tables of GC_Mark_Item,
   GC_Mark_And_Recurse and the root loop of GC_Mark (read off the source, symbolically where the code is loop
   free) equal the model's — no nesting-depth cap, no skipped case (the mark phase of the model has no depth
   bound; the depth the C code can reach is limited by the C stack only: modelled-not-verified, finding F1) *)
Theorem tracer_has_no_other_exit : gc_recurse_returns = 2 /\ gc_mark_shape_ok = true.
Proof. exact MarkSource.source_tracer_exits. Qed.
Print Assumptions tracer_has_no_other_exit.

(* the internal objects of heap Zip / Slice / Range are allocated with new (managed), so containers held only by
   such a view are reachable in the sense of the theorems: view -> internal Tuple / Range -> inputs *)
Theorem view_internals_are_managed : view_internals_registered = true.
Proof. exact MarkSource.source_view_internals. Qed.
Print Assumptions view_internals_are_managed.

Theorem threshold_model_matches_source : gc_threshold_shape_ok = true /\ gc_finaliser_alloc_widens = true.
Proof. exact MarkSource.source_threshold. Qed.
Print Assumptions threshold_model_matches_source.

(* after the mark phase every registered object reachable from the TLS values, the
   root-flagged entries or the stack words is marked — any heap, any fuel that sufficed *)
Theorem mark_complete : forall h rg minptr maxptr order tls stack fuel m',
  range_ok rg minptr maxptr -> order_ok rg order ->
  mark gc_tls_recurses gc_mar_guarded h rg minptr maxptr fuel order tls stack nempty = Ok m' ->
  forall q, registered rg q = true -> reach h rg tls stack q -> marked m' q = true.
Proof.
  exact (fun h rg minptr maxptr order tls stack fuel m' Hr Ho Hm q Hq Hre =>
           proj2 (MarkSweepProofs.mark_exact_thm h rg minptr maxptr order tls stack fuel m' Hr Ho Hm q)
                 (conj Hq (or_intror Hre))).
Qed.
Print Assumptions mark_complete.

(* the sweep frees exactly the unmarked non-root entries, each once *)
Theorem sweep_frees_only_unmarked_nonroot : forall rg order m rg' fin,
  sweep rg order m = (rg', fin) ->
  (forall p, In p fin <-> In p order /\ registered rg p = true /\ is_root rg p = false /\ marked m p = false) /\
  (forall p, registered rg' p = true <-> registered rg p = true /\ ~ In p fin) /\
  (NoDup order -> NoDup fin).
Proof. exact MarkSweepProofs.sweep_spec. Qed.
Print Assumptions sweep_frees_only_unmarked_nonroot.

(* the fuel the model supplies is never exhausted and nothing crashes: every collection
   runs to completion (raw_wf excludes only cycles among RAW objects behind Tuple items) *)
Theorem mark_fuel_adequate : forall h rg minptr maxptr order tls stack,
  range_ok rg minptr maxptr -> order_ok rg order -> wf h rg tls -> raw_wf h rg ->
  exists m', mark gc_tls_recurses gc_mar_guarded h rg minptr maxptr (fuel_of h rg order) order tls stack nempty = Ok m'.
Proof. exact MarkSweepProofs.mark_fuel_adequate_thm. Qed.
Print Assumptions mark_fuel_adequate.

(* the property: a collection terminates, frees no registered object that is reachable,
   keeps every root-flagged entry, frees only registered non-root entries, each once *)
Theorem collect_safe : forall h rg minptr maxptr order tls stack,
  range_ok rg minptr maxptr -> order_ok rg order -> wf h rg tls -> raw_wf h rg ->
  exists rg' fin,
    collect gc_tls_recurses gc_mar_guarded h rg minptr maxptr (fuel_of h rg order) order tls stack = Ok (rg', fin) /\
    (forall p, registered rg p = true -> reach h rg tls stack p -> ~ In p fin /\ registered rg' p = true) /\
    (forall p, is_root rg p = true -> ~ In p fin /\ registered rg' p = true) /\
    (forall p, In p fin -> registered rg p = true /\ is_root rg p = false) /\
    NoDup fin.
Proof. exact MarkSweepProofs.collect_safe_thm. Qed.
Print Assumptions collect_safe.

(* exactness of the model (it does not over-approximate): marked = registered and (root-flagged
   or reachable); freed = registered, not root-flagged, not reachable.  Hence the marks the
   extracted model prints in the correspondence runs ARE the reachable set of the theorems. *)
Theorem mark_exact : forall h rg minptr maxptr order tls stack fuel m',
  range_ok rg minptr maxptr -> order_ok rg order ->
  mark gc_tls_recurses gc_mar_guarded h rg minptr maxptr fuel order tls stack nempty = Ok m' ->
  forall q, marked m' q = true <->
            registered rg q = true /\ (is_root rg q = true \/ reach h rg tls stack q).
Proof. exact MarkSweepProofs.mark_exact_thm. Qed.
Print Assumptions mark_exact.

Theorem collect_exact : forall h rg minptr maxptr order tls stack fuel rg' fin,
  range_ok rg minptr maxptr -> order_ok rg order ->
  collect gc_tls_recurses gc_mar_guarded h rg minptr maxptr fuel order tls stack = Ok (rg', fin) ->
  forall p, In p fin <-> registered rg p = true /\ is_root rg p = false /\ ~ reach h rg tls stack p.
Proof.
  exact (fun h rg minptr maxptr order tls stack fuel rg' fin Hr Ho Hc =>
           proj1 (MarkSweepProofs.collect_spec h rg minptr maxptr order tls stack fuel rg' fin Hr Ho Hc)).
Qed.
Print Assumptions collect_exact.

(* the property (collect_safe) at every collection point of an allocation history, for EVERY threshold policy nm (what
   gc->mitems is set to after a sweep / a removal decides only WHEN a collection runs; the source's policy
   reaches the executable model through Generated.gc_next_mitems): the `nitems > mitems`
   trigger inside alloc (the newborn's address is among the stack words: `extra`) or a forced
   collection; the registry-side invariants (range_ok, order_ok) are re-established *)
Theorem threshold_collect_safe : forall (nm : policy) s e s1 extra,
  collection_point s e = Some (s1, extra) -> inv s1 -> heap_ok s1 ->
  exists s' fin, step gc_tls_recurses gc_mar_guarded gc_finaliser_alloc_widens nm s e = Ok (s', fin) /\ collection_safe s1 extra fin s' /\ inv s'.
Proof. exact MarkSweepProofs.threshold_collect_safe_lemma. Qed.
Print Assumptions threshold_collect_safe.

(* every history of allocations (ordinary, or issued by a finaliser while a sweep runs), stores,
   root changes, explicit deletions and forced collections, started from a state satisfying the registry invariants (e.g. the empty one):
   as long as each alloc returns a fresh aligned address and the heap is well formed at each
   collection point, no step fails and every collection in the history is safe *)
Theorem history_collect_safe : forall (nm : policy) es s, inv s -> hist_safe gc_tls_recurses gc_mar_guarded gc_finaliser_alloc_widens nm s es.
Proof. exact MarkSweepProofs.history_collect_safe_lemma. Qed.
Print Assumptions history_collect_safe.

Example history_starts_somewhere : inv st0.
Proof. exact MarkSweepProofs.inv_st0. Qed.

(* non-vacuity of threshold_collect_safe: in the example state (6 registered objects, mitems 6)
   the allocation of a Ref to the otherwise unreachable w56 crosses the threshold; the state at
   that collection point satisfies inv and heap_ok; the newborn (on the stack) keeps w56 alive,
   so nothing is freed *)
Example threshold_hypotheses_inhabited :
  event_ok ex_state ex_event /\
  collection_point ex_state ex_event = Some (ex_state1, cons w64 nil) /\ inv ex_state1 /\ heap_ok ex_state1 /\
  exists s', step gc_tls_recurses gc_mar_guarded gc_finaliser_alloc_widens mitems_3_2 ex_state ex_event = Ok (s', nil).
Proof.
  split; [|split; [|split; [|split]]].
  - split; [vm_compute; reflexivity|split; [discriminate|vm_compute; reflexivity]].
  - reflexivity.
  - split; [apply range_b_sound|apply order_b_sound]; vm_compute; reflexivity.
  - split; [apply wf_b_sound|apply raw_wf_b_sound]; vm_compute; reflexivity.
  - eexists. vm_compute. reflexivity.
Qed.

(* non-vacuity of the hypotheses: a heap with a cycle through an Array of Ref, a shared Box, a
   Tuple leading through a raw object, a TLS root, a stack root and one unreachable object;
   exactly the unreachable one is freed *)
Example collect_safe_hypotheses_inhabited :
  range_ok ex_reg w8 w56 /\ order_ok ex_reg ex_order /\ wf ex_heap ex_reg ex_tls /\ raw_wf ex_heap ex_reg /\
  (forall p, In p (cons w8 (cons w16 (cons w24 (cons w32 (cons w40 nil))))) -> reach ex_heap ex_reg ex_tls ex_stack p) /\
  exists rg', collect gc_tls_recurses gc_mar_guarded ex_heap ex_reg w8 w56 (fuel_of ex_heap ex_reg ex_order)
                ex_order ex_tls ex_stack = Ok (rg', cons w56 nil).
Proof.
  split; [apply range_b_sound; vm_compute; reflexivity|].
  split; [apply order_b_sound; vm_compute; reflexivity|].
  split; [apply wf_b_sound; vm_compute; reflexivity|].
  split; [apply raw_wf_b_sound; vm_compute; reflexivity|].
  split; [exact ex_reach_all|]. eexists. vm_compute. reflexivity.
Qed.

(* the excluded case: raw objects forming a cycle through Tuple items make the (repaired)
   mark phase diverge — no mark bit can stop it *)
Theorem mark_diverges_on_raw_tuple_cycle :
  ~ raw_wf rawcyc_heap rawcyc_reg /\
  forall fuel, mark gc_tls_recurses gc_mar_guarded rawcyc_heap rawcyc_reg w8 w8 fuel (cons w8 nil) nil (cons w8 nil) nempty = OutOfFuel.
Proof.
  split.
  - intros (rk & _ & D). apply (PeanoNat.Nat.lt_irrefl (rk w16)), (D w16 (Items (cons w16 nil)) w16); try reflexivity.
    simpl. auto.
  - intros fuel. cbn. rewrite MarkSweepProofs.rawcyc_trace_diverges. reflexivity.
Qed.
Print Assumptions mark_diverges_on_raw_tuple_cycle.

(* histories with an allocation by a finaliser are not vacuous: the garbage object w8 is swept, its
   finaliser allocates w16 and publishes it into a stack slot, the next collection keeps it *)
Example finaliser_allocation_history_kept :
  exists s, run gc_tls_recurses gc_mar_guarded gc_finaliser_alloc_widens mitems_3_2 st0 fin_hist
            = Ok (s, cons nil (cons nil (cons (cons w8 nil) (cons nil (cons nil (cons nil nil)))))).
Proof. eexists. vm_compute. reflexivity. Qed.

(* if GC_Set widened the window only after its early return (fin_widens = false): after the same
   history the window invariant range_ok is broken, and the next collection frees w16 although it
   is registered and reachable from the stack *)
Theorem finaliser_alloc_window_refuted :
  exists s5 fr5 s6,
    run true true false mitems_3_2 st0 (firstn 5 fin_hist) = Ok (s5, fr5) /\
    registered (st_reg s5) w16 = true /\
    reach (st_heap s5) (st_reg s5) (st_tls s5) (st_stack s5) w16 /\
    ~ range_ok (st_reg s5) (st_minptr s5) (st_maxptr s5) /\
    step true true false mitems_3_2 s5 ECollect = Ok (s6, cons w16 nil).
Proof.
  eexists. eexists. eexists. split; [vm_compute; reflexivity|].
  split; [vm_compute; reflexivity|]. split; [apply reach_stack; vm_compute; auto|].
  split; [|vm_compute; reflexivity].
  intros H. destruct (H w16) as (_ & _ & Hle); [vm_compute; reflexivity|]. vm_compute in Hle. apply Hle. reflexivity.
Qed.
Print Assumptions finaliser_alloc_window_refuted.

(* D16 (before the repair): an object reachable only from a thread-local value is freed *)
Theorem tls_item_callback_refuted :
  reach d16_heap d16_reg d16_tls nil w8 /\
  collect false true d16_heap d16_reg w8 w8 10 (cons w8 nil) d16_tls nil = Ok (nempty, cons w8 nil).
Proof.
  split; [|vm_compute; reflexivity].
  apply reach_tls with (e := Words (cons w8 nil)); [simpl; auto|apply pts_word; simpl; auto].
Qed.
Print Assumptions tls_item_callback_refuted.

(* D17 (before the repair): marking a registered heap Tuple that contains itself never terminates *)
Theorem unguarded_recurse_refuted : forall fuel,
  mark true false d17_heap d17_reg w8 w8 fuel (cons w8 nil) nil (cons w8 nil) nempty = OutOfFuel.
Proof. intros fuel. cbn. rewrite MarkSweepProofs.d17_trace_diverges; reflexivity. Qed.
Print Assumptions unguarded_recurse_refuted.

(* ================================================================== glue to C17 (coq/GCGlue.v)
   The theorems above take the registry abstractly (finite map address -> root flag, `order`, mark
   set) and list as hypotheses what C17 owns.  Below these hypotheses are DISCHARGED from C17's
   concrete slot-array model (RegistryModel.v, RegistryProofs.v; hashf = GC_Hash is arbitrary):
     areg (slots g)    abstraction of a C17 registry state: registered address -> root flag
     aorder (slots g)  the registered addresses in slot order
     Marked (slots g)  the addresses whose entry carries a mark bit
     cmark             GC_Mark over the C17 state: GC_Mark_Item = RegistryModel.mark_item (prefilter,
                       probe loop, mark bit), registered test of GC_Mark_And_Recurse = gc_mem
                       (GC_Mem_Ptr's probe loop), root loop over slot indices, GC_Recurse by contents
   Still hypotheses afterwards: addr_ok (the allocator returns non-NULL word-aligned addresses — not
   part of C17's invariant), wf and raw_wf (heap side: the mutator's obligations), and C17's own
   premises (dtors_ok, admissible history: the allocator never returns a registered address). *)

(* (a) in the state reached by ANY C17-admissible history: order_ok, range_ok, "lookup = exact
   membership" (GC_Mem_Ptr's probe loop answers by the abstract registry), the abstract registry is
   the ledger of the event log, no mark bit is set, no sweep is pending *)
Theorem glue_registry_hypotheses : forall hashf d rf nf ops, dtors_ok d ->
  Gadm hashf d rf nf ops gc_init ->
  let g := Grun hashf d rf nf ops gc_init in
  addr_ok (slots g) ->
  order_ok (areg (slots g)) (aorder (slots g)) /\
  range_ok (areg (slots g)) (minptr g) (maxptr g) /\
  (forall p, gc_mem hashf g p = Some (registered (areg (slots g)) p)) /\
  (forall p s, nget p (areg (slots g)) = Some s <-> led (evs g) p s) /\
  (forall q, ~ Marked (slots g) q) /\
  pending g = nil.
Proof. exact GCGlue.glue_registry_hypotheses_thm. Qed.
Print Assumptions glue_registry_hypotheses.

(* (b) GC_Mark_Item of the C17 model (prefilter + probe loop) is total, changes mark bits only, and
   the set of marked addresses grows by w exactly when w passes the prefilter and is registered:
   it IS the abstract "set the mark bit of a registered address" *)
Theorem glue_mark_item_exact : forall hashf g w,
  InvM hashf g -> nslots g <> 0 -> addr_ok (slots g) ->
  exists g', RegistryModel.mark_item hashf g w = Some (Some g') /\ PW (slots g) (slots g') /\ same_rest g g' /\
    forall q, Marked (slots g') q <->
              Marked (slots g) q \/
              (q = w /\ prefilter (minptr g) (maxptr g) w = true /\ registered (areg (slots g)) w = true).
Proof. exact GCGlue.mark_item_exact. Qed.
Print Assumptions glue_mark_item_exact.

(* (c) simulation: the concrete mark phase over the C17 registry and the abstract mark phase of the
   theorems above run in lock step — same outcome (Ok / Crash / OutOfFuel), and on Ok the C17
   invariant still holds, only mark bits changed (PW), and the marked addresses are the same *)
Theorem glue_mark_simulation : forall hashf h g fuel tls stack,
  Inv hashf g -> Quiet g -> addr_ok (slots g) -> nitems g <> 0 ->
  osim hashf (slots g) (minptr g) (maxptr g)
    (cmark hashf h fuel tls stack g)
    (mark gc_tls_recurses gc_mar_guarded h (areg (slots g)) (minptr g) (maxptr g) fuel (aorder (slots g)) tls stack nempty).
Proof. exact GCGlue.cmark_sim. Qed.
Print Assumptions glue_mark_simulation.

(* (d) one collection with the concrete registry: the concrete mark phase terminates; the concrete
   compaction loop of GC_Sweep then keeps every registered object that is root-flagged or reachable
   and reclaims only registered, non-root, unreachable objects, each once *)
Theorem glue_collect_safe : forall hashf h g tls stack,
  Inv hashf g -> Quiet g -> addr_ok (slots g) ->
  wf h (areg (slots g)) tls -> raw_wf h (areg (slots g)) ->
  exists g1 l' rm,
    cmark hashf h (fuel_of h (areg (slots g)) (aorder (slots g))) tls stack g = Ok g1 /\
    InvM hashf g1 /\ Quiet g1 /\ PW (slots g) (slots g1) /\
    reclaimed_by_sweep g1 l' rm /\ Core hashf l' /\
    (forall p s, Reg g p s -> (s = true \/ reach h (areg (slots g)) tls stack p) ->
       (exists e, Holds gentry l' e /\ ptr e = p /\ root e = s) /\ ~ In p (map ptr rm)) /\
    (forall x, In x rm -> Reg g (ptr x) false /\ ~ reach h (areg (slots g)) tls stack (ptr x)) /\
    NoDup (map ptr rm).
Proof. exact GCGlue.glue_collect_safe_thm. Qed.
Print Assumptions glue_collect_safe.

(* (e) the composed statement: collect_safe with the registry hypotheses replaced by "g is reached
   by a C17-admissible history"; the objects are named by C17's ledger of the event log; the whole
   GC_Sweep (finaliser loop included, C17's sweep_total) then succeeds and re-establishes C17's
   invariant *)
Theorem glue_history_collect_safe : forall hashf d rf nf ops h tls stack, dtors_ok d ->
  Gadm hashf d rf nf ops gc_init ->
  let g := Grun hashf d rf nf ops gc_init in
  addr_ok (slots g) -> wf h (areg (slots g)) tls -> raw_wf h (areg (slots g)) ->
  exists g1 l' rm,
    cmark hashf h (fuel_of h (areg (slots g)) (aorder (slots g))) tls stack g = Ok g1 /\
    PW (slots g) (slots g1) /\
    reclaimed_by_sweep g1 l' rm /\
    (forall p s, led (evs g) p s -> (s = true \/ reach h (areg (slots g)) tls stack p) ->
       (exists e, Holds gentry l' e /\ ptr e = p /\ root e = s) /\ ~ In p (map ptr rm)) /\
    (forall x, In x rm -> led (evs g) (ptr x) false /\ ~ reach h (areg (slots g)) tls stack (ptr x)) /\
    NoDup (map ptr rm) /\
    exists g2, Gsweep hashf d rf nf g1 = Some g2 /\ Inv hashf g2 /\ Quiet g2.
Proof. exact GCGlue.glue_history_collect_safe_thm. Qed.
Print Assumptions glue_history_collect_safe.

(* non-vacuity: C17's example history (five allocations, GC_Hash = ptr >> 3) is admissible,
   its registry satisfies addr_ok, a heap over the five objects (plain struct, Tuple with a cycle, Array
   of Ref, a self-referential unreachable object) satisfies wf and raw_wf; the concrete mark phase and
   compaction loop keep the three reachable objects and reclaim none of them (stated independently of the
   slot layout, so that tuning the prime table / load factor does not touch it) *)
Example glue_hypotheses_inhabited :
  Gadm ex_hash ex_d false false glue_ops gc_init /\
  addr_ok (slots glue_g) /\ wf glue_heap (areg (slots glue_g)) nil /\ raw_wf glue_heap (areg (slots glue_g)) /\
  exists g1 l' rm,
    cmark ex_hash glue_heap (fuel_of glue_heap (areg (slots glue_g)) (aorder (slots glue_g))) nil glue_stack glue_g = Ok g1 /\
    reclaimed_by_sweep g1 l' rm /\
    (forall p, In p glue_kept -> (exists e, Holds gentry l' e /\ ptr e = p) /\ ~ In p (map ptr rm)) /\
    (forall x, In x rm -> ~ In (ptr x) glue_kept).
Proof. exact GCGlue.glue_example. Qed.
