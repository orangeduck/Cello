(* Facts about lists that the proofs of several models share and Coq 8.16's List does not have: replacing the
   element at an index, a list a ++ b cut at the length of a, the lengths of filtered lists, and NoDup of an
   append and of a map that is injective on the list. *)
From Coq Require Import List Arith Bool Lia.
Import ListNotations.

(* written as Threads.upd and Ownership.upd are, type argument inside the fixpoint, so that both are this function
   by conversion *)
Fixpoint upd {A} (l : list A) (i : nat) (x : A) : list A :=
  match l, i with
  | [], _ => []
  | _ :: r, 0 => x :: r
  | y :: r, S j => y :: upd r j x
  end.

Section Upd.
  Context {A : Type}.
  Implicit Types l : list A.

  Lemma nth_error_upd l i j x :
    nth_error (upd l i x) j = if i =? j then option_map (fun _ => x) (nth_error l j) else nth_error l j.
  Proof. revert i j. induction l; intros [|i] [|j]; simpl; auto. now destruct (i =? j). Qed.

  Lemma nth_error_upd_eq l i x y : nth_error l i = Some y -> nth_error (upd l i x) i = Some x.
  Proof. intros H. now rewrite nth_error_upd, Nat.eqb_refl, H. Qed.

  Lemma nth_error_upd_ne l i j x : i <> j -> nth_error (upd l i x) j = nth_error l j.
  Proof. intros H%Nat.eqb_neq. now rewrite nth_error_upd, H. Qed.

  (* both halves at once, for a hypothesis *)
  Lemma nth_error_upd_some l i j x y :
    nth_error (upd l i x) j = Some y -> (j = i /\ y = x) \/ (j <> i /\ nth_error l j = Some y).
  Proof.
    rewrite nth_error_upd. destruct (Nat.eqb_spec i j) as [->|]; [left | right; auto].
    destruct (nth_error l j); inversion H; auto.
  Qed.

  Lemma nth_error_upd_none l i j x : nth_error (upd l i x) j = None -> nth_error l j = None.
  Proof. rewrite nth_error_upd. now destruct (i =? j), (nth_error l j). Qed.

  Lemma length_upd l i x : length (upd l i x) = length l.
  Proof. revert i. induction l; intros [|i]; simpl; auto. Qed.

  Lemma upd_same l i x : nth_error l i = Some x -> upd l i x = l.
  Proof. revert i. induction l; intros [|i]; simpl; intros; try congruence. f_equal; auto. Qed.

  Lemma upd_upd l i x y : upd (upd l i x) i y = upd l i y.
  Proof. revert i. induction l; intros [|i]; simpl; auto. f_equal; auto. Qed.

  Lemma Forall_upd (P : A -> Prop) l i x : Forall P l -> P x -> Forall P (upd l i x).
  Proof. intros H Hx. revert i. induction H; intros [|i]; simpl; auto. Qed.
End Upd.

Lemma map_upd {A B} (f : A -> B) l i x : map f (upd l i x) = upd (map f l) i (f x).
Proof. revert i. induction l; intros [|i]; simpl; auto. f_equal; auto. Qed.

Section Cut.
  Context {A : Type}.
  Implicit Types l a b : list A.

  Lemma firstn_app_len a b : firstn (length a) (a ++ b) = a.
  Proof. induction a; simpl; [|rewrite IHa]; reflexivity. Qed.

  Lemma skipn_app_len a b n : skipn (length a + n) (a ++ b) = skipn n b.
  Proof. induction a; simpl; auto. Qed.

  Lemma skipn_app_all a b : skipn (length a) (a ++ b) = b.
  Proof. rewrite <- (Nat.add_0_r (length a)). apply skipn_app_len. Qed.

  Lemma nth_error_app_len a x b : nth_error (a ++ x :: b) (length a) = Some x.
  Proof. induction a; simpl; auto. Qed.

  Lemma skipn_skipn n m l : skipn n (skipn m l) = skipn (m + n) l.
  Proof. revert l. induction m; intros [|y l]; simpl; auto. now destruct n. Qed.
End Cut.

Section Filter.
  Context {A : Type}.
  Implicit Types (l : list A) (f g : A -> bool).

  (* the three length facts below are read off this one *)
  Lemma filter_length_split f g l : (forall x, In x l -> f x = true -> g x = true) ->
    length (filter f l) + length (filter (fun x => g x && negb (f x)) l) = length (filter g l).
  Proof.
    induction l as [|x l IH]; intros H; simpl; [reflexivity|].
    specialize (IH (fun a Ha => H a (or_intror Ha))). pose proof (H x (or_introl eq_refl)) as Hx.
    destruct (f x); [rewrite Hx by reflexivity|destruct (g x)]; simpl; lia.
  Qed.

  Lemma filter_length_mono f g l : (forall x, In x l -> f x = true -> g x = true) ->
    length (filter f l) <= length (filter g l).
  Proof. intros H%filter_length_split. lia. Qed.

  Lemma filter_length_lt f g l w : (forall x, In x l -> f x = true -> g x = true) ->
    In w l -> g w = true -> f w = false -> length (filter f l) < length (filter g l).
  Proof.
    intros H%filter_length_split Hw Hg Hf.
    assert (In w (filter (fun x => g x && negb (f x)) l)) by (apply filter_In; now rewrite Hg, Hf).
    destruct (filter (fun x => g x && negb (f x)) l); simpl in *; [tauto | lia].
  Qed.

  Lemma filter_all f l : (forall x, In x l -> f x = true) -> filter f l = l.
  Proof. induction l as [|x l IH]; simpl; intros H; [|rewrite H, IH]; auto. Qed.

  Lemma filter_length_le f l : length (filter f l) <= length l.
  Proof. rewrite <- (filter_all (fun _ => true) l) at 2 by reflexivity. now apply filter_length_mono. Qed.
End Filter.

Lemma NoDup_app_intro {A} (l1 l2 : list A) :
  NoDup l1 -> NoDup l2 -> (forall x, In x l1 -> ~ In x l2) -> NoDup (l1 ++ l2).
Proof.
  induction 1 as [|x l1 Hx _ IH]; simpl; intros H2 Hd; [assumption|]. constructor.
  - rewrite in_app_iff. intros [?|?]; [tauto | eapply Hd; eauto].
  - apply IH; auto.
Qed.

Lemma NoDup_map_on {A B} (f : A -> B) l :
  (forall x y, In x l -> In y l -> f x = f y -> x = y) -> NoDup l -> NoDup (map f l).
Proof.
  intros Hinj. induction 1 as [|a l Ha _ IH]; simpl; constructor.
  - intros (y & Hy & Hin)%in_map_iff. apply Ha. now rewrite <- (Hinj y a) by (simpl; auto).
  - apply IH. intros x y Hx Hy. apply Hinj; simpl; auto.
Qed.
