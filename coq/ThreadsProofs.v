(* ThreadsProofs.v — proofs about the interleaving machine of Threads.v (property C13).
   c = clear_on_catch, b = busy_result; the positive theorems are about the machine with
   shared_exc = false (exception record found through the thread's own TLS) and walk_foreign = false
   (Thread_Mark walks the current thread's TLS only). *)
From Coq Require Import List Arith Bool.
From Coq Require String.
From CelloV Require Import ListFacts Generated Threads.
Import ListNotations.

Lemma length_upd : forall A (l : list A) i x, length (upd l i x) = length l.
Proof. exact (@ListFacts.length_upd). Qed.

Lemma map_upd : forall A B (f : A -> B) l i x, map f (upd l i x) = upd (map f l) i (f x).
Proof. exact (@ListFacts.map_upd). Qed.

Lemma upd_same : forall A (l : list A) i x, nth_error l i = Some x -> upd l i x = l.
Proof. exact (@ListFacts.upd_same). Qed.

Lemma upd_upd : forall A (l : list A) i x y, upd (upd l i x) i y = upd l i y.
Proof. exact (@ListFacts.upd_upd). Qed.

Lemma nth_error_map_some : forall A B (f : A -> B) l i y,
  nth_error (map f l) i = Some y -> exists x, nth_error l i = Some x /\ y = f x.
Proof.
  intros. rewrite nth_error_map in H. destruct (nth_error l i); simpl in H; try discriminate.
  inversion H. eauto.
Qed.

(* the tests of [gstep] that a running thread passes: what is left is the dispatch on its continuation *)
Lemma running_dispatch : forall A (d : A) (F : lstate -> sstate -> A) g t l s,
  nth_error (thr g) t = Some (l, s) -> aborted g = false -> started s = true -> done l = false ->
  fatal l = false -> ub s = false ->
  (if aborted g then d else
   match nth_error (thr g) t with
   | None => d
   | Some (l, s) => if negb (started s) || done l || fatal l || ub s then d else F l s
   end) = F l s.
Proof. intros A d F g t l s -> -> -> -> -> ->. reflexivity. Qed.

Section Local.
Variable c : bool.

Lemma lstep_done : forall ok l, done l = true -> lstep c ok l = l.
Proof. intros. unfold lstep. now rewrite H. Qed.

Lemma lstep_fatal : forall ok l, fatal l = true -> lstep c ok l = l.
Proof. intros. unfold lstep. now rewrite H, orb_true_r. Qed.

Lemma alone_S : forall ok h l, alone c (ok :: h) l = lstep c ok (alone c h l).
Proof. reflexivity. Qed.

Lemma alone_ind : forall P : lstate -> Prop, (forall ok l, P l -> P (lstep c ok l)) ->
  forall h l, P l -> P (alone c h l).
Proof. induction h; intros; auto. rewrite alone_S. auto. Qed.

Lemma alone_add : forall h1 h2 l, alone c (h1 ++ h2) l = alone c h1 (alone c h2 l).
Proof. intros. apply fold_right_app. Qed.

Lemma alone_final : forall h h' l, done (alone c h l) = true -> alone c (h' ++ h) l = alone c h l.
Proof.
  intros h h' l H. rewrite alone_add. apply (alone_ind (fun x => x = alone c h l)); [|reflexivity].
  intros ok x ->. now apply lstep_done.
Qed.

(* every branch of a step that is taken: the head of the continuation, then whatever test of lstep stands in
   that branch: the root flag of OAlloc, tls_get k (tls l), (k =? 4) && (1 <=? n) of OWork, ok of OTryOnce,
   and at KEndTry active and eobj of the record and catches cs e *)
Ltac code_cases l :=
  destruct (code l) as [|[[]| | |] ?]; simpl;
  repeat match goal with |- context [match ?x with _ => _ end] => destruct x end; simpl.

Lemma do_throw_frame : forall l e k,
  me (do_throw c l e k) = me l /\ reg (do_throw c l e k) = reg l /\ fin (do_throw c l e k) = fin l.
Proof.
  intros. unfold do_throw. destruct (1 <=? depth (exc l)); [destruct (land e (depth (exc l)) k) as [[? ?]|]|]; auto.
Qed.

Definition own (l : lstate) : Prop := forall o, In o (reg l) \/ In o (fin l) -> fst o = me l.

(* a step keeps the thread's id, and what its collector holds or has finalised stays its own *)
Lemma lstep_frame : forall ok l, me (lstep c ok l) = me l /\ (own l -> own (lstep c ok l)).
Proof.
  intros ok l.
  assert (T : forall l' e k, me (do_throw c l' e k) = me l' /\ (own l' -> own (do_throw c l' e k))).
  { intros l' e k. destruct (do_throw_frame l' e k) as (Em & Er & Ef).
    split; [exact Em|]. intros O' o. rewrite Em, Er, Ef. apply O'. }
  unfold lstep. destruct (done l || fatal l); [auto|].
  code_cases l; try exact (T _ _ _); (split; [reflexivity|]); try exact (fun O => O); intros O o H; simpl in H.
  - (* exit: the ledger takes the registry over *)
    destruct H as [[]|[H|H]%in_app_or]; [|apply in_rev in H]; apply O; auto.
  - (* a new object carries its allocator's id *) destruct H as [[<-|H]|H]; [reflexivity | apply O; auto ..].
  - destruct H as [[<-|H]|H]; [reflexivity | apply O; auto ..].
  - (* collect: the registry is split between itself and the ledger *)
    destruct H as [H|[H|H%in_rev]%in_app_or]; try apply filter_In in H; apply O; tauto.
Qed.

Lemma alone_me : forall h l, me (alone c h l) = me l.
Proof. intros. apply (alone_ind (fun x => me x = me l)); [|reflexivity]. intros ok x <-. apply lstep_frame. Qed.

Lemma alone_own : forall h l, own l -> own (alone c h l).
Proof. intros h l. apply alone_ind. intros ok x. apply lstep_frame. Qed.

Lemma linit_own : forall t p, own (linit t p).
Proof. intros t p o [[]|[]]. Qed.

(* a pending store (second half of a non-atomic increment) only ever sits at the head of the
   continuation, and only an OIncr puts it there *)
Definition nostore (k : list kitem) : Prop := forall m, ~ In (KStore m) k.

Lemma nostore_app : forall body k, nostore k -> nostore (map KOp body ++ k).
Proof.
  intros body k Hk m Hin. apply in_app_or in Hin. destruct Hin as [Hin|Hin]; [|exact (Hk m Hin)].
  apply in_map_iff in Hin. now destruct Hin as (? & ? & _).
Qed.

Lemma nostore_cons : forall x k, (forall m, x <> KStore m) -> nostore k -> nostore (x :: k).
Proof. intros x k Hx Hk m [E|Hin]; [exact (Hx m E) | exact (Hk m Hin)]. Qed.

Lemma nostore_tail : forall k, nostore k -> nostore (tl k).
Proof. intros [|x k] H m Hin; [exact Hin | exact (H m (or_intror Hin))]. Qed.

Lemma land_nostore : forall e k d d' k', land e d k = Some (d', k') -> nostore k -> nostore k'.
Proof.
  induction k as [|x k IH]; simpl; intros d d' k' H N; try discriminate.
  pose proof (nostore_tail _ N) as Nk.
  destruct x; simpl in H; try (eapply IH; eauto; fail).
  destruct (catches cs e).
  - injection H as <- <-. now apply nostore_app.
  - destruct (d - 1); try discriminate. eapply IH; eauto.
Qed.

Lemma do_throw_nostore : forall l e k, nostore k -> nostore (code (do_throw c l e k)).
Proof.
  intros l e k N. unfold do_throw.
  destruct (1 <=? depth (exc l)); [destruct (land e (depth (exc l)) k) as [[d' k']|] eqn:E|]; simpl;
    [eapply land_nostore; eauto | intros m [] ..].
Qed.

Lemma lstep_code : forall ok l, done l = false -> fatal l = false -> nostore (tl (code l)) ->
  nostore (code (lstep c ok l)) \/ exists m k, code l = KOp (OIncr m) :: k /\ code (lstep c ok l) = KStore m :: k.
Proof.
  intros ok l Hd Hf W. unfold lstep. rewrite (orb_false_intro _ _ Hd Hf).
  code_cases l;
    try (left; solve [ auto using do_throw_nostore, nostore_app
                     | apply nostore_app, nostore_cons; [discriminate | exact W] ]).
  right; eauto.
Qed.

Lemma lstep_wf : forall ok l, nostore (tl (code l)) -> nostore (tl (code (lstep c ok l))).
Proof.
  intros ok l W. destruct (done l) eqn:Hd; [now rewrite lstep_done|].
  destruct (fatal l) eqn:Hf; [now rewrite lstep_fatal|].
  destruct (lstep_code ok l Hd Hf W) as [N|(m & k & E1 & E2)]; [now apply nostore_tail|].
  rewrite E2. rewrite E1 in W. exact W.
Qed.

End Local.
Section Machine.
Variables c b : bool.
Notation G := (gstep c b false false).
Notation R := (run c b false false).

(* what an executed instruction of thread t does besides advancing t's own core:
   g1 = the state with the mutex table / a counter / ANOTHER thread's started-joined flag changed,
   s1 = t's new synchronisation side *)
Inductive pre (t : tid) (g : gstate) (l : lstate) (s : sstate) : gstate -> sstate -> bool -> Prop :=
| pre_local : pre t g l s g s true
| pre_acquire : forall m, mtx g m = None ->
    pre t g l s (set_mtx g m (Some t)) (set_holding s (m :: holding s)) true
| pre_busy : forall m o, mtx g m = Some o -> b = true ->
    pre t g l s g (set_holding s (m :: holding s)) true
| pre_tryfail : forall m o, mtx g m = Some o -> b = false ->       (* OTryOnce refused: the section is skipped *)
    pre t g l s g s false
| pre_release : forall m, mtx g m = Some t ->
    pre t g l s (set_mtx g m None) (set_holding s (rem_mid m (holding s))) true
| pre_load : forall m k, code l = KOp (OIncr m) :: k -> nmem m (holding s) = true ->
    pre t g l s g (set_tmp s (cells g m)) true
| pre_store : forall m k, code l = KStore m :: k ->
    pre t g l s (set_cell g m (S (tmp s))) s true
| pre_spawn : forall u lu su, nth_error (thr g) u = Some (lu, su) -> started su = false ->
    pre t g l s (set_thr g u (lu, set_started su)) s true
| pre_respawn : forall u lu su p, nth_error (thr g) u = Some (lu, su) ->     (* Thread object called again *)
    started su = true -> done lu = true -> joined su = true -> nth_error (progs g) u = Some p ->
    pre t g l s (set_thr g u (restart lu p, relaunch su)) s true
| pre_copy : forall v lv sv p tau, nth_error (thr g) v = Some (lv, sv) -> started sv = false ->    (* copy of a Thread object *)
    nth_error (progs g) v = Some p ->
    pre t g l s (set_thr g v (set_tls (linit v p) tau, launch_copy sv tau)) s true
| pre_join : forall u lu su k, code l = KOp (OJoin u) :: k ->
    nth_error (thr g) u = Some (lu, su) -> started su = true -> done lu = true -> joined su = false ->
    pre t g l s (set_thr g u (lu, set_joined su)) s true
| pre_peek : forall u lu su k, code l = KOp (OPeek u) :: k -> nth_error (thr g) u = Some (lu, su) ->
    pre t g l s g (add_seen s (u, out lu)) true.

Inductive shape (t : tid) (g : gstate) : gstate -> Prop :=
| sh_same : shape t g g
| sh_ub : forall l s, nth_error (thr g) t = Some (l, s) -> shape t g (set_thr g t (l, set_ub s))
| sh_adv : forall l s g1 s1 ok,
    nth_error (thr g) t = Some (l, s) ->
    aborted g = false -> started s = true -> done l = false -> fatal l = false -> ub s = false ->
    pre t g l s g1 s1 ok ->
    (forall m k, code l = KOp (OIncr m) :: k ->      (* an OIncr at the head is executed as the guarded load *)
       nmem m (holding s) = true /\ g1 = g /\ s1 = set_tmp s (cells g m)) ->
    shape t g (advance_ok c false ok g1 t l s1).


(* Every branch of [gstep] ends in one of the three shapes: the state as it was, the ub flag, or an
   executed instruction, whose [pre] effect is found from the conditions the branch tested; only an
   OIncr at the head has something to say about the last premise of [sh_adv]. *)
Ltac shape_done Hc :=
  first [ apply sh_same | apply sh_ub; assumption
        | eapply sh_adv; try eassumption;
          [ econstructor; eauto
          | intros ? ? HH; rewrite Hc in HH; first [ discriminate HH | inversion HH; subst; auto ] ] ].

Lemma gstep_shape : forall t g, shape t g (G t g).
Proof.
  intros t g. unfold gstep.
  destruct (aborted g) eqn:Hab; [constructor|].
  destruct (nth_error (thr g) t) as [[l s]|] eqn:Ht; [|constructor].
  destruct (negb (started s) || done l || fatal l || ub s) eqn:Hrun; [constructor|].
  apply orb_false_elim in Hrun. destruct Hrun as [Hrun Hub].
  apply orb_false_elim in Hrun. destruct Hrun as [Hrun Hfa].
  apply orb_false_elim in Hrun. destruct Hrun as [Hst Hdo].
  apply negb_false_iff in Hst.
  destruct (code l) as [|[o| | |] k] eqn:Hc; [| destruct o | ..]; unfold acquire, release.
  all: try (shape_done Hc; fail).
  - (* lock *) destruct (mtx g m) eqn:Hm; shape_done Hc.
  - (* unlock *) destruct (mtx g m) as [ow|] eqn:Hm; [destruct (Nat.eqb_spec ow t) as [->|]|]; shape_done Hc.
  - (* trylock loop *) destruct (mtx g m) eqn:Hm; [destruct b eqn:Hb|]; shape_done Hc.
  - (* with *) destruct (mtx g m) eqn:Hm; shape_done Hc.
  - (* try once *) destruct (mtx g m) eqn:Hm; [destruct b eqn:Hb|]; shape_done Hc.
  - (* incr *) destruct (nmem m (holding s)) eqn:Hh; shape_done Hc.
  - (* spawn *) destruct (nth_error (thr g) t0) as [[lu su]|] eqn:Hu; [destruct (started su) eqn:Hs|]; [|shape_done Hc ..].
    destruct (done lu) eqn:Hd; [destruct (joined su) eqn:Hj; [destruct (nth_error (progs g) t0) as [p|] eqn:Hp|]|]; shape_done Hc.
  - (* join *) destruct (nth_error (thr g) t0) as [[lu su]|] eqn:Hu; [|shape_done Hc].
    destruct (started su) eqn:Hs; [destruct (done lu) eqn:Hd; [destruct (joined su) eqn:Hj|]|]; shape_done Hc.
  - (* peek *) destruct (nth_error (thr g) t0) as [[lu su]|] eqn:Hu; shape_done Hc.
  - (* copy of a Thread object *)
    destruct (nth_error (thr g) v) as [[lv sv]|] eqn:Hv, (nth_error (thr g) u) as [[lu su]|] eqn:Hu,
             (nth_error (progs g) v) as [p|] eqn:Hp; try shape_done Hc.
    destruct (started sv) eqn:Hs, ((u =? t) || (started su && done lu && joined su)); shape_done Hc.
  - (* with-exit *) destruct (mtx g m) as [ow|] eqn:Hm; [destruct (Nat.eqb_spec ow t) as [->|]|]; shape_done Hc.
Qed.

Lemma adv_lookup : forall ok g1 t l s1 t' l' s',
  nth_error (thr (advance_ok c false ok g1 t l s1)) t' = Some (l', s') ->
  (t' = t /\ l' = lstep c ok l /\ s' = bump ok s1) \/ (t' <> t /\ nth_error (thr g1) t' = Some (l', s')).
Proof.
  intros. apply nth_error_upd_some in H. destruct H as [[? E]|[? ?]]; [left; inversion E | right]; auto.
Qed.

Lemma pre_self : forall t g l s g1 s1 ok, pre t g l s g1 s1 ok ->
  hist s1 = hist s /\ past s1 = past s /\ joined s1 = joined s /\ progs g1 = progs g /\ tls0 s1 = tls0 s.
Proof. intros. destruct H; simpl; auto. Qed.

(* an entry of g1 is the entry of g up to started/joined flags — or the relaunch of a finished, joined thread —
   or the launch of a Thread object made by copy() *)
Inductive entry_from (g : gstate) (t' : tid) (l' : lstate) (s' : sstate) : Prop :=
| ef_same : forall s0, nth_error (thr g) t' = Some (l', s0) ->
    holding s' = holding s0 -> tmp s' = tmp s0 -> hist s' = hist s0 -> past s' = past s0 -> tls0 s' = tls0 s0 ->
    (joined s' = true -> joined s0 = true \/ done l' = true) -> entry_from g t' l' s'
| ef_relaunch : forall lu su p, nth_error (thr g) t' = Some (lu, su) -> done lu = true -> joined su = true ->
    nth_error (progs g) t' = Some p -> l' = restart lu p -> s' = relaunch su -> entry_from g t' l' s'
| ef_copy : forall lv sv p tau, nth_error (thr g) t' = Some (lv, sv) -> started sv = false ->
    nth_error (progs g) t' = Some p -> l' = set_tls (linit t' p) tau -> s' = launch_copy sv tau -> entry_from g t' l' s'.

Lemma ef_refl : forall g t' l' s', nth_error (thr g) t' = Some (l', s') -> entry_from g t' l' s'.
Proof. intros g t' l' s' H. apply (ef_same _ _ _ _ s'); auto. Qed.

Lemma pre_lookup : forall t g l s g1 s1 ok, pre t g l s g1 s1 ok ->
  forall t' l' s', nth_error (thr g1) t' = Some (l', s') -> entry_from g t' l' s'.
Proof.
  intros t g l s g1 s1 ok P t' l' s' H.
  destruct P; simpl in H; try exact (ef_refl _ _ _ _ H);
    apply nth_error_upd_some in H; destruct H as [[-> E]|[? H]]; try exact (ef_refl _ _ _ _ H);
    injection E as -> ->.
  - apply (ef_same _ _ _ _ su); auto.
  - eapply ef_relaunch; eauto.
  - eapply ef_copy; eauto.
  - apply (ef_same _ _ _ _ su); auto.
Qed.

Lemma run_inv : forall P : gstate -> Prop, (forall t g, P g -> P (G t g)) ->
  forall sched g, P g -> P (R sched g).
Proof. intros P HP. induction sched; simpl; auto. Qed.

Lemma ginit_lookup : forall ps t l s, nth_error (thr (ginit ps)) t = Some (l, s) ->
  exists p, nth_error ps t = Some p /\ l = linit t p /\ s = sinit (t =? 0).
Proof.
  intros ps t l s H. assert (E : forall ps k t, nth_error (init_from k ps) t =
            option_map (fun p => (linit (k + t) p, sinit (k + t =? 0))) (nth_error ps t)).
  { clear. induction ps; intros; destruct t; simpl; auto.
    - now rewrite Nat.add_0_r.
    - rewrite IHps. now rewrite <- plus_n_Sm. }
  simpl in H. rewrite E in H. destruct (nth_error ps t) as [p|]; inversion H. eauto.
Qed.

Definition iso_inv (ps : list (list op)) (g : gstate) : Prop :=
  progs g = ps /\
  forall t l s, nth_error (thr g) t = Some (l, s) ->
    exists p, nth_error ps t = Some p /\ l = alone c (hist s) (base c t p (tls0 s) (past s)).

Lemma iso_init : forall ps, iso_inv ps (ginit ps).
Proof.
  intros ps. split; auto. intros t l s H. apply ginit_lookup in H. destruct H as (p & Hp & -> & ->). eauto.
Qed.

Lemma iso_step : forall ps t g, iso_inv ps g -> iso_inv ps (G t g).
Proof.
  intros ps t g [IP I]. destruct (gstep_shape t g) as [|l s Ht|l s g1 s1 ok Ht Hab Hst Hdo Hfa Hub P PI]; [split; auto| |].
  - split; auto. intros t' l' s' H. apply nth_error_upd_some in H. destruct H as [[-> E]|[Hne H]]; auto.
    injection E as -> ->. apply (I _ _ _ Ht).
  - destruct (pre_self _ _ _ _ _ _ _ P) as (Eh & Ep & _ & Eg & Et).
    split; [simpl; congruence|].
    intros t' l' s' H. apply adv_lookup in H. destruct H as [(-> & -> & ->)|[Hne H]].
    + destruct (I _ _ _ Ht) as (p & Hp & Hl). exists p. split; auto. simpl. rewrite Eh, Ep, Et. simpl. congruence.
    + destruct (pre_lookup _ _ _ _ _ _ _ P _ _ _ H) as [s0 H0 _ _ Eh0 Ep0 Et0 _ | lu su p H0 _ _ Hp -> -> | lv sv p tau H0 _ Hp -> ->].
      * rewrite Eh0, Ep0, Et0. apply (I _ _ _ H0).
      * destruct (I _ _ _ H0) as (p' & Hp' & Hl). exists p. split; [congruence|]. simpl. congruence.
      * destruct (I _ _ _ H0) as (p' & Hp' & _). exists p. split; [congruence|]. reflexivity.
Qed.

(* For EVERY schedule: the core of every thread (continuation, collector registry and finalisation
   ledger, exception record, thread-local storage, result trace) is a function of its OWN program and
   of the answers its OWN trylock attempts got, over all the runs of its Thread object (hist: the
   current run, past: the completed ones): it is what the thread reaches on its own with the same answers. *)
Theorem isolation_core : forall ps sched t l s,
  nth_error (thr (R sched (ginit ps))) t = Some (l, s) ->
  exists p, nth_error ps t = Some p /\ l = alone c (hist s) (base c t p (tls0 s) (past s)).
Proof. intros ps sched. apply (run_inv (iso_inv ps) (iso_step ps) sched _ (iso_init ps)). Qed.

(* first run, no try-once section refused (e.g. the program has none): the stand-alone run proper *)
Corollary isolation_plain : forall ps sched t l s,
  nth_error (thr (R sched (ginit ps))) t = Some (l, s) -> past s = [] -> tls0 s = [] ->
  forallb (fun x => x) (hist s) = true ->
  exists p, nth_error ps t = Some p /\ l = alone_n c (steps s) (linit t p).
Proof.
  intros ps sched t l s H Hp Ht0 H0. destruct (isolation_core _ _ _ _ _ H) as (p & Hp' & Hl). exists p. split; auto.
  rewrite Hp, Ht0 in Hl. unfold alone_n, steps. replace (repeat true (length (hist s))) with (hist s); [exact Hl|].
  clear - H0. induction (hist s) as [|x h IH]; simpl in *; [reflexivity|].
  apply andb_true_iff in H0. destruct H0 as [-> H0]. now rewrite <- IH.
Qed.

(* a finished thread has computed exactly its complete stand-alone result (whatever comes after) *)
Theorem isolation_finished : forall ps sched t l s,
  nth_error (thr (R sched (ginit ps))) t = Some (l, s) -> done l = true ->
  exists p, nth_error ps t = Some p /\ forall h', alone c (h' ++ hist s) (base c t p (tls0 s) (past s)) = l.
Proof.
  intros. destruct (isolation_core _ _ _ _ _ H) as (p & Hp & Hl). exists p. split; auto.
  intros. subst l. now apply alone_final.
Qed.

(* frame: an instruction of t never changes the core of another thread — except that calling a Thread object
   whose previous run has finished and been joined starts its next run, and that calling a fresh copy of a Thread
   object starts it with the snapshot of the TLS table it was copied from *)
Theorem step_frame : forall t t' g, t <> t' ->
  core (G t g) t' = core g t' \/
  (exists lu su p, nth_error (thr g) t' = Some (lu, su) /\ done lu = true /\ joined su = true /\
                   nth_error (progs g) t' = Some p /\ core (G t g) t' = Some (restart lu p)) \/
  (exists lv sv p tau, nth_error (thr g) t' = Some (lv, sv) /\ started sv = false /\
                   nth_error (progs g) t' = Some p /\ core (G t g) t' = Some (set_tls (linit t' p) tau)).
Proof.
  intros t t' g Hne. unfold core.
  destruct (gstep_shape t g) as [|l s Ht|l s g1 s1 ok Ht Hab Hst Hdo Hfa Hub P PI]; auto; simpl;
    rewrite nth_error_upd_ne by auto; auto.
  destruct (nth_error (thr g1) t') as [[l' s']|] eqn:H.
  - destruct (pre_lookup _ _ _ _ _ _ _ P _ _ _ H) as [s0 H0 | lu su p H0 Hd Hj Hp -> -> | lv sv p tau H0 Hs Hp -> ->].
    + left. now rewrite H0.
    + right. left. exists lu, su, p. auto 10.
    + right. right. exists lv, sv, p, tau. auto 10.
  - left. destruct P; simpl in H; try apply nth_error_upd_none in H; now rewrite H.
Qed.

Lemma base_me : forall t p tau pa, me (base c t p tau pa) = t.
Proof. induction pa; simpl; auto. now rewrite alone_me. Qed.

Lemma base_own : forall t p tau pa, own (base c t p tau pa).
Proof.
  induction pa; simpl; [apply linit_own|].
  intros o [[]|Hin]. exact (alone_own c a _ IHpa o (or_intror Hin)).
Qed.

(* no thread's collector ever finalises (or even registers) an object allocated by another thread *)
Theorem no_foreign_finalisation : forall ps sched t l s o,
  nth_error (thr (R sched (ginit ps))) t = Some (l, s) ->
  In o (reg l) \/ In o (fin l) -> fst o = t.
Proof.
  intros. destruct (isolation_core _ _ _ _ _ H) as (p & Hp & ->).
  rewrite (alone_own c _ _ (base_own t p _ _) o H0). rewrite alone_me. apply base_me.
Qed.

Definition mx_inv (g : gstate) : Prop :=
  forall t l s m, nth_error (thr g) t = Some (l, s) -> In m (holding s) -> mtx g m = Some t.

Lemma rem_mid_in : forall m m' h, In m (rem_mid m' h) -> m <> m' /\ In m h.
Proof.
  intros. apply filter_In in H. destruct H as [H1 H2].
  apply negb_true_iff, Nat.eqb_neq in H2. auto.
Qed.

Lemma mx_step : b = false -> forall t g, mx_inv g -> mx_inv (G t g).
Proof.
  intros Hb t g I. destruct (gstep_shape t g) as [|l s Ht|l s g1 s1 ok Ht Hab Hst Hdo Hfa Hub P PI]; auto;
    intros t' l' s' m H Hin.
  - apply nth_error_upd_some in H. destruct H as [[-> E]|[Hne H]]; [injection E as -> ->|]; eapply I; eauto.
  - apply adv_lookup in H.
    destruct P; simpl in *; try congruence;
      destruct H as [(-> & -> & ->)|[Hne H]]; simpl in *;
      try (eapply I; eauto; fail);
      (* another thread's flags, relaunch or launch: the holdings stay *)
      try (apply nth_error_upd_some in H; destruct H as [[-> E]|[? H]]; [injection E as -> ->|]; eapply I; eauto; fail);
      unfold fupd.
    + (* acquire, t itself *) destruct Hin as [<-|Hin]; [now rewrite Nat.eqb_refl|].
      destruct (m =? m0); [reflexivity | eapply I; eauto].
    + (* acquire, another thread *) destruct (Nat.eqb_spec m m0) as [->|_]; [|eapply I; eauto].
      rewrite (I _ _ _ _ H Hin) in H0. discriminate.
    + (* release, t itself *) apply rem_mid_in in Hin. destruct Hin as [Hne Hin].
      apply Nat.eqb_neq in Hne. rewrite Hne. eapply I; eauto.
    + (* release, another thread *) destruct (Nat.eqb_spec m m0) as [->|_]; [|eapply I; eauto].
      rewrite (I _ _ _ _ H Hin) in H0. congruence.
Qed.

Lemma mx_init : forall ps, mx_inv (ginit ps).
Proof. intros ps t l s m H Hin. apply ginit_lookup in H. destruct H as (p & _ & _ & ->). destruct Hin. Qed.

Lemma nmem_in : forall m h, nmem m h = true -> In m h.
Proof. intros m h H. apply existsb_exists in H. destruct H as (x & Hin & E). apply Nat.eqb_eq in E. now subst. Qed.

(* a pending store sits at the head only: a fact about the thread's own run *)
Lemma reach_wf : forall ps g t l s, iso_inv ps g -> nth_error (thr g) t = Some (l, s) -> nostore (tl (code l)).
Proof.
  intros ps g t l s [_ I] H. destruct (I _ _ _ H) as (p & _ & ->).
  apply alone_ind; [intros; now apply lstep_wf|].
  assert (N : nostore (tl (map KOp p))) by (rewrite <- (app_nil_r (map KOp p)); apply nostore_tail, nostore_app; intros m []).
  now destruct (past s).
Qed.

Definition inc_inv (g : gstate) : Prop :=
  forall t l s m k, nth_error (thr g) t = Some (l, s) -> code l = KStore m :: k ->
    In m (holding s) /\ tmp s = cells g m.

Lemma pre_cells : forall t g l s g1 s1 ok, pre t g l s g1 s1 ok ->
  cells g1 = cells g \/ exists m k, code l = KStore m :: k /\ cells g1 = fupd (cells g) m (S (tmp s)).
Proof. intros. destruct H; simpl; eauto. Qed.

Lemma inc_step : forall ps t g, iso_inv ps g -> mx_inv g -> inc_inv g -> inc_inv (G t g).
Proof.
  intros ps t g ISO MX I. destruct (gstep_shape t g) as [|l s Ht|l s g1 s1 ok Ht Hab Hst Hdo Hfa Hub P PI]; auto;
    intros t' l' s' m k H Hc.
  - apply nth_error_upd_some in H. destruct H as [[-> E]|[Hne H]]; [injection E as -> ->; exact (I _ _ _ _ _ Ht Hc) | exact (I _ _ _ _ _ H Hc)].
  - apply adv_lookup in H. destruct H as [(-> & -> & ->)|[Hne H]].
    + (* the stepping thread: only the load of an OIncr leaves a store at the head *)
      destruct (lstep_code c ok l Hdo Hfa (reach_wf _ _ _ _ _ ISO Ht)) as [NS|(m0 & k0 & E1 & E2)].
      * destruct (NS m). rewrite Hc. now left.
      * rewrite E2 in Hc. injection Hc as <- <-. destruct (PI _ _ E1) as (Hh & -> & ->).
        split; [now apply nmem_in | reflexivity].
    + destruct (pre_lookup _ _ _ _ _ _ _ P _ _ _ H) as [s0 H0 Eh Et _ _ _ _ | lu su p _ _ _ _ -> _ | lv sv p tau _ _ _ -> _];
        [|destruct p; discriminate Hc ..].
      destruct (I _ _ _ _ _ H0 Hc) as [Hin Htmp]. rewrite Eh, Et. split; auto. simpl.
      destruct (pre_cells _ _ _ _ _ _ _ P) as [->|(m' & k' & Hc' & ->)]; auto.
      unfold fupd. destruct (Nat.eqb_spec m m') as [->|_]; auto.
      (* the stepping thread stores into a cell whose mutex it holds: nobody else holds it *)
      destruct (I _ _ _ _ _ Ht Hc') as [Hin' _].
      pose proof (MX _ _ _ _ Ht Hin'). pose proof (MX _ _ _ _ H0 Hin). congruence.
Qed.

Lemma inc_init : forall ps, inc_inv (ginit ps).
Proof.
  intros ps t l s m k H Hc. apply ginit_lookup in H. destruct H as (p & _ & -> & _). destruct p; discriminate Hc.
Qed.

(* every reachable state, when Mutex_Trylock answers false on EBUSY: a mutex is held by its owner only, and a
   thread about to store the second half of `cell = cell + 1` still holds the cell's mutex and has its current value *)
Lemma reach_inv : b = false -> forall ps sched,
  iso_inv ps (R sched (ginit ps)) /\ mx_inv (R sched (ginit ps)) /\ inc_inv (R sched (ginit ps)).
Proof.
  intros Hb ps sched. apply (run_inv (fun g => iso_inv ps g /\ mx_inv g /\ inc_inv g)).
  - intros t g (A & B & C). split; [|split]; [apply iso_step | apply mx_step | apply (inc_step ps)]; assumption.
  - split; [|split]; [apply iso_init | apply mx_init | apply inc_init].
Qed.

Definition jn_inv (g : gstate) : Prop :=
  forall u lu su, nth_error (thr g) u = Some (lu, su) -> joined su = true -> done lu = true.

Lemma jn_step : forall t g, jn_inv g -> jn_inv (G t g).
Proof.
  intros t g I. destruct (gstep_shape t g) as [|l s Ht|l s g1 s1 ok Ht Hab Hst Hdo Hfa Hub P PI]; auto;
    intros u lu su H Hj.
  - apply nth_error_upd_some in H. destruct H as [[-> E]|[Hne H]]; [injection E as -> ->|]; eapply I; eauto.
  - apply adv_lookup in H. destruct H as [(-> & -> & ->)|[Hne H]].
    + (* the stepping thread is running: it has not been joined *)
      destruct (pre_self _ _ _ _ _ _ _ P) as (_ & _ & Ej & _). simpl in Hj. rewrite Ej in Hj.
      rewrite (I _ _ _ Ht Hj) in Hdo. discriminate.
    + destruct (pre_lookup _ _ _ _ _ _ _ P _ _ _ H) as [s0 H0 _ _ _ _ _ J | lu' su' p _ _ _ _ _ -> | lv sv p tau _ _ _ _ ->];
        [|discriminate Hj ..].
      destruct (J Hj); [eapply I; eauto | assumption].
Qed.

Lemma jn_init : forall ps, jn_inv (ginit ps).
Proof. intros ps u lu su H Hj. apply ginit_lookup in H. destruct H as (p & _ & _ & ->). discriminate Hj. Qed.

(* join returns only after the joined thread's function has finished (and its collector is gone) *)
Theorem join_waits : forall ps sched u lu su,
  nth_error (thr (R sched (ginit ps))) u = Some (lu, su) -> joined su = true -> done lu = true.
Proof. intros ps sched. apply (run_inv jn_inv jn_step sched _ (jn_init ps)). Qed.

(* a call of a Thread object starts a NEW run: it is not joined until a join executed after that call returns *)
Theorem call_resets_join : forall t g u lu su p l s k,
  nth_error (thr g) t = Some (l, s) -> aborted g = false -> started s = true -> done l = false ->
  fatal l = false -> ub s = false -> code l = KOp (OSpawn u) :: k ->
  nth_error (thr g) u = Some (lu, su) -> started su = true -> done lu = true -> joined su = true ->
  nth_error (progs g) u = Some p -> t <> u ->
  nth_error (thr (G t g)) u = Some (restart lu p, relaunch su).
Proof.
  intros t g u lu su p l s k Ht Hab Hst Hdo Hfa Hub Hc Hu Hsu Hdu Hju Hp Hne.
  unfold gstep. rewrite (running_dispatch _ _ _ g t l s Ht Hab Hst Hdo Hfa Hub), Hc. cbn iota.
  rewrite Hu, Hsu, Hdu, Hju, Hp. simpl.
  rewrite nth_error_upd_ne by exact Hne. exact (nth_error_upd_eq _ _ _ _ Hu).
Qed.

End Machine.

(* the mutable file-scope statics of Thread.c / Exception.c / GC.c are exactly the audited ones:
   the TLS key and its created-flag (written before any Thread exists: the main macro's new_raw(GC)
   calls current(Thread)), and the main thread's Thread/Exception singletons (written by the main
   thread only).  No per-thread datum lives in a static. *)
Import String.
Definition audited_statics : list String.string :=
  ["Thread.Thread_TLS_Key_Created"; "Thread.Thread_Key_Wrapper"; "Thread.Thread_Main"; "Thread.Exception_Main"]%string.

Lemma statics_audited : thr_statics = audited_statics.
Proof. reflexivity. Qed.

Lemma source_shapes :
  thr_exc_via_tls = true /\ thr_gc_via_tls = true /\ thr_current_via_key = true /\
  thr_init_own_records = true /\ thr_join_waits = true /\ thr_with_is_lock_unlock = true /\
  thr_trylock_busy_result = false /\ thr_mark_own_tls_only = true /\ thr_lock_blocking = true.
Proof. repeat split; reflexivity. Qed.
