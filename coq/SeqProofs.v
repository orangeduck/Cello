(* SeqProofs.v — proofs about SeqModels.v (property C04): capacity rules, memory lemmas, List and
   Array follow the abstract sequence in every invariant state, len and iteration, facts about the
   specification.  (Sort: SortProofs.v, Tuple: SeqTupleProofs.v.) *)
From Coq Require Import List Arith Bool ZArith Lia Permutation Sorted.
From CelloV Require Import ListFacts Generated SeqModels.
Import ListNotations.

(* what the refinement proofs need from Array_Reserve_More / Array_Reserve_Less, proved for the
   rules re-extracted from src/Array.c (Generated.v): a grown store holds all items, a store
   that is not grown already does; a shrunk store still holds all items. *)
Definition grow_ok (cond : nat -> nat -> bool) (size : nat -> nat -> nat) : Prop :=
  forall nitems nslots,
    (cond nitems nslots = true -> nitems <= size nitems nslots) /\
    (cond nitems nslots = false -> nitems <= nslots).
Definition shrink_ok (cond : nat -> nat -> bool) (size : nat -> nat -> nat) : Prop :=
  forall nitems nslots, cond nitems nslots = true -> nitems <= size nitems nslots.

(* decide the comparisons a policy makes, then linear arithmetic (a division by a literal is an
   unknown of its own, which is enough for every policy that adds to or multiplies nitems) *)
Ltac policy :=
  repeat match goal with
         | |- context [?a <? ?b] => destruct (Nat.ltb_spec a b)
         | |- context [?a <=? ?b] => destruct (Nat.leb_spec a b)
         | |- context [?a =? ?b] => destruct (Nat.eqb_spec a b)
         end;
  cbn [negb andb orb]; try split; intros; try discriminate; try lia.

Lemma array_grow_ok : grow_ok array_grow_cond array_grow_size.
Proof. intros n s. unfold array_grow_cond, array_grow_size. policy. Qed.

Lemma array_shrink_ok : shrink_ok array_shrink_cond array_shrink_size.
Proof. intros n s. unfold array_shrink_cond, array_shrink_size. policy. Qed.

(* lengths of lists built with app, map, firstn, skipn, repeat and cons (autorewrite would do the
   same at several times the cost) *)
Ltac len :=
  repeat (rewrite ?app_length, ?map_length, ?firstn_length, ?skipn_length, ?repeat_length; cbn [length]); lia.

Section MemLemmas.
  Variable X : Type.
  Implicit Types l a b : list X.

  Lemma set_at_app_l a b x y : set_at (a ++ y :: b) (length a) x = Some (a ++ x :: b).
  Proof. induction a as [|z a IH]; simpl; [reflexivity | rewrite IH; reflexivity]. Qed.

  Lemma set_at_length l i x l' : set_at l i x = Some l' -> length l' = length l.
  Proof.
    revert i l'. induction l as [|y l IH]; intros [|i] l' H; simpl in H; try discriminate.
    - injection H as <-. reflexivity.
    - destruct (set_at l i x) eqn:E; [|discriminate]. injection H as <-. simpl. f_equal. eauto.
  Qed.

  Lemma realloc_length junk l n : length (realloc junk l n) = n.
  Proof. unfold realloc. len. Qed.

  Lemma realloc_app_ge junk a b n :
    length a <= n -> realloc junk (a ++ b) n = a ++ realloc junk b (n - length a).
  Proof.
    intros H. unfold realloc. rewrite firstn_app, app_length, (firstn_all2 a), <- app_assoc by lia.
    do 3 f_equal. lia.
  Qed.

  Lemma realloc_le junk l n : n <= length l -> realloc junk l n = firstn n l.
  Proof. intros H. unfold realloc. replace (n - length l) with 0 by lia. apply app_nil_r. Qed.

  Lemma memmove_some l dst src n :
    src + n <= length l -> dst + n <= length l ->
    memmove l dst src n = Some (firstn dst l ++ firstn n (skipn src l) ++ skipn (dst + n) l).
  Proof. intros H1 H2. unfold memmove. apply Nat.leb_le in H1, H2. rewrite H1, H2. reflexivity. Qed.

  (* a block moved down by one leaves its last unit behind as a stale copy *)
  Lemma skipn_shift b x d : exists y, skipn (length b) (x :: b ++ d) = y :: d.
  Proof. revert x. induction b as [|w b IH]; intros x; [exists x; reflexivity | apply IH]. Qed.

  (* pop_at: shift b down by one *)
  Lemma memmove_delete a b x d :
    exists y, memmove (a ++ x :: b ++ d) (length a) (length a + 1) (length b) = Some (a ++ b ++ y :: d).
  Proof.
    destruct (skipn_shift b x d) as [y Hy]. exists y.
    rewrite memmove_some by len.
    rewrite firstn_app_len, !skipn_app_len, Hy. simpl skipn. rewrite firstn_app_len. reflexivity.
  Qed.

  (* push_at: shift b up by one and store x in the gap *)
  Lemma memmove_insert a b c d x :
    exists l1, memmove (a ++ b ++ c :: d) (length a + 1) (length a) (length b) = Some l1 /\
               set_at l1 (length a) x = Some (a ++ x :: b ++ d).
  Proof.
    rewrite memmove_some by len. eexists. split; [reflexivity|].
    rewrite firstn_app_2, <- Nat.add_assoc, skipn_app_len, skipn_app_all.
    rewrite firstn_app_len, Nat.add_comm, skipn_app_len. simpl skipn.
    destruct (b ++ c :: d) as [|z t] eqn:E; [destruct b; discriminate|]. simpl firstn.
    rewrite <- app_assoc. apply set_at_app_l.
  Qed.

  (* swap exchanges the ends of a segment, whichever end is named first *)
  Lemma swap_at_ends a x m y c :
    swap_at (a ++ x :: m ++ y :: c) (length a) (length (a ++ x :: m)) = Some (a ++ y :: m ++ x :: c) /\
    swap_at (a ++ x :: m ++ y :: c) (length (a ++ x :: m)) (length a) = Some (a ++ y :: m ++ x :: c).
  Proof.
    assert (E : forall z w, a ++ z :: m ++ w :: c = (a ++ z :: m) ++ w :: c) by (intros; rewrite <- app_assoc; reflexivity).
    assert (L : length (a ++ x :: m) = length (a ++ y :: m)) by len.
    unfold swap_at. rewrite nth_error_app_len, (E x y), nth_error_app_len, <- E. split.
    - rewrite set_at_app_l, L, E, set_at_app_l, <- E. reflexivity.
    - rewrite E, set_at_app_l, <- E. apply set_at_app_l.
  Qed.

  Lemma swap_at_same a x c : swap_at (a ++ x :: c) (length a) (length a) = Some (a ++ x :: c).
  Proof. unfold swap_at. rewrite nth_error_app_len, !set_at_app_l. reflexivity. Qed.

  (* swapped with the left end of a segment, the element behind the segment comes to stand before
     it; the segment keeps its elements (the two positions may coincide) *)
  Lemma swap_at_rotate a hi x c : exists hi',
    Permutation hi hi' /\
    swap_at (a ++ hi ++ x :: c) (length a) (length (a ++ hi)) = Some (a ++ x :: hi' ++ c) /\
    swap_at (a ++ hi ++ x :: c) (length (a ++ hi)) (length a) = Some (a ++ x :: hi' ++ c).
  Proof.
    destruct hi as [|h t].
    - exists []. rewrite app_nil_r. cbn [app]. auto using swap_at_same.
    - exists (t ++ [h]). rewrite <- app_assoc. split; [apply Permutation_cons_append | apply swap_at_ends].
  Qed.

  (* Array_Push_At's loop swaps the last element down to its position *)
  Lemma bubble_spec b : forall a x r,
    bubble (length b) (a ++ b ++ x :: r) (length (a ++ b)) = Some (a ++ x :: b ++ r).
  Proof.
    induction b as [|y b IH] using rev_ind; intros a x r; [reflexivity|].
    rewrite last_length, (app_assoc a b [y]), last_length. cbn [bubble].
    rewrite Nat.sub_succ, Nat.sub_0_r, <- (app_assoc b), (app_assoc a b).
    destruct (swap_at_ends (a ++ b) y [] x r) as [_ Hs]. rewrite last_length in Hs. cbn [app] in *.
    rewrite Hs, <- app_assoc, IH, <- app_assoc. reflexivity.
  Qed.

  Lemma write_all_app a ws rest :
    length ws <= length rest ->
    write_all (a ++ rest) (length a) ws = Some (a ++ ws ++ skipn (length ws) rest).
  Proof.
    revert a rest. induction ws as [|w ws IH]; intros a [|r rest] H; simpl in *; try lia; [reflexivity..|].
    rewrite set_at_app_l. change (a ++ w :: rest) with (a ++ [w] ++ rest).
    rewrite app_assoc, <- (last_length a w), IH, <- app_assoc by lia. reflexivity.
  Qed.

  Lemma write_all_full l ws : length l = length ws -> write_all l 0 ws = Some ws.
  Proof.
    intros H. pose proof (write_all_app [] ws l) as Hw. cbn in Hw.
    rewrite Hw, skipn_all2, app_nil_r by lia. reflexivity.
  Qed.
End MemLemmas.

Section SpecOps.
  Variable E : Type.
  Variable eqb : E -> E -> bool.
  Implicit Types l a b : list E.

  Lemma oob_inb n i : oob n i = negb (inb n i).
  Proof.
    unfold oob, inb. destruct (Z.ltb_spec i 0), (Z.leb_spec 0 i), (Z.geb_spec i (Z.of_nat n)),
      (Z.ltb_spec i (Z.of_nat n)); simpl; try reflexivity; lia.
  Qed.

  (* a key the contract accepts passes the range check of the C code and names a position *)
  Lemma index_ok n k : inb n (norm n k) = true -> oob n (norm n k) = false /\ Z.to_nat (norm n k) < n.
  Proof.
    intros H. rewrite oob_inb, H. split; [reflexivity|].
    apply andb_prop in H as [H1 H2]. apply Z.leb_le in H1. apply Z.ltb_lt in H2. lia.
  Qed.

  Lemma norm_nat n p : norm n (Z.of_nat p) = Z.of_nat p.
  Proof. unfold norm. destruct (Z.ltb_spec (Z.of_nat p) 0); [lia | reflexivity]. Qed.

  Lemma inb_nat n p : p < n -> inb n (Z.of_nat p) = true.
  Proof. intros H. apply andb_true_intro. split; [apply Z.leb_le | apply Z.ltb_lt]; lia. Qed.

  Lemma split_at l p : p < length l -> exists a x b, l = a ++ x :: b /\ length a = p.
  Proof.
    intros H. destruct (nth_error l p) as [x|] eqn:Hx; [|apply nth_error_None in Hx; lia].
    destruct (nth_error_split l p Hx) as (a & b & H1 & H2). eauto.
  Qed.

  Lemma split_le l p : p <= length l -> exists a b, l = a ++ b /\ length a = p.
  Proof.
    intros H. exists (firstn p l), (skipn p l). rewrite firstn_skipn, firstn_length. split; [reflexivity | lia].
  Qed.

  Lemma insert_at_app a b v : insert_at E (length a) v (a ++ b) = a ++ v :: b.
  Proof. unfold insert_at. rewrite firstn_app_len, skipn_app_all. reflexivity. Qed.

  Lemma remove_at_app a x b : remove_at E (length a) (a ++ x :: b) = a ++ b.
  Proof. unfold remove_at. rewrite firstn_app_len, <- Nat.add_1_r, skipn_app_len. reflexivity. Qed.

  Lemma replace_at_app a x b v : replace_at E (length a) v (a ++ x :: b) = a ++ v :: b.
  Proof. unfold replace_at. rewrite firstn_app_len, <- Nat.add_1_r, skipn_app_len. reflexivity. Qed.

  Lemma insert_at_length p v l : length (insert_at E p v l) = S (length l).
  Proof.
    unfold insert_at. rewrite app_length. cbn [length]. rewrite Nat.add_succ_r, <- app_length, firstn_skipn. reflexivity.
  Qed.

  Lemma remove_at_length p l : p < length l -> length (remove_at E p l) = length l - 1.
  Proof. intros H. unfold remove_at. len. Qed.

  Lemma replace_at_length p v l : p < length l -> length (replace_at E p v l) = length l.
  Proof. intros H. unfold replace_at. len. Qed.

  (* rem and mem: the first element equal to the argument *)
  Lemma find_first_spec l i v :
    match find_first E eqb l i v with
    | Some q => exists p, q = i + p /\ p < length l /\
                remove_first E eqb v l = remove_at E p l /\ existsb (fun x => eqb x v) l = true
    | None => existsb (fun x => eqb x v) l = false
    end.
  Proof.
    revert i. induction l as [|x l IH]; intros i; simpl; [reflexivity|].
    destruct (eqb x v).
    - exists 0. repeat split; lia.
    - specialize (IH (S i)). destruct (find_first E eqb l (S i) v); [|exact IH].
      destruct IH as (p & -> & Hp & Hr & He). exists (S p). unfold remove_at in *. simpl.
      rewrite Hr. repeat split; auto; lia.
  Qed.
End SpecOps.

(* Array cells are `map Some vs ++ rest`, Tuple items `map TObj vs ++ TTerm :: junk`: what the memory
   operations do to a block `map f vs ++ rest`, in terms of the list vs *)
Section Block.
  Variables (E X : Type) (f : E -> X).
  Implicit Types (vs ws : list E) (rest : list X).

  Lemma nth_error_block vs rest p :
    p < length vs -> nth_error (map f vs ++ rest) p = option_map f (nth_error vs p).
  Proof. intros H. rewrite nth_error_app1 by (rewrite map_length; exact H). apply nth_error_map. Qed.

  Lemma skipn_block vs rest : skipn (length vs) (map f vs ++ rest) = rest.
  Proof. rewrite <- (map_length f vs). apply skipn_app_all. Qed.

  Lemma set_at_block_end vs rest x y :
    set_at (map f vs ++ y :: rest) (length vs) x = Some (map f vs ++ x :: rest).
  Proof. rewrite <- (map_length f vs). apply set_at_app_l. Qed.

  Lemma set_at_block vs rest p v :
    p < length vs -> set_at (map f vs ++ rest) p (f v) = Some (map f (replace_at E p v vs) ++ rest).
  Proof.
    intros H. destruct (split_at E vs p H) as (a & x & b & -> & <-).
    rewrite replace_at_app, !map_app, <- !app_assoc. apply set_at_block_end.
  Qed.

  Lemma write_all_block vs (ws rest : list X) :
    length ws <= length rest ->
    write_all (map f vs ++ rest) (length vs) ws = Some (map f vs ++ ws ++ skipn (length ws) rest).
  Proof. rewrite <- (map_length f vs). apply write_all_app. Qed.

  (* pop_at moves the tail of vs and the first k cells behind it down by one *)
  Lemma memmove_delete_block vs rest p k :
    p < length vs -> k <= length rest ->
    exists y, memmove (map f vs ++ rest) p (p + 1) (length vs - S p + k) =
              Some (map f (remove_at E p vs) ++ firstn k rest ++ y :: skipn k rest).
  Proof.
    intros Hp Hk. destruct (split_at E vs p Hp) as (a & x & b & -> & <-).
    destruct (memmove_delete X (map f a) (map f b ++ firstn k rest) (f x) (skipn k rest)) as [y Hy].
    rewrite <- !app_assoc, firstn_skipn, app_length, firstn_length, !map_length, Nat.min_l in Hy by exact Hk.
    exists y. rewrite remove_at_app, !map_app, <- !app_assoc. cbn [map app].
    replace (length (a ++ x :: b) - S (length a) + k) with (length b + k) by len. exact Hy.
  Qed.
End Block.

(* an operation addressed by a key: inside the range (first goal) the key names a position,
   outside (second goal) model and specification both raise *)
Ltac index_case H :=
  rewrite ?oob_inb; destruct (inb _ _) eqn:H; cbn [negb fst snd]; [apply index_ok in H as [_ H]|].

Section Lift.
  Variable E : Type.
  Variable eqb ltb : E -> E -> bool.
  Variable zero : E.
  Notation spec_step := (spec_step E eqb ltb zero).
  Notation spec_ok := (spec_ok E eqb ltb zero).

  (* except for an in-range sort, the specification of a step is the function spec_step *)
  Lemma spec_ok_step c (l : list E) o :
    in_range E eqb c l o = false \/ o <> SSort E ->
    spec_ok c l o (fst (spec_step c l o)) (snd (spec_step c l o)).
  Proof.
    intros H. unfold SeqModels.spec_ok. destruct o; try apply surjective_pairing.
    destruct H as [->|H]; [apply surjective_pairing | congruence].
  Qed.

  Lemma sort_or_not (o : sop E) : o = SSort E \/ o <> SSort E.
  Proof. destruct o; auto; right; discriminate. Qed.

  Variable St : Type.
  Variable step : St -> sop E -> St * out E.
  Variable abs : St -> list E.
  Variable inv : St -> Prop.
  Variable c : kind.
  Variable extra : list E -> sop E -> Prop.

  Lemma refines_all_lift :
    (forall s o, inv s -> extra (abs s) o ->
       inv (fst (step s o)) /\ spec_ok c (abs s) o (abs (fst (step s o))) (snd (step s o))) ->
    forall ops s, inv s -> refines_all E eqb ltb zero St step abs inv c extra s ops.
  Proof.
    intros Hstep ops. induction ops as [|o ops IH]; intros s Hs; simpl; [exact I|].
    intros Hex. destruct (Hstep s o Hs Hex) as [Hi Hsp]. auto.
  Qed.

  Lemma refines_all_refines ops : forall s,
    refines_all E eqb ltb zero St step abs inv c extra s ops ->
    refines E eqb ltb zero St step abs inv c extra s ops.
  Proof.
    induction ops as [|o ops IH]; intros s H; simpl in *; [exact I|].
    intros _ Hex. destruct (H Hex) as (Hi & Hsp & Hr). auto.
  Qed.
End Lift.

Section ListRefines.
  Variable E : Type.
  Variable eqb ltb : E -> E -> bool.
  Variable zero : E.

  Notation l_step := (l_step E eqb zero).
  Notation spec_step := (spec_step E eqb ltb zero).
  Notation spec_ok := (spec_ok E eqb ltb zero).

  Lemma walk_spec (xs : list E) i pos : i < length xs -> walk E xs i pos = AtPos (pos + i).
  Proof.
    revert i pos. induction xs as [|x xs IH]; intros i pos H; simpl in *; [lia|].
    destruct i as [|i]; [f_equal; lia|]. rewrite IH by lia. f_equal. lia.
  Qed.

  (* List_At reaches the addressed position from either end *)
  Lemma l_at_spec (xs : list E) k :
    l_at E (l_new E xs) k =
    if inb (length xs) (norm (length xs) k) then AtPos (Z.to_nat (norm (length xs) k)) else AtOob.
  Proof.
    unfold l_at. cbn [l_new lnitems lelems]. index_case Hlt; [|reflexivity].
    destruct (Z.leb_spec (norm (length xs) k) (Z.of_nat (length xs / 2))).
    - apply walk_spec, Hlt.
    - unfold walk_prev. rewrite walk_spec by (rewrite rev_length; lia). f_equal. lia.
  Qed.

  Lemma l_values_from_spec (xs : list E) cnt i :
    i + cnt = length xs -> l_values_from E (l_new E xs) cnt i = Some (skipn i xs).
  Proof.
    revert i. induction cnt as [|cnt IH]; intros i H; simpl.
    - rewrite skipn_all2 by lia. reflexivity.
    - rewrite l_at_spec, norm_nat, inb_nat, Nat2Z.id, IH by lia.
      destruct (split_at E xs i) as (a & x & b & -> & <-); [lia|].
      rewrite nth_error_app_len, skipn_app_all, <- Nat.add_1_r, skipn_app_len. reflexivity.
  Qed.

  (* on an invariant state the model computes the specification, inside the contract and outside *)
  Theorem l_step_spec (xs : list E) (o : sop E) :
    l_step (l_new E xs) o = (l_new E (fst (spec_step KList xs o)), snd (spec_step KList xs o)).
  Proof.
    assert (fin : forall ys n (r : out E), n = length ys -> (mkL E ys n, r) = (l_new E ys, r)) by (intros ys n r ->; reflexivity).
    unfold SeqModels.spec_step.
    destruct o; cbn [SeqModels.l_step SeqModels.in_range push_at_pos l_new lelems lnitems negb fst snd];
      try rewrite l_at_spec; try reflexivity.   (* closes mem, sort, assign *)
    - (* push *) apply fin. len.
    - (* pop *) destruct xs as [|x xs]; [reflexivity|]. cbn [length Nat.eqb negb fst snd].
      apply fin. rewrite removelast_firstn_len. len.
    - (* push_at *) destruct (k =? 0)%Z; [reflexivity|].
      index_case Hlt; [|reflexivity]. apply fin. rewrite insert_at_length. reflexivity.
    - (* pop_at *) index_case Hlt; [|reflexivity]. apply fin. rewrite remove_at_length by exact Hlt. reflexivity.
    - (* set *) index_case Hlt; [|reflexivity]. apply fin. rewrite replace_at_length by exact Hlt. reflexivity.
    - (* get *) index_case Hlt; [|reflexivity].
      destruct (nth_error xs _) eqn:Hn; [reflexivity | apply nth_error_None in Hn; lia].
    - (* rem *) pose proof (find_first_spec E eqb xs 0 v) as Hf.
      destruct (find_first E eqb xs 0 v) as [q|]; [destruct Hf as (p & -> & Hp & -> & ->) | rewrite Hf; reflexivity].
      cbn [negb fst snd]. apply fin. rewrite remove_at_length by exact Hp. reflexivity.
    - (* concat *) apply fin. len.
    - (* append *) apply fin. len.
    - (* resize *) destruct (Nat.eqb_spec n 0) as [->|Hn0]; [reflexivity|].
      destruct (Nat.ltb_spec n (length xs)) as [Hlt|Hge].
      + destruct (Nat.ltb_spec (length xs) (length xs - n)); [lia|].
        replace (length xs - (length xs - n)) with n by lia. replace (n - length xs) with 0 by lia.
        cbn [repeat]. rewrite app_nil_r. apply fin. len.
      + rewrite firstn_all2 by lia. apply fin. len.
    - (* copy *) unfold l_values. cbn [l_new lnitems]. rewrite (l_values_from_spec xs (length xs) 0) by reflexivity.
      reflexivity.
  Qed.

  Theorem l_step_ok (l : llist E) (o : sop E) :
    l_inv E l ->
    l_inv E (fst (l_step l o)) /\ spec_ok KList (l_abs E l) o (l_abs E (fst (l_step l o))) (snd (l_step l o)).
  Proof.
    destruct l as [xs n]. unfold l_inv, l_abs. cbn [lelems lnitems]. intros ->.
    fold (l_new E xs). rewrite l_step_spec. split; [reflexivity|].
    apply spec_ok_step. destruct o; auto; right; discriminate.
  Qed.
End ListRefines.

Section ArrayRefines.
  Variable E : Type.
  Variable eqb ltb : E -> E -> bool.
  Variable zero : E.
  Variables grow_cond shrink_cond : nat -> nat -> bool.
  Variables grow_size shrink_size : nat -> nat -> nat.
  Hypothesis Hgrow : grow_ok grow_cond grow_size.
  Hypothesis Hshrink : shrink_ok shrink_cond shrink_size.
  (* discharged by SortProofs.qsort_correct for an asymmetric, transitive ltb *)
  Hypothesis qsort_ok : forall xs : list E,
    exists ys, qsort ltb xs = Ok ys /\ Permutation xs ys /\ sorted_by_ltb E ltb ys.

  Notation a_step := (a_step E eqb ltb grow_cond shrink_cond grow_size shrink_size).
  Notation a_reserve_more := (a_reserve_more E grow_cond grow_size).
  Notation a_reserve_less := (a_reserve_less E shrink_cond shrink_size).
  Notation a_pop_pos := (a_pop_pos E shrink_cond shrink_size).
  Notation spec_step := (spec_step E eqb ltb zero).
  Notation spec_ok := (spec_ok E eqb ltb zero).
  Notation in_range := (in_range E eqb).
  Notation SomeE := (@Some E).

  (* an Array whose store begins with the cells of vs; an invariant state is `store (length vs) vs rest` *)
  Definition store (n : nat) (vs : list E) (rest : list (option E)) : array E :=
    mkA E (map SomeE vs ++ rest) n (length vs + length rest).

  Lemma a_inv_store (a : array E) : a_inv E a <-> exists vs rest, a = store (length vs) vs rest.
  Proof.
    split.
    - intros (vs & rest & Hc & Hn & Hl). exists vs, rest. destruct a as [cs n s]. cbn in *. subst.
      unfold store. rewrite app_length, map_length. reflexivity.
    - intros (vs & rest & ->). exists vs, rest. cbn. rewrite app_length, map_length. auto.
  Qed.

  Lemma cells_values_shape (vs : list E) rest :
    cells_values E (map SomeE vs ++ rest) (length vs) = Some vs.
  Proof. induction vs as [|v vs IH]; simpl; [reflexivity | rewrite IH; reflexivity]. Qed.

  Lemma a_abs_store vs rest : a_abs E (store (length vs) vs rest) = vs.
  Proof. unfold a_abs, a_values. cbn. rewrite cells_values_shape. reflexivity. Qed.

  Lemma cells_find_shape (vs : list E) rest i v :
    cells_find E eqb (map SomeE vs ++ rest) (length vs) i v = Some (find_first E eqb vs i v).
  Proof.
    revert i. induction vs as [|x vs IH]; intros i; simpl; [reflexivity|].
    destruct (eqb x v); [reflexivity | apply IH].
  Qed.

  (* every change of capacity is a realloc to a size that keeps the items *)
  Lemma realloc_store n m vs rest :
    length vs <= m ->
    exists rest', mkA E (realloc None (map SomeE vs ++ rest) m) n m = store n vs rest' /\
                  length vs + length rest' = m.
  Proof.
    intros H. exists (realloc None rest (m - length vs)). unfold store.
    rewrite realloc_app_ge, map_length, realloc_length by (rewrite map_length; exact H).
    split; [f_equal|]; lia.
  Qed.

  Lemma reserve_more_store n vs rest :
    length vs <= n ->
    exists rest', a_reserve_more (store n vs rest) = store n vs rest' /\ n <= length vs + length rest'.
  Proof.
    intros H. unfold SeqModels.a_reserve_more. cbn [store nitems nslots cells].
    destruct (Hgrow n (length vs + length rest)) as [Ht Hf]. destruct (grow_cond _ _).
    - destruct (realloc_store n (grow_size n (length vs + length rest)) vs rest) as (rest' & Hr & Hl);
        [specialize (Ht eq_refl); lia|].
      exists rest'. rewrite Hl. auto.
    - exists rest. auto.
  Qed.

  Lemma reserve_less_store n vs rest :
    length vs <= n -> exists rest', a_reserve_less (store n vs rest) = store n vs rest'.
  Proof.
    intros H. unfold SeqModels.a_reserve_less. cbn [store nitems nslots cells].
    pose proof (Hshrink n (length vs + length rest)) as Ht. destruct (shrink_cond _ _).
    - destruct (realloc_store n (shrink_size n (length vs + length rest)) vs rest) as (rest' & Hr & _);
        [specialize (Ht eq_refl); lia | eauto].
    - eauto.
  Qed.

  (* on the invariant state holding vs, operation o does what the specification says, inside the
     contract and outside; one lemma per operation *)
  Definition a_follows (vs : list E) rest (o : sop E) : Prop :=
    exists rest', a_step (store (length vs) vs rest) o =
                  (store (length (fst (spec_step KArray vs o))) (fst (spec_step KArray vs o)) rest',
                   snd (spec_step KArray vs o)).
  (* unfolds a_follows and the step of the specification and of the model at the operation, so that both sides show
     their range tests *)
  Ltac open_spec := red; unfold SeqModels.spec_step; cbn [SeqModels.in_range push_at_pos SeqModels.a_step].

  (* Array_Push and Array_Push_At begin alike: room for one more, the new element behind the last one *)
  Lemma a_make_room vs rest v :
    exists rest',
      set_at (cells E (a_reserve_more (store (S (length vs)) vs rest))) (length vs) (SomeE v) =
        Some (map SomeE vs ++ SomeE v :: rest') /\
      nslots E (a_reserve_more (store (S (length vs)) vs rest)) = length vs + S (length rest').
  Proof.
    destruct (reserve_more_store (S (length vs)) vs rest) as ([|c rest'] & -> & Hle);
      [lia | cbn in Hle; lia |].
    exists rest'. cbn [store cells nslots]. rewrite set_at_block_end. auto.
  Qed.

  Lemma a_push_ok vs rest v : a_follows vs rest (SPush E v).
  Proof.
    open_spec. cbn [negb fst snd]. destruct (a_make_room vs rest v) as (rest' & Hs & Hn).
    unfold store in *. cbn [cells nitems nslots] in *. rewrite Hs, Hn.
    exists rest'. rewrite map_app, <- app_assoc, last_length, Nat.add_succ_r. reflexivity.
  Qed.

  Lemma a_pop_ok vs rest : a_follows vs rest (SPop E).
  Proof.
    open_spec. destruct vs as [|x vs _] using rev_ind; [exists rest; reflexivity|].
    cbn [store nitems]. rewrite last_length, removelast_last. cbn [Nat.eqb negb fst snd].
    destruct (reserve_less_store (length vs) vs (Some x :: rest)) as [rest' Hr]; [lia|].
    exists rest'. rewrite <- Hr. unfold store. cbn [cells nslots].
    rewrite map_app, <- app_assoc, last_length, Nat.sub_succ, Nat.sub_0_r. cbn [length]. rewrite Nat.add_succ_r. reflexivity.
  Qed.

  Lemma a_push_at_ok vs rest k v : a_follows vs rest (SPushAt E k v).
  Proof.
    open_spec. cbn [store nitems]. index_case Hlt; [|exists rest; reflexivity].
    set (p := Z.to_nat _) in *. clearbody p. destruct (a_make_room vs rest v) as (rest' & Hs & Hn).
    unfold store in *. cbn [cells nitems nslots] in *. rewrite Hs, Hn. exists rest'.
    destruct (split_le E vs p) as (a & b & -> & <-); [lia|].
    rewrite insert_at_app, !map_app, <- !app_assoc.
    replace (length (a ++ b) - length a) with (length b) by len.
    pose proof (bubble_spec _ (map SomeE b) (map SomeE a) (SomeE v) rest') as Hb.
    rewrite <- map_app, !map_length in Hb. rewrite Hb.
    rewrite !app_length. cbn [length]. rewrite !Nat.add_succ_r. reflexivity.
  Qed.

  Lemma a_pop_pos_ok vs rest p :
    p < length vs ->
    exists rest', a_pop_pos (store (length vs) vs rest) p =
                  (store (length (remove_at E p vs)) (remove_at E p vs) rest', OUnit E).
  Proof.
    intros Hp. unfold SeqModels.a_pop_pos. cbn [store cells nitems nslots].
    destruct (memmove_delete_block E _ SomeE vs rest p 0 Hp (Nat.le_0_l _)) as [y Hm].
    replace (length vs - 1 - p) with (length vs - S p + 0) by lia. rewrite Hm. cbn [firstn skipn app].
    pose proof (remove_at_length E p vs Hp) as Hl.
    destruct (reserve_less_store (length vs - 1) (remove_at E p vs) (y :: rest)) as [rest' Hr]; [lia|].
    exists rest'. rewrite Hl, <- Hr. unfold store. rewrite Hl. cbn [length]. do 3 f_equal. lia.
  Qed.

  Lemma a_pop_at_ok vs rest k : a_follows vs rest (SPopAt E k).
  Proof.
    open_spec. unfold a_pop_at. cbn [store nitems]. index_case Hlt; [|exists rest; reflexivity].
    apply a_pop_pos_ok, Hlt.
  Qed.

  Lemma a_set_ok vs rest k v : a_follows vs rest (SSet E k v).
  Proof.
    open_spec. cbn [store cells nitems nslots]. exists rest. index_case Hlt; [|reflexivity].
    rewrite set_at_block by exact Hlt. unfold store. rewrite replace_at_length by exact Hlt. reflexivity.
  Qed.

  Lemma a_cell_store n vs rest p : p < length vs -> a_cell E (store n vs rest) p = nth_error vs p.
  Proof.
    intros H. unfold a_cell. cbn [store cells]. rewrite nth_error_block by exact H.
    destruct (nth_error vs p); reflexivity.
  Qed.

  Lemma a_get_ok vs rest k : a_follows vs rest (SGet E k).
  Proof.
    open_spec. change (nitems E (store (length vs) vs rest)) with (length vs). exists rest.
    index_case Hlt; [|reflexivity]. rewrite a_cell_store by exact Hlt.
    destruct (nth_error vs _) eqn:Hv; [reflexivity | apply nth_error_None in Hv; lia].
  Qed.

  Lemma a_mem_ok vs rest v : a_follows vs rest (SMem E v).
  Proof.
    open_spec. cbn [negb fst snd store cells nitems]. rewrite cells_find_shape. pose proof (find_first_spec E eqb vs 0 v) as Hf. exists rest.
    destruct (find_first E eqb vs 0 v); [destruct Hf as (_ & _ & _ & _ & ->) | rewrite Hf]; reflexivity.
  Qed.

  Lemma a_rem_ok vs rest v : a_follows vs rest (SRem E v).
  Proof.
    open_spec. cbn [store cells nitems]. rewrite cells_find_shape. pose proof (find_first_spec E eqb vs 0 v) as Hf.
    destruct (find_first E eqb vs 0 v) as [q|]; [|rewrite Hf; exists rest; reflexivity].
    destruct Hf as (p & -> & Hp & -> & ->). cbn [negb fst snd].
    unfold a_pop_at. cbn [store nitems]. rewrite norm_nat, oob_inb, inb_nat, Nat2Z.id by exact Hp.
    apply a_pop_pos_ok, Hp.
  Qed.

  Lemma a_concat_ok vs rest ws : a_follows vs rest (SConcat E ws).
  Proof.
    open_spec. cbn [negb fst snd store nitems].
    destruct (reserve_more_store (length vs + length ws) vs rest) as (rest' & Hr & Hle); [lia|].
    unfold store in *. cbn [cells nitems nslots] in *. rewrite Hr. cbn [cells nslots].
    rewrite write_all_block by len. eexists. rewrite map_app, <- app_assoc, map_length, app_length. do 2 f_equal. len.
  Qed.

  Lemma a_resize_ok vs rest n : a_follows vs rest (SResize E n).
  Proof.
    open_spec. cbn [negb fst snd store cells nitems]. destruct (Nat.eqb_spec n 0) as [->|_]; [exists []; reflexivity|].
    replace (map SomeE vs ++ rest) with (map SomeE (firstn n vs) ++ map SomeE (skipn n vs) ++ rest)
      by (rewrite app_assoc, <- map_app, firstn_skipn; reflexivity).
    destruct (realloc_store (Nat.min n (length vs)) n (firstn n vs) (map SomeE (skipn n vs) ++ rest))
      as (rest' & Hr & _); [len|].
    exists rest'. rewrite firstn_length, Hr. reflexivity.
  Qed.

  Lemma a_new_store ws : a_new E ws = store (length ws) ws [].
  Proof. unfold a_new, store. rewrite app_nil_r, Nat.add_0_r. reflexivity. Qed.

  Lemma a_sort_ok vs rest :
    exists ys, a_step (store (length vs) vs rest) (SSort E) = (store (length ys) ys rest, OUnit E) /\
               Permutation vs ys /\ sorted_by_ltb E ltb ys.
  Proof.
    cbn [SeqModels.a_step]. unfold a_values. cbn [store cells nitems nslots].
    rewrite cells_values_shape, skipn_block. destruct (qsort_ok vs) as (ys & -> & Hp & Hs).
    exists ys. unfold store. rewrite (Permutation_length Hp). auto.
  Qed.

  Theorem a_step_spec vs rest o : o <> SSort E -> a_follows vs rest o.
  Proof.
    destruct o; intros Ho.
    - apply a_push_ok.
    - apply a_pop_ok.
    - apply a_push_at_ok.
    - apply a_pop_at_ok.
    - apply a_set_ok.
    - apply a_get_ok.
    - apply a_mem_ok.
    - apply a_rem_ok.
    - apply a_concat_ok.
    - exact (a_push_ok vs rest v).
    - apply a_resize_ok.
    - congruence.
    - open_spec. exists []. cbn [negb fst snd]. rewrite a_new_store. reflexivity.
    - open_spec. exists []. unfold a_values. cbn [store cells nitems negb fst snd].
      rewrite cells_values_shape, a_new_store. reflexivity.
  Qed.

  Theorem a_step_ok (a : array E) (o : sop E) :
    a_inv E a ->
    a_inv E (fst (a_step a o)) /\
    spec_ok KArray (a_abs E a) o (a_abs E (fst (a_step a o))) (snd (a_step a o)).
  Proof.
    intros Hi. apply a_inv_store in Hi as (vs & rest & ->). rewrite a_abs_store.
    destruct (sort_or_not E o) as [->|Ho].
    - destruct (a_sort_ok vs rest) as (ys & -> & Hp & Hs). cbn [fst snd]. rewrite a_abs_store.
      split; [apply a_inv_store; eauto | cbn; auto].
    - destruct (a_step_spec vs rest o Ho) as (rest' & ->). cbn [fst snd]. rewrite a_abs_store.
      split; [apply a_inv_store; eauto | apply spec_ok_step; auto].
  Qed.

  Theorem a_step_refines (a : array E) (o : sop E) :
    a_inv E a -> in_range KArray (a_abs E a) o = true ->
    a_inv E (fst (a_step a o)) /\
    spec_ok KArray (a_abs E a) o (a_abs E (fst (a_step a o))) (snd (a_step a o)).
  Proof. intros Hi _. apply a_step_ok, Hi. Qed.
End ArrayRefines.

Section Observers.
  Variable E : Type.

  (* the cursor stands before x, the elements passed are collected *)
  Lemma a_iter_loop_spec rest : forall suf pre x,
    a_iter_loop E (S (length suf)) (store E (length (pre ++ x :: suf)) (pre ++ x :: suf) rest)
                (Z.of_nat (length pre)) (rev pre) = Ok (pre ++ x :: suf).
  Proof.
    induction suf as [|y suf IH]; intros pre x; cbn [a_iter_loop];
      rewrite Nat2Z.id, a_cell_store, nth_error_app_len by len; cbn [store nitems].
    - rewrite (proj2 (Z.leb_le _ _)) by len. cbn [rev]. rewrite rev_involutive. reflexivity.
    - rewrite (proj2 (Z.leb_gt _ _)) by len.
      replace (Z.of_nat (length pre) + 1)%Z with (Z.of_nat (length (pre ++ [x]))) by len.
      rewrite <- rev_unit. specialize (IH (pre ++ [x]) y). rewrite <- app_assoc in IH. exact IH.
  Qed.

  Theorem a_observe (a : array E) :
    a_inv E a -> nitems E a = length (a_abs E a) /\ a_iter E a = Ok (a_abs E a).
  Proof.
    intros Hi. apply a_inv_store in Hi as (vs & rest & ->). rewrite a_abs_store.
    split; [reflexivity|]. unfold a_iter. cbn [store nitems].
    destruct vs as [|v vs]; [reflexivity | apply (a_iter_loop_spec rest vs [] v)].
  Qed.

  Theorem l_observe (l : llist E) :
    l_inv E l -> lnitems E l = length (l_abs E l) /\ l_iter E l = Ok (l_abs E l).
  Proof.
    destruct l as [[|x xs] n]; unfold l_inv, l_abs, l_iter; cbn; intros ->; split; reflexivity.
  Qed.
End Observers.

Section SpecFacts.
  Variable E : Type.
  Variable eqb ltb : E -> E -> bool.
  Variable zero : E.
  Notation spec_step := (spec_step E eqb ltb zero).

  Lemma spec_get_at c (l : list E) k p v :
    norm (length l) k = Z.of_nat p -> nth_error l p = Some v ->
    in_range E eqb c l (SGet E k) = true /\ spec_step c l (SGet E k) = (l, OVal E v).
  Proof.
    intros Hk Hv. assert (Hp : p < length l) by (apply nth_error_Some; congruence).
    assert (Hin : in_range E eqb c l (SGet E k) = true) by (cbn; rewrite Hk; apply inb_nat, Hp).
    split; [exact Hin|]. unfold SeqModels.spec_step. rewrite Hin. cbn. rewrite Hk, Nat2Z.id, Hv. reflexivity.
  Qed.

  Theorem spec_get_positive c (l : list E) i v :
    nth_error l i = Some v ->
    in_range E eqb c l (SGet E (Z.of_nat i)) = true /\
    spec_step c l (SGet E (Z.of_nat i)) = (l, OVal E v).
  Proof. apply spec_get_at, norm_nat. Qed.

  Lemma remove_first_app l1 x l2 v :
    eqb x v = true -> (forall y, In y l1 -> eqb y v = false) ->
    remove_first E eqb v (l1 ++ x :: l2) = l1 ++ l2.
  Proof.
    intros Hx Hl. induction l1 as [|y l1 IH]; simpl.
    - rewrite Hx. reflexivity.
    - rewrite (Hl y) by (simpl; auto). f_equal. apply IH. intros z Hz. apply Hl. simpl. auto.
  Qed.

  Lemma spec_ok_no_crash c (l : list E) o l' r :
    spec_ok E eqb ltb zero c l o l' r -> r <> OCrash E /\ r <> OFuel E.
  Proof.
    intros H.
    assert (Hs : spec_step c l o = (l', r) \/ r = OUnit E).
    { unfold spec_ok in H. destruct o; auto.
      destruct (in_range E eqb c l (SSort E)); [right; tauto | left; exact H]. }
    destruct Hs as [Hs| ->]; [|split; discriminate].
    unfold SeqModels.spec_step in Hs.
    destruct (negb (in_range E eqb c l o)); [injection Hs as <- <-; split; discriminate|].
    (* every branch of spec_step returns OUnit, OVal, OBool or ORaise: split its tests until the pair is visible *)
    destruct o; simpl in Hs;
      repeat match type of Hs with
             | context [match ?x with _ => _ end] => destruct x
             end;
      injection Hs as <- <-; split; discriminate.
  Qed.

  (* the executable reference sort of the specification driver is an instance of the sort relation; no theorem of C04
     uses this section, it justifies the driver's oracle at a sort step *)
  Section ISort.
    Hypothesis ltb_asym : forall x y, ltb x y = true -> ltb y x = false.
    Hypothesis ltb_negtrans : forall x y z, ltb y x = false -> ltb z y = false -> ltb z x = false.

    Lemma insert_sorted_perm x l : Permutation (x :: l) (insert_sorted E ltb x l).
    Proof.
      induction l as [|y l IH]; simpl; [apply Permutation_refl|].
      destruct (le E ltb x y); [apply Permutation_refl|].
      eapply perm_trans; [apply perm_swap|]. apply perm_skip. exact IH.
    Qed.

    Lemma insert_sorted_sorted x l :
      sorted_by_ltb E ltb l -> sorted_by_ltb E ltb (insert_sorted E ltb x l).
    Proof.
      unfold sorted_by_ltb. induction l as [|y l IH]; intros Hs; simpl.
      - constructor; constructor.
      - apply StronglySorted_inv in Hs as [Hs Hy].
        unfold le. destruct (ltb y x) eqn:Eyx; simpl.
        + constructor; [apply IH; exact Hs|].
          eapply Permutation_Forall; [apply insert_sorted_perm|]. constructor; [apply ltb_asym, Eyx | exact Hy].
        + constructor; [constructor; assumption|]. constructor; [exact Eyx|].
          eapply Forall_impl; [|exact Hy]. intros z Hz. eapply ltb_negtrans; eassumption.
    Qed.

    Theorem isort_ok (l : list E) : Permutation l (isort E ltb l) /\ sorted_by_ltb E ltb (isort E ltb l).
    Proof.
      induction l as [|x l [IHp IHs]]; simpl.
      - split; [constructor | constructor].
      - split.
        + eapply perm_trans; [apply perm_skip; exact IHp | apply insert_sorted_perm].
        + apply insert_sorted_sorted. exact IHs.
    Qed.

    Theorem spec_sort_ok c (l : list E) :
      in_range E eqb c l (SSort E) = true ->
      spec_ok E eqb ltb zero c l (SSort E) (fst (spec_step c l (SSort E))) (snd (spec_step c l (SSort E))).
    Proof.
      intros Hin. unfold spec_ok. rewrite Hin. unfold SeqModels.spec_step. rewrite Hin. simpl.
      destruct (isort_ok l). repeat split; auto.
    Qed.
  End ISort.
End SpecFacts.
