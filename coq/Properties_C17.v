(* Properties_C17.v — property C17: the collector's registry is exactly the set of live
   managed objects.  The statements, each followed by Print Assumptions; the arguments are in
   coq/RegistryProofs.v, and a proof here only instantiates its theorems (stated there for any
   admissible displacement rule, prime table and load factor) with the generated parameters and
   projects what the statement asks for; led_list_spec is a short induction of its own.  Examples of
   non-vacuity, proved here, at the end.
   Vocabulary (coq/RegistryModel.v, coq/RegistryProofs.v):
     Gstep/Grun/Gsweep/Grem  the model of src/GC.c instantiated with the displacement rule,
                     prime table and load factor re-read from the source (Generated.v)
     hashf           GC_Hash, ARBITRARY (every address pattern); owns = what destructors delete,
                     ARBITRARY; rf/nf = shape of the pending-list handling (both variants)
     Inv             robin-hood invariant (ordering, stored homes, no duplicate address)
                     /\ nitems = occupied, below nslots unless both are 0 /\ all addresses in [minptr, maxptr]
                     /\ pending objects are not in the table /\ registry = ledger of the event log
                     /\ no mark bit set;   InvM = Inv without the last clause
     Reg g q s       address q is in the table with root flag s
     led evs q s     q was allocated with flag s and neither deleted nor reclaimed since
     admissible      allocator contract: GC_Set never gets an address that is still registered *)
From Coq Require Import List NArith.
From CelloV Require Import Generated RobinHood RobinHoodProofs RegistryModel RegistryProofs.
Import ListNotations.

Theorem gc_ideal_size_gt : forall n : nat,
  n < ideal_size gc_primes gc_load_num gc_load_den n.
Proof. exact RegistryProofs.gc_ideal_gt. Qed.
Print Assumptions gc_ideal_size_gt.

Theorem registry_init : forall hashf, Inv hashf gc_init /\ Quiet gc_init.
Proof. exact RegistryProofs.Inv_init. Qed.
Print Assumptions registry_init.

(* every operation, from every state satisfying the invariant: no loop runs out of fuel, the
   C code never computes `% 0`, the invariant is kept, mem answers by the registry *)
Theorem registry_step : forall hashf d rf nf g o, dtors_ok d ->
  Inv hashf g -> Quiet g -> admissible g o ->
  exists g' out, Gstep hashf d rf nf g o = (g', out) /\ out <> OFuel /\ out <> OCrash /\
    Inv hashf g' /\ Quiet g' /\
    (forall p, o = OMem p -> out = OBool true <-> exists s, Reg g p s).
Proof. exact RegistryProofs.registry_step_thm. Qed.
Print Assumptions registry_step.

Theorem registry_history : forall hashf d rf nf ops, dtors_ok d ->
  Gadm hashf d rf nf ops gc_init ->
  Inv hashf (Grun hashf d rf nf ops gc_init) /\ Quiet (Grun hashf d rf nf ops gc_init).
Proof. exact RegistryProofs.registry_history_thm. Qed.
Print Assumptions registry_history.

(* ... hence at every intermediate step of a history *)
Theorem registry_every_step : forall hashf d rf nf done rest, dtors_ok d ->
  Gadm hashf d rf nf (done ++ rest) gc_init ->
  Inv hashf (Grun hashf d rf nf done gc_init) /\ Quiet (Grun hashf d rf nf done gc_init).
Proof.
  intros hashf d rf nf done rest Hd H. apply registry_history_thm; [exact Hd|]. exact (proj1 (Gadm_app _ _ _ _ _ _ _ H)).
Qed.
Print Assumptions registry_every_step.

(* C17 in one statement *)
Theorem registry_is_ledger : forall hashf d rf nf ops, dtors_ok d ->
  Gadm hashf d rf nf ops gc_init ->
  let g := Grun hashf d rf nf ops gc_init in
  (forall q s, Reg g q s <-> led (evs g) q s) /\
  NoDup (map ptr (entries gentry (slots g))) /\
  nitems g = length (entries gentry (slots g)) /\
  (nslots g = 0 \/ nitems g < nslots g) /\
  (forall p, exists b, gc_mem hashf g p = Some b /\ (b = true <-> exists s, led (evs g) p s)) /\
  (forall e, In e (entries gentry (slots g)) -> marked e = false /\ (minptr g <= ptr e <= maxptr g)%N) /\
  pending g = [].
Proof.
  intros hashf d rf nf ops Hd Ha g. destruct (registry_history_thm hashf d rf nf ops Hd Ha) as [[H Hcl] Hq].
  fold g in H, Hcl, Hq. destruct (inv_core hashf g H) as [_ [_ Huq]].
  split; [apply (inv_led hashf g H)|]. split; [apply (UQ_NoDup N gentry ptr), Huq|].
  split; [apply (inv_count hashf g H)|]. split; [apply (inv_room hashf g H)|].
  split; [|split; [|exact Hq]].
  - intros p. destruct (gc_mem_ok hashf g p H) as [b [Hb Hbs]]. exists b. split; [exact Hb|].
    rewrite Hbs. split; intros [s Hs]; exists s; apply (inv_led hashf g H); assumption.
  - intros e He. apply in_entries in He. split; [apply Hcl; assumption|apply (inv_bounds hashf g H); assumption].
Qed.
Print Assumptions registry_is_ledger.

(* the compaction loop (with `continue` and no i++ after a removal, wrap-around included) *)
Theorem sweep_loop_exact : forall hashf (l : list gslot) nit pl ev,
  Core hashf l -> (length l = 0 \/ occupied gentry l < length l) ->
  exists l' rm,
    sweep_loop (length l + occupied gentry l + 1) l 0 nit pl ev
      = Some (l', nit - length rm, pl ++ pend_of rm, reclaim_evs rm ++ ev) /\
    Core hashf l' /\ length l' = length l /\
    (forall x, Holds gentry l' x <-> Holds gentry l x /\ keeper x = true) /\
    (forall x, In x rm <-> Holds gentry l x /\ keeper x = false) /\
    occupied gentry l' + length rm = occupied gentry l.
Proof.
  intros hashf l nit pl ev Hc Hroom. apply sweep_loop_ok; auto; [intros s h e Hs; inversion Hs|].
  rewrite PeanoNat.Nat.sub_0_r, PeanoNat.Nat.add_1_r. apply PeanoNat.Nat.lt_succ_diag_r.
Qed.
Print Assumptions sweep_loop_exact.

Theorem sweep_total : forall hashf d rf nf g, dtors_ok d -> InvM hashf g -> Quiet g ->
  exists g', Gsweep hashf d rf nf g = Some g' /\ Inv hashf g' /\ Quiet g'.
Proof. exact RegistryProofs.sweep_total_thm. Qed.
Print Assumptions sweep_total.

(* removals while a sweep is in progress / from inside another removal: the model's nesting
   fuel `depth` suffices, whatever the destructors delete and allocate on the way *)
Theorem removal_during_sweep : forall hashf d rf g p f, dtors_ok d ->
  Inv hashf g -> depth g <= f ->
  exists g', Grem hashf d rf f g p = Some g' /\ Inv hashf g' /\
             length (pending g') = length (pending g).
Proof.
  intros hashf d rf g p f [H1 [H2 H3]] Hi Hf.
  destruct (gc_rem_ok hashf gc_swap gc_primes gc_load_num gc_load_den (d_owns d) (d_spawns d) rf
              gc_swap_le gc_swap_ge gc_ideal_gt (d_olist d) H2 H3 f g p Hi) as [g' [Hr [Hi' [_ Hp']]]]; [|eauto].
  exact (depth_fuel hashf (d_owns d) (d_spawns d) (d_olist d) H1 g p f (proj1 Hi) Hf).
Qed.
Print Assumptions removal_during_sweep.

(* allocations while a sweep is in progress (GC_Set called from a destructor): registered with
   the root flag, counted, invariant (bounds, ledger, robin-hood order through Resize_More) kept *)
Theorem allocation_during_sweep : forall hashf d g p r, dtors_ok d ->
  Inv hashf g -> ~ In p (d_olist d) ->
  exists g', Gspawn hashf g (p, r) = Some g' /\ Inv hashf g' /\
             length (pending g') = length (pending g) /\
             (running g = true -> is_reg (slots g) p = false -> is_pending p (pending g) = false ->
              Reg g' p r /\ nitems g' = S (nitems g) /\ hd EvViol (evs g') <> EvViol \/ pending g = []).
Proof.
  intros hashf d g p r _ Hi Hno.
  destruct (spawn_set_ok hashf gc_swap gc_primes gc_load_num gc_load_den gc_swap_le gc_swap_ge gc_ideal_gt
              (d_olist d) g p r Hi Hno) as [g' [Hs [[Hi' [_ Hp']] Hr]]]. eauto.
Qed.
Print Assumptions allocation_during_sweep.

(* any allocation of a destructor, temporaries included (allocated and deleted again inside
   the same destructor, possibly at an address released earlier in the same sweep) *)
Theorem destructor_action : forall hashf d rf g a f, dtors_ok d ->
  Inv hashf g -> 0 < f -> ~ In (fst (dact_pair a)) (d_olist d) ->
  exists g', Gact hashf d rf f g a = Some g' /\ Inv hashf g' /\
             length (pending g') = length (pending g).
Proof.
  intros hashf d rf g a f [H1 [H2 H3]] Hi Hf Hno.
  destruct (act_set_ok hashf gc_swap gc_primes gc_load_num gc_load_den (d_owns d) (d_spawns d) rf
              gc_swap_le gc_swap_ge gc_ideal_gt (d_olist d) f) with (g := g) (a := a) as [g' [Ha [Hi' [_ Hp']]]]; eauto.
  exact (gc_rem_ok hashf gc_swap gc_primes gc_load_num gc_load_den (d_owns d) (d_spawns d) rf
           gc_swap_le gc_swap_ge gc_ideal_gt (d_olist d) H2 H3 f).
Qed.
Print Assumptions destructor_action.

(* GC_Mark_Item on a registered aligned address: the [minptr, maxptr] pre-filter lets it
   through, the probe loop reaches it, it ends up marked (interface to C01) *)
Theorem mark_item_marks_registered : forall hashf g p s,
  InvM hashf g -> Reg g p s -> (p mod 8 = 0)%N ->
  exists g', mark_item hashf g p = Some (Some g') /\ PW (slots g) (slots g') /\
    exists e', Holds gentry (slots g') e' /\ ptr e' = p /\ root e' = s /\ marked e' = true.
Proof. exact RegistryProofs.mark_item_marks_thm. Qed.
Print Assumptions mark_item_marks_registered.

(* the oracle of the correspondence check is the specification *)
Theorem led_list_spec : forall l q s, In (q, s) (led_list l) <-> led l q s.
Proof.
  assert (Hc : forall (p q : N) (r s : bool), (p, r) = (q, s) <-> q = p /\ s = r) by (intros; split; [intros [= -> ->]|intros [-> ->]]; auto).
  induction l as [|e l IH]; intros q s; simpl; [tauto|].
  destruct e; simpl; rewrite ?drop_ptr_in, ?Hc, IH; reflexivity.
Qed.
Print Assumptions led_list_spec.

Example destructors_ok : dtors_ok ex_d.
Proof. exact ex_d_ok. Qed.

(* ---- non-vacuity: an admissible history with collisions, a sweep whose destructors delete a
   pending object and a marked survivor, address re-use, a stop window; both variants of the
   pending-list handling *)
Example history_is_admissible :
  Gadm ex_hash ex_d false false ex_ops gc_init /\ Gadm ex_hash ex_d true true ex_ops gc_init.
Proof. split; apply adm_runb_ok; vm_compute; reflexivity. Qed.

Example history_is_not_trivial :
  let g := Grun ex_hash ex_d false false ex_ops gc_init in
  nitems g = 2 /\ In (EvReclaim 16) (evs g) /\ In (EvRem 24) (evs g) /\ In (EvSpawn 4104 true) (evs g) /\
  In (EvSpawn 4112 false) (evs g) /\ In (EvFin 4112) (evs g) /\ maxptr g = 4112%N /\ ~ In (EvFin 16) (evs g) /\
  In (EvFin 16) (evs (Grun ex_hash ex_d true true ex_ops gc_init)).
Proof.
  (* conjunct by conjunct, and no tactic that looks for the shape of `In _ (evs _)`: finding it means running the history *)
  cbv zeta. repeat match goal with |- _ /\ _ => split end.
  1, 7: vm_compute; reflexivity.
  6: apply not_logged; vm_compute; reflexivity.
  all: apply logged; vm_compute; reflexivity.
Qed.

(* the hypothesis InvM of sweep_total (invariant with mark bits set) is satisfiable: the state after the
   first five allocations of ex_ops, with mark bits set *)
Example five_allocations : nitems (Grun ex_hash ex_d false false (firstn 5 ex_ops) gc_init) = 5.
Proof. vm_compute. reflexivity. Qed.

Example first_five_admissible : Gadm ex_hash ex_d false false (firstn 5 ex_ops) gc_init.
Proof. apply adm_runb_ok; vm_compute; reflexivity. Qed.

Example marked_state_satisfies_InvM :
  exists g, InvM ex_hash g /\ Quiet g /\ nitems g = 5 /\ exists e, Holds gentry (slots g) e /\ marked e = true.
Proof.
  destruct (registry_history ex_hash ex_d false false (firstn 5 ex_ops) ex_d_ok first_five_admissible) as [[H _] Hq].
  pose proof five_allocations as Hn. revert H Hq Hn.
  (* a variable for the state: no conversion below may evaluate the concrete run *)
  generalize (Grun ex_hash ex_d false false (firstn 5 ex_ops) gc_init). intros g H Hq Hn.
  pose proof (inv_count ex_hash g H) as Hc. rewrite Hn, occupied_entries in Hc.
  destruct (entries gentry (slots g)) as [|e es] eqn:He; [discriminate|].
  exists (set_slots g (smap setmark (slots g))). split; [|split; [exact Hq|split; [exact Hn|]]].
  - apply (InvM_PW ex_hash g); [exact H| |repeat split]. apply PW_smap. intros x; split; reflexivity.
  - exists (setmark e). split; [|reflexivity]. apply Holds_smap. exists e. split; [|reflexivity].
    apply in_entries. rewrite He. left. reflexivity.
Qed.

(* the hypotheses of removal_during_sweep are satisfiable with a non-empty pending list: the
   invariant does not ask for `Quiet` *)
Example pending_state_satisfies_Inv :
  exists g, Inv ex_hash g /\ pending g = [Some 4096%N] /\ nitems g = 5 /\ depth g = 8.
Proof.
  destruct (registry_history ex_hash ex_d false false (firstn 5 ex_ops) ex_d_ok first_five_admissible) as [[Hm Hcl] _].
  pose proof five_allocations as Hn.
  assert (Hab : is_reg (slots (Grun ex_hash ex_d false false (firstn 5 ex_ops) gc_init)) 4096 = false)
    by (vm_compute; reflexivity).
  revert Hm Hcl Hn Hab. generalize (Grun ex_hash ex_d false false (firstn 5 ex_ops) gc_init). intros g Hm Hcl Hn Hab.
  exists (set_pending g [Some 4096%N]). split; [|split; [reflexivity|split; [exact Hn|unfold depth; simpl; rewrite Hn; reflexivity]]].
  split; [|exact Hcl]. destruct Hm. constructor; auto.
  intros q [[= <-]|[]]. apply is_reg_absent, Hab.
Qed.

(* the allocator contract is needed: the same address registered twice breaks the count *)
Theorem registry_double_registration_refuted :
  exists ops, let g := Grun ex_hash ex_d false false ops gc_init in
              nitems g <> length (entries gentry (slots g)).
Proof. exists bad_ops. vm_compute. discriminate. Qed.
Print Assumptions registry_double_registration_refuted.
