(* Properties_C18.v — property C18: build configurations agree on every in-contract program.
   Each theorem is followed by Print Assumptions; one Example of non-vacuity per theorem with hypotheses.
   The inductions are in ConfigProofs.v; a proof here is a lemma of that file, instantiated or projected, a
   witness, or the evaluation of a source fact regenerated into Generated.v.
   What is proved here is about the MODEL (coq/Config.v): an abstract interpreter whose only
   configuration-dependent constructs are a switch-guarded error test (`checks`) and a method lookup that
   goes through the type's cache slots (`cache`), the sequence API of Array.c written in it, and the audit
   of the guarded blocks and of the cache wiring of the C source (Generated.v, tools/genx_cfg.py).
   The collector switch is covered on a separate register-machine model, with the collector's safety as a
   hypothesis (C01's statement).  Optimisation levels and the header layout are compiler / ABI matters:
   for those the correspondence run (props/C18.py) is the check. *)
From CelloV Require Import Generated Config ConfigProofs.
From Coq Require Import List Bool ZArith String.
Import ListNotations.

(* 1. one API call: with sound method caches, if no switch-guarded test succeeds, every two
      configurations compute the same state and the same outcome — for every state type, value type
      and body *)
Theorem config_independent :
  forall (St Val : Type) (p : prog St Val) (s : St) (T : types) (c1 c2 : config),
  types_ok T -> fires St Val p s T = false ->
  rst St Val (run St Val c1 p s T) = rst St Val (run St Val c2 p s T) /\
  rout St Val (run St Val c1 p s T) = rout St Val (run St Val c2 p s T).
Proof.
  intros St Val p s T c1 c2 HT Hf.
  destruct (ConfigProofs.run_sim St Val p s T T c1 c2 HT HT eq_refl Hf) as (A & B & _). exact (conj A B).
Qed.
Print Assumptions config_independent.

Example config_independent_nonvacuous :
  types_ok two_types /\
  fires aseq Z (abody (AGet (-1))) [4; 5; 6]%Z two_types = false /\
  run aseq Z (cfg_build true true true) (abody (AGet (-1))) [4; 5; 6]%Z two_types = ([4; 5; 6]%Z, two_types, OVal 6%Z).
Proof. split; [exact two_types_ok | split; reflexivity]. Qed.

(* 1b. the invariant behind it: from sound caches with equal instance lists, any two configurations end
       in the same state and outcome, with sound caches and untouched instance lists *)
Theorem config_simulation :
  forall (St Val : Type) (p : prog St Val) (s : St) (T1 T2 : types) (c1 c2 : config),
  types_ok T1 -> types_ok T2 -> same_insts T1 T2 -> fires St Val p s T1 = false ->
  rst St Val (run St Val c1 p s T1) = rst St Val (run St Val c2 p s T2) /\
  rout St Val (run St Val c1 p s T1) = rout St Val (run St Val c2 p s T2) /\
  types_ok (rty St Val (run St Val c1 p s T1)) /\ types_ok (rty St Val (run St Val c2 p s T2)) /\
  same_insts (rty St Val (run St Val c1 p s T1)) (rty St Val (run St Val c2 p s T2)) /\
  same_insts T1 (rty St Val (run St Val c1 p s T1)).
Proof. exact ConfigProofs.run_sim. Qed.
Print Assumptions config_simulation.

(* 2. the property's wording: a call that takes no error path in the default build *)
Theorem config_independent_no_error_path :
  forall (St Val : Type) (p : prog St Val) (s : St) (T : types) (c : config),
  types_ok T -> is_raise Val (rout St Val (run St Val cfg_default p s T)) = false ->
  rst St Val (run St Val c p s T) = rst St Val (run St Val cfg_default p s T) /\
  rout St Val (run St Val c p s T) = rout St Val (run St Val cfg_default p s T).
Proof.
  intros St Val p s T c HT Hr. apply config_independent; [exact HT |].
  destruct (fires St Val p s T) eqn:Hf; [| reflexivity].
  rewrite (ConfigProofs.fires_raises St Val p s T cfg_default (fun _ => eq_refl) HT Hf) in Hr. discriminate.
Qed.
Print Assumptions config_independent_no_error_path.

Example config_independent_no_error_path_nonvacuous :
  is_raise Z (rout aseq Z (run aseq Z cfg_default (abody (APopAt 1)) [4; 5; 6]%Z two_types)) = false.
Proof. reflexivity. Qed.

(* 3. whole programs: a history of API calls (exceptions caught by the caller, a crash ends the run)
      on which the default build takes no error path has the same transcript and the same final state
      in every two configurations — for every API written in the interpreter *)
Theorem history_config_independent :
  forall (St Val Op : Type) (body : Op -> prog St Val) (h : list Op) (s : St) (T : types) (c1 c2 : config),
  types_ok T -> no_error_path St Val Op body h s T = true ->
  hst St Val (run_history St Val Op body c1 h s T) = hst St Val (run_history St Val Op body c2 h s T) /\
  hout St Val (run_history St Val Op body c1 h s T) = hout St Val (run_history St Val Op body c2 h s T).
Proof. exact ConfigProofs.history_config_independent. Qed.
Print Assumptions history_config_independent.

Example history_config_independent_nonvacuous :
  no_error_path aseq Z aop abody [APush 1; APush 2; APushAt 9 (-1); AGet (-3); APop; ALen]%Z [] two_types = true /\
  no_error_path unit nat dop dbody [DCall 0 11; DCall 0 10; DCall 1 11; DCall 0 11] tt two_types = true.
Proof. split; vm_compute; reflexivity. Qed.

(* 3b. the weaker hypothesis actually needed: no *guarded* test succeeds (an unguarded throw such as
       the ValueError of rem, or a KeyError, is the same in all builds and may occur) *)
Theorem history_config_independent_guarded :
  forall (St Val Op : Type) (body : Op -> prog St Val) (h : list Op) (s : St) (T : types) (c1 c2 : config),
  types_ok T -> history_fires St Val Op body h s T = false ->
  hst St Val (run_history St Val Op body c1 h s T) = hst St Val (run_history St Val Op body c2 h s T) /\
  hout St Val (run_history St Val Op body c1 h s T) = hout St Val (run_history St Val Op body c2 h s T).
Proof.
  intros St Val Op body h s T c1 c2 HT Hf.
  destruct (ConfigProofs.history_sim St Val Op body h s T T T c1 c2 HT HT HT eq_refl eq_refl Hf) as (A & B & _).
  exact (conj A B).
Qed.
Print Assumptions history_config_independent_guarded.

Example history_config_independent_guarded_nonvacuous :
  afires [APush 1; ARem 7; ALen]%Z [] = false /\
  snd (arun cfg_default [APush 1; ARem 7; ALen]%Z []) = [ODone; ORaise XValueError; OVal 1%Z].
Proof. split; reflexivity. Qed.

(* 3c. how C18 composes with the functional properties: if the DEFAULT build meets a configuration-free
       specification of an API and the specification is defined only inside the contract, then EVERY
       build computes the specification's transcript and final state on every history it accepts *)
Theorem default_spec_lifts_to_every_build :
  forall (St Val Op : Type) (body : Op -> prog St Val) (spec : Op -> St -> option (St * outcome Val)),
  (forall o s T r, types_ok T -> spec o s = Some r -> fires St Val (body o) s T = false) ->
  (forall o s T s' r, types_ok T -> spec o s = Some (s', r) ->
     rst St Val (run St Val cfg_default (body o) s T) = s' /\ rout St Val (run St Val cfg_default (body o) s T) = r) ->
  (forall o s s' r, spec o s = Some (s', r) -> is_crash Val r = false) ->
  forall (h : list Op) (s : St) (T : types) (c : config),
  types_ok T -> all_some (snd (spec_history St Val Op spec h s)) = true ->
  hst St Val (run_history St Val Op body c h s T) = fst (spec_history St Val Op spec h s) /\
  hout St Val (run_history St Val Op body c h s T) = strip OCrash (snd (spec_history St Val Op spec h s)).
Proof.
  intros St Val Op body spec H1 H2 H3 h s T c HT Ha.
  exact (proj2 (ConfigProofs.accepted_history St Val Op body spec H1 H2 H3 h s T c HT Ha)).
Qed.
Print Assumptions default_spec_lifts_to_every_build.

(* its hypotheses are satisfiable: the Array API with its list specification fulfils all three *)
Example default_spec_lifts_to_every_build_nonvacuous :
  (forall o s T r, types_ok T -> aspec o s = Some r -> fires aseq Z (abody o) s T = false) /\
  (forall o s T s' r, types_ok T -> aspec o s = Some (s', r) ->
     rst aseq Z (run aseq Z cfg_default (abody o) s T) = s' /\ rout aseq Z (run aseq Z cfg_default (abody o) s T) = r) /\
  (forall o s s' r, aspec o s = Some (s', r) -> is_crash Z r = false).
Proof. exact ConfigProofs.array_lift_hypotheses. Qed.

(* 4. Type.c alone: on a type whose filled slots are sound, any sequence of lookups returns the same
      instances with the cache (CELLO_CACHE == 1) as without; a freshly initialised type is sound.
      Needs that no two classes share a slot — re-checked on the wiring extracted from Type_Instance *)
Theorem cache_transparent : forall (cs : list cls) (t1 t2 : tyobj),
  cache_ok t1 -> cache_ok t2 -> tinsts t1 = tinsts t2 -> lookups true t1 cs = lookups false t2 cs.
Proof. intros cs t1 t2 H1 _. exact (ConfigProofs.lookups_transparent cs t1 t2 H1). Qed.
Print Assumptions cache_transparent.

Example cache_transparent_nonvacuous :
  cls_of "Len" = Some 11 /\ cls_of "Hash" = Some 10 /\ cls_of "Cmp" = Some 9 /\ slot_of 10 = Some 6 /\
  cache_ok (fresh_type [(11, 7); (10, 9)]) /\
  lookups true (fresh_type [(11, 7); (10, 9)]) [10; 11; 10; 9] = [Some 9; Some 7; Some 9; None].
Proof. repeat apply conj; try apply fresh_type_ok; vm_compute; reflexivity. Qed.

(* 4b. the soundness hypothesis cannot be dropped: a slot holding another class's instance changes the
       outcome of a call between cache on and cache off *)
Theorem unsound_cache_configs_differ :
  exists T, same_insts T two_types /\
    rout unit nat (run unit nat cfg_default (dbody (DCall 0 10)) tt T) <>
    rout unit nat (run unit nat (cfg_build false true false) (dbody (DCall 0 10)) tt T).
Proof.
  exists [mkTy (set_slot (repeat None cello_cache_num) 6 (Some 7)) [(11, 7); (10, 9)]; fresh_type [(11, 3)]].
  split; [reflexivity |]. vm_compute. discriminate.
Qed.
Print Assumptions unsound_cache_configs_differ.

(* 4c. CELLO_NGC: a program that reaches objects only through its registers (allocate, read, write,
       re-link, copy or clear a register) observes the same values whether the collector is compiled in
       or not, for every collection schedule — PROVIDED the collector leaves reachable objects as they
       are (`collector_safe`, which is what C01 establishes for the real mark-and-sweep; here it is a
       hypothesis, the collector itself is a parameter) *)
Theorem collector_transparent :
  forall (collect : nat -> heap -> roots -> heap) (ops : list gop) (s : gstate) (c1 c2 : config),
  collector_safe collect ->
  snd (grun_cfg c1 collect 0 ops s) = snd (grun_cfg c2 collect 0 ops s).
Proof. exact ConfigProofs.gc_config_independent. Qed.
Print Assumptions collector_transparent.

(* non-vacuity with a collector that really frees objects: one sweep of everything that is neither in a
   register nor pointed to by a heap entry is safe; on the program below the collected heap ends with
   fewer entries than the uncollected one and the observations are the same *)
Example collector_transparent_nonvacuous :
  collector_safe (fun _ => sweep_unreferenced) /\
  collector_safe (fun _ h _ => h) /\
  let ops := [GAlloc 0 5%Z []; GAlloc 1 6%Z [(0, [])]; GDrop 0; GRead (1, [0]); GWrite (1, [0]) 9%Z;
              GMove 2 (1, [0]); GRead (2, []); GAlloc 1 7%Z []; GRead (1, []); GDrop 2; GRead (1, []); GRead (1, [])] in
  snd (grun_cfg cfg_default (fun _ => sweep_unreferenced) 0 ops g_empty)
    = [GUnit; GUnit; GUnit; GVal 5%Z; GUnit; GUnit; GVal 9%Z; GUnit; GVal 7%Z; GUnit; GVal 7%Z; GVal 7%Z] /\
  List.length (gheap (fst (grun_cfg cfg_default (fun _ => sweep_unreferenced) 0 ops g_empty))) = 1 /\
  List.length (gheap (fst (grun_cfg (cfg_build false false true) (fun _ => sweep_unreferenced) 0 ops g_empty))) = 4.
Proof.
  split; [exact sweep_unreferenced_safe | split; [exact (fun _ _ _ _ _ => eq_refl) | vm_compute; repeat split; reflexivity]].
Qed.

(* 4d. that hypothesis cannot be dropped: a collector that frees a reachable object changes what the
       program reads *)
Theorem unsafe_collector_configs_differ :
  exists (collect : nat -> heap -> roots -> heap) (ops : list gop),
    snd (grun true collect 0 ops g_empty) <> snd (grun false collect 0 ops g_empty).
Proof. exists (fun _ _ _ => []), [GAlloc 0 5%Z []; GRead (0, [])]. vm_compute. discriminate. Qed.
Print Assumptions unsafe_collector_configs_differ.

(* 5. the interpreter of API bodies reads nothing of the configuration but the check switches and the
      cache flag (the collector switch is the subject of 4c, on its own program model) *)
Theorem run_reads_checks_and_cache_only :
  forall (St Val : Type) (p : prog St Val) (s : St) (T : types) (c1 c2 : config),
  (forall sw, checks c1 sw = checks c2 sw) -> cache c1 = cache c2 -> run St Val c1 p s T = run St Val c2 p s T.
Proof. exact ConfigProofs.run_reads_checks_cache. Qed.
Print Assumptions run_reads_checks_and_cache_only.

Example run_reads_checks_and_cache_only_nonvacuous :
  (forall sw, checks (cfg_build true false true) sw = checks (cfg_build true false false) sw) /\
  cache (cfg_build true false true) = cache (cfg_build true false false).
Proof. split; reflexivity. Qed.

(* 6. Array.c: the contract of each call, arithmetically (index normalisation and bounds tests are the
      ones re-extracted from the source): a guarded test succeeds exactly outside it *)
Theorem array_contract : forall (o : aop) (s : aseq) (T : types),
  fires aseq Z (abody o) s T = false <-> in_contract o s.
Proof.
  intros o s T. pose proof (ConfigProofs.abody_cases o s T) as H.
  destruct (aspec o s) as [[s' r] |]; destruct H as (C & -> & _); split; auto; [discriminate | contradiction].
Qed.
Print Assumptions array_contract.

(* 7. Array.c: inside the contract every configuration computes what the configuration-free list
      specification says (state and outcome), for whole histories *)
Theorem array_meets_spec : forall (h : list aop) (s : aseq) (c : config),
  all_some (snd (aspec_history h s)) = true ->
  arun c h s = (fst (aspec_history h s), strip OCrash (snd (aspec_history h s))).
Proof. exact (fun h s c Ha => proj2 (ConfigProofs.array_accepted_history h s c Ha)). Qed.
Print Assumptions array_meets_spec.

Example array_meets_spec_nonvacuous :
  all_some (snd (aspec_history [APush 3; APushAt 4 0; ASet (-1) 8; APopAt 0; AGet 0; AMem 8; ARem 8; ALen]%Z [])) = true /\
  strip OCrash (snd (aspec_history [APush 3; APushAt 4 0; ASet (-1) 8; APopAt 0; AGet 0; AMem 8; ARem 8; ALen]%Z []))
    = [ODone; ODone; ODone; ODone; OVal 8; OVal 1; ODone; OVal 0]%Z.
Proof. split; reflexivity. Qed.

(* 8. Array.c: every two configurations agree on every history on which no bounds test succeeds *)
Theorem array_config_independent : forall (h : list aop) (s : aseq) (c1 c2 : config),
  afires h s = false -> arun c1 h s = arun c2 h s.
Proof. exact ConfigProofs.array_config_independent. Qed.
Print Assumptions array_config_independent.

Example array_config_independent_nonvacuous :
  afires [APush 1; APush 2; APopAt (-2); AGet 0]%Z [] = false.
Proof. reflexivity. Qed.

(* 9. the hypothesis cannot be dropped: outside the contract the builds differ (checked build raises,
      CELLO_NDEBUG build runs into the access) *)
Theorem out_of_contract_configs_differ :
  exists (o : aop) (s : aseq),
    snd (run aseq Z cfg_default (abody o) s []) = ORaise XIndexOutOfBounds /\
    snd (run aseq Z (cfg_build true false false) (abody o) s []) = OCrash.
Proof. exists (AGet 0), []. split; reflexivity. Qed.
Print Assumptions out_of_contract_configs_differ.

(* 10. the source: the CELLO_*_CHECK switches of Cello.h are exactly the model's six, each derived from
       CELLO_NDEBUG; every `#if CELLO_<X>_CHECK == 1` block of src/*.c is a pure test followed by throw,
       except exactly the three audited ones (two header-field stores in header_init, the poisoning of
       a block about to be freed in dealloc); conditions call only audited readers *)
Theorem source_switches_and_guarded_blocks :
  cfg_check_switches = map switch_name all_switches /\
  forallb block_ok cfg_guarded_blocks = true /\
  forallb known_switch cfg_guarded_blocks = true /\
  list_eqb str4_eqb non_test_blocks audited_non_test = true /\
  forallb (fun f => existsb (String.eqb f) audited_pure_calls) cfg_pure_calls = true.
Proof.
  destruct ConfigProofs.guarded_blocks_audited as (A & B & C).
  repeat apply conj; try assumption; vm_compute; reflexivity.
Qed.
Print Assumptions source_switches_and_guarded_blocks.

(* 10b. the source: the thirteen CELLO_BOUND_CHECK blocks (Array, List, Tuple, Table) have the audited
        index normalisation and test — a changed comparison is a broken obligation *)
Theorem source_bound_guards : list_eqb str3_eqb cfg_bound_guards audited_bound_guards = true.
Proof. vm_compute. reflexivity. Qed.
Print Assumptions source_bound_guards.

(* 11. the source: the sites (file, function) where the collector (CELLO_NGC) is compiled in or out are the audited
       ones (a new one must be looked at); the method cache switch is mentioned in Type.c only; the cache wiring of
       Type_Instance gives every class its own slot, all inside the CELLO_CACHE_NUM slots *)
Theorem source_ngc_and_cache_sites :
  list_eqb pair_eqb cfg_ngc_blocks audited_ngc_blocks = true /\
  list_eqb String.eqb cfg_cache_files audited_cache_files = true /\
  nodupb (map fst cfg_cache_wiring) = true /\
  forallb (fun w : nat * nat => andb (Nat.ltb (fst w) cello_cache_num) (Nat.ltb (snd w) (List.length cfg_class_names))) cfg_cache_wiring = true /\
  List.length cfg_cache_wiring = cello_cache_num.
Proof. split; [| split; [| exact ConfigProofs.cache_wiring_audited]]; vm_compute; reflexivity. Qed.
Print Assumptions source_ngc_and_cache_sites.

(* 12. the object header: one word plus one per enabled ALLOC / MAGIC switch — three words in the
       default build, one under CELLO_NDEBUG *)
Theorem header_words_of_builds : forall (nocache ngc : bool),
  header_words (cfg_build false nocache ngc) = 3 /\ header_words (cfg_build true nocache ngc) = 1.
Proof. intros. rewrite !ConfigProofs.header_words_char. split; reflexivity. Qed.
Print Assumptions header_words_of_builds.

(* 13. del: on every object made with new the two kinds of build do the same (finalise and free it); on NULL they
       differ — nothing with the collector (rem finds no entry), ValueError or a crash under CELLO_NGC *)
Theorem del_paths_agree_on_objects_and_differ_on_null :
  (forall (c1 c2 : config) (a : nat), del_model c1 (Some a) = del_model c2 (Some a)) /\
  del_model cfg_default None = DNothing /\
  del_model (cfg_build false false true) None = DRaise XValueError /\
  del_model (cfg_build true false true) None = DCrash.
Proof. repeat split. Qed.
Print Assumptions del_paths_agree_on_objects_and_differ_on_null.

(* 14. therefore a destructor that forwards a possibly-NULL content to del must test it: with the test as Pointer.c
       has it (Generated.cfg_box_del_guarded) Box_Del does the same in every configuration for every content,
       the EMPTY Box included; also element by element for a container of Boxes *)
Theorem owner_destructors_agree : forall (c1 c2 : config),
  (forall x : option nat, owner_del cfg_box_del_guarded c1 x = owner_del cfg_box_del_guarded c2 x) /\
  (forall xs : list (option nat), map (owner_del cfg_box_del_guarded c1) xs = map (owner_del cfg_box_del_guarded c2) xs).
Proof. exact (fun c1 c2 => conj (ConfigProofs.box_del_agrees c1 c2) (fun xs => map_ext _ _ (ConfigProofs.box_del_agrees c1 c2) xs)). Qed.
Print Assumptions owner_destructors_agree.

(* 14b. without the test the builds disagree on the empty owner *)
Theorem unguarded_owner_destructor_configs_differ :
  owner_del false cfg_default None <> owner_del false (cfg_build false false true) None /\
  owner_del false cfg_default None <> owner_del false (cfg_build true false true) None.
Proof. split; discriminate. Qed.
Print Assumptions unguarded_owner_destructor_configs_differ.

(* 15. the source: every del / del_raw / del_root call inside a destructor of src/*.c is behind a NULL test of its
       argument or passes a field the type's constructor always fills; the list is the audited one *)
Theorem source_destructors_guard_forwarded_del :
  forallb del_forward_ok cfg_del_forwards = true /\
  list_eqb str4_eqb cfg_del_forwards audited_del_forwards = true.
Proof. split; vm_compute; reflexivity. Qed.
Print Assumptions source_destructors_guard_forwarded_del.
