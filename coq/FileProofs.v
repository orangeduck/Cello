(* FileProofs.v — proofs about FileModel.v (property C20).
   Everything is for an arbitrary byte type, arbitrary character classes, arbitrary sets of
   creatable paths and of paths whose fclose fails; the File_Close modelled is the repaired one
   (fixed_close = fixed_clear = true). *)
From Coq Require Import List Arith Bool ZArith Lia.
From CelloV Require Import FileModel.
Import ListNotations.

Lemma fupd_same : forall A (f : nat -> A) k v, upd f k v k = v.
Proof. intros. unfold upd. rewrite Nat.eqb_refl. reflexivity. Qed.

Lemma fupd_other : forall A (f : nat -> A) k v x, x <> k -> upd f k v x = f x.
Proof. intros A f k v x H. unfold upd. destruct (Nat.eqb_spec x k); congruence. Qed.

Section Proofs.
  Variable B : Type.
  Variable zero : B.
  Variables is_ws is_digit is_sign : B -> bool.
  Variable creatable : nat -> bool.
  Variable close_fails : nat -> bool.

  Notation stepF := (step B zero is_ws is_digit is_sign creatable close_fails true true).
  Notation runF := (run B zero is_ws is_digit is_sign creatable close_fails true true).
  Notation closeF := (file_close B close_fails true true).
  Notation openF := (file_open B creatable close_fails true true).
  Notation sstep := (spec_step B zero is_ws is_digit is_sign creatable close_fails).
  Notation srun := (spec_run B zero is_ws is_digit is_sign creatable close_fails).
  Notation world := (world B).
  Notation out := (out B).

  (* the operations that use the stream of File i (everything except creation, open, del, with) *)
  Definition uses (o : op B) (i : nat) : Prop :=
    match o with
    | OClose _ j | ORead _ j _ | OWrite _ j _ | OSeek _ j _ _ | OTell _ j | OEof _ j | OFlush _ j
    | OPrint _ j _ | OScan _ j => j = i
    | _ => False
    end.

  Lemma closed_op_raises : forall (w : world) o i,
    w_objs B w i = FObj None -> uses o i -> stepF w o = (w, ORaise B FIOError).
  Proof.
    intros w o i Hc Hu.
    destruct o; simpl in Hu; try contradiction; subst; unfold step, on_open, file_close; rewrite Hc; reflexivity.
  Qed.

  Definition holds (w : world) (i h : nat) : Prop := w_objs B w i = FObj (Some h).
  Definition closes (w : world) (h : nat) : nat := f_closes (w_files B w h).

  Fixpoint count_close (h : nat) (t : list event) : nat :=
    match t with
    | [] => 0
    | EvClose h' :: r => (if Nat.eqb h' h then 1 else 0) + count_close h r
    | _ :: r => count_close h r
    end.
  Fixpoint count_open (h : nat) (t : list event) : nat :=
    match t with
    | [] => 0
    | EvOpen h' :: r => (if Nat.eqb h' h then 1 else 0) + count_open h r
    | _ :: r => count_open h r
    end.
  Definition is_ub (e : event) : bool :=
    match e with EvCloseNull | EvStale _ => true | _ => false end.

  (* the ledger invariant.  A handle held by a File is below the counter and not closed (inv_live), and no other
     File holds it (inv_inj); an unclosed handle below the counter is held by some File (inv_noleak); fclose at most
     once per handle, never on one not issued yet (inv_once, inv_fresh); the trace has one EvClose per fclose, one
     EvOpen per issued handle and no undefined event (the three inv_tr fields) *)
  Record inv (w : world) : Prop := mkInv {
    inv_live : forall i h, holds w i h -> h < w_nfiles B w /\ closes w h = 0;
    inv_inj : forall i j h, holds w i h -> holds w j h -> i = j;
    inv_noleak : forall h, h < w_nfiles B w -> closes w h = 0 -> exists i, holds w i h;
    inv_once : forall h, closes w h <= 1;
    inv_fresh : forall h, w_nfiles B w <= h -> closes w h = 0;
    inv_tr_close : forall h, count_close h (w_trace B w) = closes w h;
    inv_tr_open : forall h, count_open h (w_trace B w) = if h <? w_nfiles B w then 1 else 0;
    inv_tr_ub : forallb (fun e => negb (is_ub e)) (w_trace B w) = true
  }.

  Lemma inv_init : forall fs objs,
    (forall i h, objs i <> FObj (Some h)) -> inv (w_init B fs objs).
  Proof.
    intros fs objs Hn. constructor; unfold holds, closes; simpl; intros; auto; try lia.
    all: exfalso; eapply Hn; eauto.
  Qed.

  (* inv reads the object table, the handle counter, the fclose counts and the ledger, nothing else *)
  Lemma inv_ext : forall w w' : world,
    w_objs B w' = w_objs B w -> w_nfiles B w' = w_nfiles B w ->
    (forall h, closes w' h = closes w h) -> w_trace B w' = w_trace B w -> inv w -> inv w'.
  Proof.
    intros w w' Ho Hn Hc Ht [L I N O F TC TO TU].
    constructor; unfold holds; rewrite ?Ho, ?Hn, ?Ht; intros; rewrite ?Hc; eauto.
    apply N; [|rewrite <- Hc]; assumption.
  Qed.

  Lemma live_holds : forall w i h, inv w -> holds w i h -> live B w h = true.
  Proof. intros w i h Hinv Hh. destruct (inv_live _ Hinv _ _ Hh) as [_ Hc]. unfold live. fold (closes w h). rewrite Hc. reflexivity. Qed.

  (* an object that holds no handle may be replaced by another one that holds none *)
  Definition handle_free (o : fobj) : Prop := forall h, o <> FObj (Some h).

  Lemma inv_set_obj_free : forall w i o,
    inv w -> handle_free (w_objs B w i) -> handle_free o -> inv (set_obj B w i o).
  Proof.
    intros w i o [L I N O F TC TO TU] Hf Ho.
    constructor; auto; unfold holds in *; simpl; unfold upd; intros.
    - destruct (Nat.eqb_spec i0 i); [destruct (Ho _ H)|eauto].
    - destruct (Nat.eqb_spec i0 i); [destruct (Ho _ H)|]. destruct (Nat.eqb_spec j i); [destruct (Ho _ H0)|eauto].
    - destruct (N _ H H0) as [j Hj]. exists j. destruct (Nat.eqb_spec j i); [subst; destruct (Hf _ Hj)|auto].
  Qed.

  Lemma free_dead : handle_free FDead. Proof. intros h H; discriminate. Qed.
  Lemma free_none : handle_free (FObj None). Proof. intros h H; discriminate. Qed.
  Hint Resolve free_dead free_none : core.

  (* the world after fclose on the live handle h held by File i *)
  Definition closed (w : world) (i h : nat) : world :=
    set_obj B (log B (set_file B w h (mkF (f_st (w_files B w h)) 1)) (EvClose h)) i (FObj None).

  Lemma inv_closed : forall w i h, inv w -> holds w i h -> inv (closed w i h).
  Proof.
    intros w i h [L I N O F TC TO TU] Hh. destruct (L _ _ Hh) as [Hlt Hc]. unfold holds, closes in *.
    constructor; auto; unfold holds, closes, closed; simpl; unfold upd; intros.
    - destruct (Nat.eqb_spec i0 i); [discriminate|]. destruct (L _ _ H).
      destruct (Nat.eqb_spec h0 h); subst; auto. destruct n. eapply I; eauto.
    - destruct (Nat.eqb_spec i0 i), (Nat.eqb_spec j i); try discriminate. eauto.
    - destruct (Nat.eqb_spec h0 h); [discriminate|].
      destruct (N _ H H0) as [j Hj]. exists j. destruct (Nat.eqb_spec j i); congruence.
    - destruct (h0 =? h); simpl; auto.
    - destruct (Nat.eqb_spec h0 h); simpl; auto. lia.
    - rewrite TC. destruct (Nat.eqb_spec h h0), (Nat.eqb_spec h0 h); subst; simpl; auto; lia.
  Qed.

  (* a successful fopen: a fresh handle goes into a File that holds none *)
  Lemma inv_alloc : forall w i fs' st,
    inv w -> handle_free (w_objs B w i) ->
    inv (mkW B fs' (upd (w_objs B w) i (FObj (Some (w_nfiles B w)))) (S (w_nfiles B w))
             (upd (w_files B w) (w_nfiles B w) (mkF st 0)) (w_stack B w)
             (EvOpen (w_nfiles B w) :: w_trace B w)).
  Proof.
    intros w i fs' st [L I N O F TC TO TU] Hf. unfold holds, closes in *.
    assert (Hlt : forall j h, w_objs B w j = FObj (Some h) -> h <> w_nfiles B w)
      by (intros j h H; destruct (L _ _ H); lia).
    constructor; unfold holds, closes, upd; simpl; intros.
    - destruct (Nat.eqb_spec i0 i).
      + injection H as <-. rewrite Nat.eqb_refl. auto.
      + destruct (L _ _ H). destruct (Nat.eqb_spec h (w_nfiles B w)); auto.
    - destruct (Nat.eqb_spec i0 i), (Nat.eqb_spec j i); subst; auto.
      + injection H as <-. destruct (Hlt _ _ H0); auto.
      + injection H0 as <-. destruct (Hlt _ _ H); auto.
      + eauto.
    - destruct (Nat.eqb_spec h (w_nfiles B w)).
      + exists i. rewrite Nat.eqb_refl. subst; auto.
      + destruct (N h) as [j Hj]; [lia|auto|]. exists j. destruct (Nat.eqb_spec j i); [subst; destruct (Hf _ Hj)|auto].
    - destruct (h =? w_nfiles B w); simpl; auto.
    - destruct (Nat.eqb_spec h (w_nfiles B w)); [lia|]. apply F. lia.
    - rewrite TC. destruct (h =? w_nfiles B w) eqn:E; auto. apply Nat.eqb_eq in E. subst. apply F. lia.
    - rewrite TO. destruct (Nat.eqb_spec (w_nfiles B w) h) as [<-|Hne].
      + rewrite Nat.ltb_irrefl, (proj2 (Nat.ltb_lt _ _)); auto.
      + destruct (Nat.ltb_spec h (w_nfiles B w)), (Nat.ltb_spec h (S (w_nfiles B w))); lia.
    - auto.
  Qed.

  Definition not_crash (o : out) : Prop := o <> OCrash B.

  Notation sworld := (sworld B).
  Notation absW := (abs B).
  Definition sw_equiv (a b : sworld) : Prop :=
    sw_fs B a = sw_fs B b /\ (forall i, sw_objs B a i = sw_objs B b i) /\ sw_stack B a = sw_stack B b.

  Lemma equiv_refl : forall w : world, sw_equiv (absW w) (absW w).
  Proof. intros w. split; [|split]; auto. Qed.

  (* ob is the object table of the specification world that stands for w, and w keeps its ledger in order;
     the lemmas below take w through each of the ways in which File.c changes the world *)
  Definition rel (ob : nat -> sobj) (w : world) : Prop :=
    inv w /\ forall i, ob i = abs_obj B w (w_objs B w i).

  (* File i changes; the other Files and their streams are untouched *)
  Lemma rel_frame : forall (w w1 : world) ob i so,
    rel ob w -> inv w1 ->
    (forall j, j <> i -> w_objs B w1 j = w_objs B w j) ->
    (forall j h', j <> i -> holds w j h' -> w_files B w1 h' = w_files B w h') ->
    abs_obj B w1 (w_objs B w1 i) = so ->
    rel (upd ob i so) w1.
  Proof.
    intros w w1 ob i so [_ Hob] Hinv1 Hoth Hfiles Hi. split; [exact Hinv1|]. intros j. unfold upd.
    destruct (Nat.eqb_spec j i) as [->|Hne]; [auto|].
    rewrite Hob, (Hoth j Hne).
    destruct (w_objs B w j) as [|[h'|]] eqn:Ej; simpl; auto.
    rewrite (Hfiles j h' Hne Ej). auto.
  Qed.

  Lemma rel_set_obj : forall ob w i o so,
    rel ob w -> handle_free (w_objs B w i) -> handle_free o -> abs_obj B w o = so ->
    rel (upd ob i so) (set_obj B w i o).
  Proof.
    intros ob w i o so Hr Hf Ho Hso.
    apply (rel_frame w); simpl; auto.
    - apply inv_set_obj_free; auto. apply Hr.
    - intros j Hj. apply fupd_other; auto.
    - rewrite fupd_same, <- Hso. destruct o as [|[h|]]; reflexivity.
  Qed.

  Lemma rel_alloc : forall ob w i fs' s,
    rel ob w -> handle_free (w_objs B w i) ->
    rel (upd ob i (SOpen s))
        (mkW B fs' (upd (w_objs B w) i (FObj (Some (w_nfiles B w)))) (S (w_nfiles B w))
             (upd (w_files B w) (w_nfiles B w) (mkF s 0)) (w_stack B w)
             (EvOpen (w_nfiles B w) :: w_trace B w)).
  Proof.
    intros ob w i fs' s Hr Hf.
    apply (rel_frame w); simpl; auto.
    - apply inv_alloc; auto. apply Hr.
    - intros j Hj. apply fupd_other; auto.
    - intros j h' _ Hh'. destruct (inv_live _ (proj1 Hr) _ _ Hh'). apply fupd_other. lia.
    - rewrite fupd_same. simpl. rewrite fupd_same. reflexivity.
  Qed.

  Lemma rel_closed : forall ob w i h, rel ob w -> holds w i h -> rel (upd ob i SClosed) (closed w i h).
  Proof.
    intros ob w i h Hr Hh.
    apply (rel_frame w); simpl; auto.
    - apply inv_closed; auto. apply Hr.
    - intros j Hj. apply fupd_other; auto.
    - intros j h' Hj Hh'. apply fupd_other. intros ->. apply Hj. eapply inv_inj; eauto. apply Hr.
    - rewrite fupd_same. reflexivity.
  Qed.

  (* the stream of File i moves on (and perhaps its file changes) *)
  Lemma rel_stream : forall ob w i h s',
    rel ob w -> holds w i h -> rel (upd ob i (SOpen s')) (set_stream B w h s').
  Proof.
    intros ob w i h s' Hr Hh.
    apply (rel_frame w); simpl; auto.
    - apply (inv_ext w); auto; [|apply Hr]. intros h0. unfold closes. simpl. unfold upd. destruct (Nat.eqb_spec h0 h); subst; auto.
    - intros j h' Hj Hh'. apply fupd_other. intros ->. apply Hj. eapply inv_inj; eauto. apply Hr.
    - rewrite Hh. simpl. rewrite fupd_same. reflexivity.
  Qed.

  Lemma rel_stack : forall ob w st, rel ob w -> rel ob (set_stack B w st).
  Proof. intros ob w st [Hinv Hob]. split; [apply (inv_ext w)|]; auto. Qed.

  Lemma rel_fs : forall ob w fs, rel ob w -> rel ob (set_fs B w fs).
  Proof. intros ob w fs [Hinv Hob]. split; [apply (inv_ext w)|]; auto. Qed.

  (* sw_equiv a (abs w) together with inv w, in the form the proofs use: a is the record of w_fs w,
     an object table related to w, and w_stack w *)
  Definition sim (a : sworld) (w : world) : Prop :=
    sw_fs B a = w_fs B w /\ sw_stack B a = w_stack B w /\ rel (sw_objs B a) w.

  Lemma sim_equiv : forall a w, sim a w <-> inv w /\ sw_equiv a (absW w).
  Proof. unfold sim, rel, sw_equiv. simpl. tauto. Qed.

  (* both sides answer the same, the model without crashing, and end related *)
  Definition sim_res (r' : sworld * out) (r : world * out) : Prop :=
    snd r' = snd r /\ not_crash (snd r) /\ sim (fst r') (fst r).

  Lemma sim_intro : forall fs ob st w,
    fs = w_fs B w -> st = w_stack B w -> rel ob w -> sim (mkSW B fs ob st) w.
  Proof. intros fs ob st w Hf Hst Hr. split; [|split]; auto. Qed.

  Lemma sim_res_intro : forall a w (o : out), sim a w -> not_crash o -> sim_res (a, o) (w, o).
  Proof. intros a w o Hs Ho. split; [|split]; auto. Qed.

  Hint Resolve sim_intro sim_res_intro rel_set_obj rel_alloc rel_closed rel_stream rel_stack rel_fs : sim.
  Hint Extern 1 (not_crash _) => discriminate : sim.
  Hint Extern 1 (handle_free (w_objs B _ _)) =>
    match goal with H : w_objs B _ _ = _ |- _ => rewrite H end : sim.
  Hint Extern 1 (handle_free (w_objs B _ _)) => simpl; rewrite fupd_same : sim.
  (* puts a into that form: Hs becomes sim (mkSW (w_fs w) ob (w_stack w)) w, and Hr : rel ob w *)
  Ltac sim_norm a Hs := destruct a as [? ob ?]; destruct (Hs) as (Hfs & Hst & Hr); simpl in Hfs, Hst, Hr; subst.

  Lemma close_live : forall w i h,
    inv w -> holds w i h ->
    closeF w i (Some h) =
    (closed w i h, if close_fails (s_path (f_st (w_files B w h))) && (0 <? s_pos (f_st (w_files B w h)))
                   then ORaise B FIOError else OkUnit B).
  Proof.
    intros w i h Hinv Hh. unfold file_close. rewrite (live_holds w i h Hinv Hh).
    destruct (_ && _); reflexivity.
  Qed.

  Lemma s_close_open : forall (a : sworld) i s,
    s_close B close_fails a i (SOpen s) =
    (s_set B a i SClosed, if close_fails (s_path s) && (0 <? s_pos s) then ORaise B FIOError else OkUnit B).
  Proof. intros a i s. unfold s_close. destruct (_ && _); reflexivity. Qed.

  Lemma on_open_sim : forall a w i (k : nat -> stream -> world * out) (ks : stream -> sworld * out),
    sim a w ->
    (forall h, holds w i h -> sim_res (ks (f_st (w_files B w h))) (k h (f_st (w_files B w h)))) ->
    sim_res (s_on_open B a i ks) (on_open B w i k).
  Proof.
    intros a w i k ks Hs Hk. unfold on_open, s_on_open. sim_norm a Hs. simpl. rewrite (proj2 Hr).
    destruct (w_objs B w i) as [|[h|]] eqn:Hi; simpl; auto with sim.
    rewrite (live_holds w i h (proj1 Hr) Hi). apply Hk. exact Hi.
  Qed.

  Lemma close_sim : forall a w i h,
    sim a w -> holds w i h ->
    sim_res (s_close B close_fails a i (SOpen (f_st (w_files B w h)))) (closeF w i (Some h)).
  Proof.
    intros a w i h Hs Hh. sim_norm a Hs. rewrite s_close_open, (close_live w i h (proj1 Hr) Hh).
    destruct (_ && _); unfold s_set; simpl; auto with sim.
  Qed.

  Lemma open_none_sim : forall a w i p m,
    sim a w -> w_objs B w i = FObj None ->
    sim_res (s_open B creatable a i p m) (openF w i None p m).
  Proof.
    intros a w i p m Hs Hi. sim_norm a Hs.
    unfold file_open, s_open, s_set. simpl.
    destruct (fopen B creatable (w_fs B w) p m) as [[fs' st]|]; auto 6 with sim.
  Qed.

  Lemma open_sim : forall a w i ho p m,
    sim a w -> w_objs B w i = FObj ho ->
    sim_res (s_reopen B creatable close_fails a i p m) (openF w i ho p m).
  Proof.
    intros a w i ho p m Hs Hi. sim_norm a Hs. unfold s_reopen. cbn [sw_objs]. rewrite (proj2 Hr), Hi.
    destruct ho as [h|]; cbn [abs_obj]; [|apply open_none_sim; auto].
    unfold file_open. rewrite s_close_open, (close_live w i h (proj1 Hr) Hi).
    destruct (_ && _); unfold s_set; simpl; auto with sim.
    apply (open_none_sim _ (closed w i h)); [|simpl; apply fupd_same].
    auto with sim.
  Qed.

  (* destruct what an innermost match of the goal looks at *)
  Ltac case_match :=
    match goal with |- context [match ?x with _ => _ end] =>
      lazymatch x with context [match _ with _ => _ end] => fail | _ => destruct x end
    end.

  Theorem step_sim : forall a w o, sim a w -> sim_res (sstep a o) (stepF w o).
  Proof.
    intros a w o Hs. sim_norm a Hs. destruct o; cbn [step spec_step sw_fs sw_objs sw_stack].
    (* the stream operations (ORead ... OScan, goals 8-15 in the order of FileModel.op): both sides branch on the
       same result of the stdio call *)
    8-15: apply on_open_sim; trivial; intros h Hh; cbn [sw_fs sw_objs sw_stack].
    8-15: repeat case_match; unfold s_set; simpl; auto 6 with sim.
    - (* ONew *)
      rewrite (proj2 Hr). destruct (w_objs B w i) as [|[h|]] eqn:Hi; unfold s_set; simpl; auto 6 with sim.
    - (* ONewOpen *)
      rewrite (proj2 Hr). destruct (w_objs B w i) as [|[h|]] eqn:Hi; simpl; auto with sim.
      unfold file_open, s_open, s_set. simpl.
      destruct (fopen B creatable (w_fs B w) p m) as [[fs' st]|]; simpl.
      + apply sim_res_intro; auto with sim. apply sim_intro; auto.
        apply (rel_alloc _ (set_obj B w i (FObj None))); auto with sim.
      + auto 8 with sim.
    - (* OOpen *)
      destruct (w_objs B w i) as [|ho] eqn:Hi; [|apply open_sim; auto].
      unfold s_reopen. simpl. rewrite (proj2 Hr), Hi. simpl. auto with sim.
    - (* OClose *)
      rewrite (proj2 Hr). destruct (w_objs B w i) as [|[h|]] eqn:Hi; simpl; auto with sim.
      apply close_sim; auto.
    - (* ODel *)
      destruct (existsb _ _); auto with sim.
      rewrite (proj2 Hr). destruct (w_objs B w i) as [|[h|]] eqn:Hi; cbn [abs_obj]; unfold s_set; auto 6 with sim.
      rewrite s_close_open, (close_live w i h (proj1 Hr) Hi).
      destruct (_ && _); unfold s_set; simpl; auto 7 with sim.
    - (* OWith *)
      rewrite (proj2 Hr). destruct (w_objs B w i) as [|[h|]] eqn:Hi; simpl; auto 6 with sim.
    - (* OExit *)
      destruct (w_stack B w) as [|i r] eqn:Hst; auto with sim.
      cbn zeta. cbn [sw_objs w_objs set_stack]. rewrite (proj2 Hr).
      destruct (w_objs B w i) as [|[h|]] eqn:Hi; simpl; auto 6 with sim.
      apply (close_sim _ (set_stack B w r) i h); auto with sim.
  Qed.

  Theorem run_sim : forall ops a w, sim a w ->
    snd (srun a ops) = snd (runF w ops) /\ Forall not_crash (snd (runF w ops)) /\
    sim (fst (srun a ops)) (fst (runF w ops)).
  Proof.
    induction ops as [|o r IH]; intros a w Hs; simpl; auto.
    destruct (step_sim a w o Hs) as (Ho & Hnc & Hs1).
    destruct (stepF w o) as [w1 o1], (sstep a o) as [a1 o1']. simpl in Ho, Hnc, Hs1.
    destruct (IH a1 w1 Hs1) as (Hos & Hncs & Hs2).
    destruct (runF w1 r) as [w2 xs], (srun a1 r) as [a2 xs']. simpl in *. subst. auto.
  Qed.

  Theorem run_refines : forall ops (w : world) (a : sworld),
    inv w -> sw_equiv a (absW w) ->
    snd (srun a ops) = snd (runF w ops) /\ sw_equiv (fst (srun a ops)) (absW (fst (runF w ops))).
  Proof.
    intros ops w a Hinv Heq.
    destruct (run_sim ops a w (proj2 (sim_equiv a w) (conj Hinv Heq))) as (Ho & _ & Hs).
    split; [exact Ho|apply sim_equiv, Hs].
  Qed.

  Lemma sim_init : forall fs objs,
    (forall i h, objs i <> FObj (Some h)) -> sim (absW (w_init B fs objs)) (w_init B fs objs).
  Proof. intros fs objs Hn. apply sim_equiv. split; [apply inv_init, Hn|apply equiv_refl]. Qed.

  Theorem reachable_inv : forall fs objs ops,
    (forall i h, objs i <> FObj (Some h)) -> inv (fst (runF (w_init B fs objs) ops)).
  Proof. intros fs objs ops Hn. apply (run_sim ops _ _ (sim_init fs objs Hn)). Qed.

  (* the statement about the ledger, free of the invariant's vocabulary *)
  Definition ledger_ok (w : world) : Prop :=
    (* nothing undefined ever reached stdio *)
    (forall e, In e (w_trace B w) -> e <> EvCloseNull /\ forall h, e <> EvStale h) /\
    (* every handle below w_nfiles came from exactly one fopen, no other handle exists *)
    (forall h, count_open h (w_trace B w) = if h <? w_nfiles B w then 1 else 0) /\
    (* fclose at most once per stream, and only on streams that were opened *)
    (forall h, count_close h (w_trace B w) <= count_open h (w_trace B w)) /\
    (* a stream has not been closed yet iff a File holds it; then exactly one File does *)
    (forall h, h < w_nfiles B w ->
       (count_close h (w_trace B w) = 0 <-> exists i, w_objs B w i = FObj (Some h))) /\
    (forall i j h, w_objs B w i = FObj (Some h) -> w_objs B w j = FObj (Some h) -> i = j).

  Lemma inv_ledger_ok : forall w, inv w -> ledger_ok w.
  Proof.
    intros w [L I N O F TC TO TU]. unfold ledger_ok, holds in *.
    split; [|split; [|split; [|split]]]; auto.
    - intros e He. rewrite forallb_forall in TU. specialize (TU e He).
      destruct e; try discriminate; split; intros; discriminate.
    - intros h. rewrite TC, TO. destruct (Nat.ltb_spec h (w_nfiles B w)); [apply O|rewrite F; auto].
    - intros h Hh. rewrite TC. split; [apply N; auto|].
      intros [i Hi]. apply (L _ _ Hi).
  Qed.

  Theorem ledger_all_histories : forall fs objs ops,
    (forall i h, objs i <> FObj (Some h)) ->
    ledger_ok (fst (runF (w_init B fs objs) ops)) /\
    Forall not_crash (snd (runF (w_init B fs objs) ops)).
  Proof.
    intros fs objs ops Hn.
    split; [apply inv_ledger_ok, reachable_inv, Hn|apply (run_sim ops _ _ (sim_init fs objs Hn))].
  Qed.

  (* quiescence: when no File is open any more, every stream ever opened has been closed exactly once *)
  Corollary all_closed_exactly_once : forall fs objs ops,
    (forall i h, objs i <> FObj (Some h)) ->
    let w := fst (runF (w_init B fs objs) ops) in
    (forall i h, w_objs B w i <> FObj (Some h)) ->
    forall h, h < w_nfiles B w -> count_open h (w_trace B w) = 1 /\ count_close h (w_trace B w) = 1.
  Proof.
    intros fs objs ops Hn w Hq h Hh.
    destruct (reachable_inv fs objs ops Hn) as [_ _ N O _ TC TO _]. fold w in N, O, TC, TO.
    rewrite TO, TC, (proj2 (Nat.ltb_lt _ _) Hh). split; [reflexivity|].
    specialize (O h). destruct (closes w h) as [|[|k]] eqn:E; [|reflexivity|lia].
    destruct (N h Hh E) as [i Hi]. destruct (Hq i h Hi).
  Qed.

  Definition target (stack : list nat) (o : op B) : option nat :=
    match o with
    | ONew _ i | ONewOpen _ i _ _ | OOpen _ i _ _ | OClose _ i | ODel _ i | OWith _ i
    | ORead _ i _ | OWrite _ i _ | OSeek _ i _ _ | OTell _ i | OEof _ i | OFlush _ i
    | OPrint _ i _ | OScan _ i => Some i
    | OExit _ => match stack with [] => None | i :: _ => Some i end
    end.

  (* by inspection of spec_step: whichever branch is taken, the object table is written only at the target *)
  Lemma spec_frame : forall (a : sworld) o j,
    target (sw_stack B a) o <> Some j -> sw_objs B (fst (sstep a o)) j = sw_objs B a j.
  Proof.
    intros a o j. destruct o; cbn [target spec_step]; unfold s_reopen, s_on_open, s_open, s_close, s_set.
    all: repeat case_match; simpl; intros Ht; rewrite ?fupd_other by congruence; reflexivity.
  Qed.

  Theorem step_frame : forall (w : world) o j,
    inv w -> target (w_stack B w) o <> Some j ->
    abs_obj B (fst (stepF w o)) (w_objs B (fst (stepF w o)) j) = abs_obj B w (w_objs B w j).
  Proof.
    intros w o j Hinv Ht.
    destruct (step_sim (absW w) w o (proj2 (sim_equiv _ _) (conj Hinv (equiv_refl w)))) as (_ & _ & _ & _ & _ & Hob).
    rewrite <- Hob. apply (spec_frame (absW w) o j Ht).
  Qed.
End Proofs.
