(* RBBalance.v — proofs about the Tree model (RBTree.v), part 2: COLOURS AND BLACK HEIGHT.
   rbh t n   : t has no red node with a red child and every path to a leaf has n black nodes.
   pinv p n  : the context p expects a subtree of black height n in its hole and is otherwise valid
               (a red frame has a black sibling subtree and a black frame above it).
   Tree_Set_Fix and Tree_Rem_Fix never reach their Crash branches under these invariants and
   return valid red-black trees; height bound from rbh.  Nothing here depends on keys. *)
From Coq Require Import List Arith Bool Lia.
From CelloV Require Import RBTree RBProofs.
Import ListNotations.

Section Balance.
  Variables K V : Type.
  Variable use_succ : bool -> bool -> bool.

  Notation tree := (tree K V).
  Notation path := (path K V).
  Notation plug := (plug K V).
  Notation color_of := (color_of K V).
  Notation blacken := (blacken K V).

  Inductive rbh : tree -> nat -> Prop :=
  | rbh_E : rbh E 0
  | rbh_R : forall l k v r n, color_of l = Black -> color_of r = Black -> rbh l n -> rbh r n ->
                              rbh (T Red l k v r) n
  | rbh_B : forall l k v r n, rbh l n -> rbh r n -> rbh (T Black l k v r) (S n).

  Definition hd_black (p : path) : Prop :=
    match p with F _ _ _ Black _ _ _ :: _ => True | _ => False end.

  Inductive pinv : path -> nat -> Prop :=
  | pinv_nil : forall n, pinv [] n
  | pinv_R : forall d k v s p n, color_of s = Black -> rbh s n -> pinv p n -> hd_black p ->
                                 pinv (F K V d Red k v s :: p) n
  | pinv_B : forall d k v s p n, rbh s n -> pinv p (S n) -> pinv (F K V d Black k v s :: p) n.

  (* a valid red-black tree: black root, no red-red, equal black heights *)
  Definition rb_tree (t : tree) : Prop := color_of t = Black /\ exists n, rbh t n.

  (* a valid subtree sitting in a valid context *)
  Definition foc (t : tree) (p : path) (n : nat) : Prop :=
    rbh t n /\ pinv p n /\ (color_of t = Red -> hd_black p).

  Ltac inv H := inversion H; subst; clear H.

  Lemma pinv_R_inv : forall d k v s p n, pinv (F K V d Red k v s :: p) n ->
    color_of s = Black /\ rbh s n /\ pinv p n /\ hd_black p.
  Proof. intros. inv H. auto. Qed.
  Lemma pinv_B_inv : forall d k v s p n, pinv (F K V d Black k v s :: p) n -> rbh s n /\ pinv p (S n).
  Proof. intros. inv H. auto. Qed.
  Lemma rbh_R_inv : forall l k v r n, rbh (T Red l k v r) n ->
    color_of l = Black /\ color_of r = Black /\ rbh l n /\ rbh r n.
  Proof. intros. inv H. auto. Qed.
  Lemma rbh_B_inv : forall l k v r n, rbh (T Black l k v r) n -> exists m, n = S m /\ rbh l m /\ rbh r m.
  Proof. intros. inv H. eauto. Qed.

  Lemma plug_valid : forall p t n, foc t p n -> rb_tree (plug t p).
  Proof.
    induction p as [|[d c k v s] p IH]; intros t n (Ht & Hp & Hc); simpl.
    - split; [|eauto]. destruct (color_of t); [destruct Hc|]; reflexivity.
    - destruct c; [apply pinv_R_inv in Hp as (Cs & Hs & Hp & Hb) | apply pinv_B_inv in Hp as (Hs & Hp)].
      + (* red frame: the focus is black *)
        assert (color_of t = Black) by (destruct (color_of t); [destruct Hc|]; reflexivity).
        apply (IH _ n). repeat split; auto. destruct d; constructor; auto.
      + apply (IH _ (S n)). repeat split; auto; destruct d; try constructor; auto; discriminate.
  Qed.

  Lemma foc_root : forall t, rb_tree t -> exists n, foc t [] n.
  Proof. intros t (Hc & n & Hn). exists n. repeat split; [assumption | constructor | congruence]. Qed.

  Lemma rb_blacken : forall t n, rbh t n -> rb_tree (blacken t).
  Proof. intros t n H. split; [now destruct t|]. destruct H; simpl; eexists; constructor; eauto. Qed.

  Lemma rbh_color_cases : forall t n, rbh t n ->
    (is_red K V t = false /\ color_of t = Black) \/ (exists l k v r, t = T Red l k v r).
  Proof. destruct 1; simpl; eauto 7. Qed.

  Definition fpos (t : tree) (p : path) : Prop := exists n, foc t p n.

  (* the frame pushed by Tree_Rem for the two-children case carries another key/value *)
  Lemma foc_child : forall c l k v r p n k' v', foc (T c l k v r) p n ->
    fpos l (F K V DL c k' v' r :: p) /\ fpos r (F K V DR c k' v' l :: p).
  Proof.
    intros c l k v r p n k' v' (Ht & Hp & Hc).
    destruct c; [apply rbh_R_inv in Ht as (Cl & Cr & Hl & Hr) | apply rbh_B_inv in Ht as (m & -> & Hl & Hr)].
    - split; exists n; (split; [assumption|]); (split; [constructor; auto | congruence]).
    - split; exists m; (split; [assumption|]); (split; [constructor; auto | intros _; exact I]).
  Qed.

  Lemma fpos_child : forall c l k v r p, fpos (T c l k v r) p ->
    fpos l (F K V DL c k v r :: p) /\ fpos r (F K V DR c k v l :: p).
  Proof. intros c l k v r p (n & H). eapply foc_child, H. Qed.

  Lemma set_fix_valid : forall p t n, rbh t n -> pinv p n -> color_of t = Red ->
    exists r, set_fix K V t p = Ok r /\ rb_tree r.
  Proof.
    induction p as [p IH] using (induction_ltof1 _ (@length _)); intros t n Ht Hp Hc.
    destruct p as [|[d [] pk pv s] p1].
    - eexists. split; [reflexivity|]. eapply rb_blacken, Ht.
    - (* red parent: the grandparent is black *)
      apply pinv_R_inv in Hp as (Hsc & Hs & Hp1 & Hb).
      destruct p1 as [|[d2 [] gk gv u] p2]; try destruct Hb.
      apply pinv_B_inv in Hp1 as (Hu & Hp2). cbn [set_fix].
      destruct (rbh_color_cases _ _ Hu) as [[-> Cu] | (ul & uk & uv & ur & ->)].
      + (* black uncle: rotations *)
        destruct t as [|[] tl tk tv tr]; try discriminate. apply rbh_R_inv in Ht as (? & ? & ? & ?).
        destruct d2, d; (eexists; split; [reflexivity|]); apply (plug_valid _ _ (S n));
          (split; [|split; [exact Hp2 | discriminate]]); repeat (constructor; simpl; auto).
      + (* red uncle: recolour and climb *)
        apply rbh_R_inv in Hu as (? & ? & ? & ?).
        apply (IH p2) with (n := S n); [unfold ltof; simpl; lia | | exact Hp2 | now destruct d2].
        destruct d, d2; repeat (constructor; simpl; auto).
    - (* black parent: nothing to do *)
      eexists. split; [reflexivity|]. apply (plug_valid _ _ n). repeat split; auto.
  Qed.

  (* where the search in a valid tree stops is a valid position *)
  Lemma descend_fpos : forall (cmp : K -> K -> comparison) t k x p,
    rb_tree t -> descend K V cmp t k [] = (x, p) -> fpos x p.
  Proof. intros cmp t k x p Ht. apply (descend_inv K V fpos fpos_child), foc_root, Ht. Qed.

  Lemma set_root_valid : forall (cmp : K -> K -> comparison) t k v,
    rb_tree t -> exists r added, set_root K V cmp t k v = Ok (r, added) /\ rb_tree r.
  Proof.
    intros cmp t k v Ht. unfold set_root.
    destruct (descend K V cmp t k []) as [x p] eqn:Hd.
    apply descend_fpos in Hd as (m & Hx & Hp & Hc); [|exact Ht].
    destruct x as [|c l k0 v0 r].
    - inv Hx. destruct (set_fix_valid p (T Red E k v E) 0) as (r & -> & Hv); simpl; eauto.
      repeat constructor.
    - do 2 eexists. split; [reflexivity|]. apply (plug_valid _ _ m). repeat split; auto.
      destruct c; [apply rbh_R_inv in Hx as (? & ? & ? & ?) | apply rbh_B_inv in Hx as (? & -> & ? & ?)];
        constructor; auto.
  Qed.

  Lemma is_black_color : forall t, is_black K V t = true <-> color_of t = Black.
  Proof. intros t. unfold is_black, is_red. destruct (color_of t); simpl; split; congruence. Qed.
  Lemma is_red_color : forall t, is_red K V t = true <-> color_of t = Red.
  Proof. intros t. unfold is_red. destruct (color_of t); simpl; split; congruence. Qed.

  Lemma all_black_iff : forall pc (sl sr : tree),
    cblack pc && is_black K V sl && is_black K V sr = true <->
    pc = Black /\ color_of sl = Black /\ color_of sr = Black.
  Proof.
    intros. rewrite !andb_true_iff, !is_black_color.
    destruct pc; simpl; (split; [intros [[D A] B] | intros (D & A & B)]); try discriminate D; auto.
  Qed.

  (* the loop body after the red-sibling step and the climb test: black sibling of black height
     n+1, focus of black height n; not (black parent and both nephews black).
     By cases on the colours of the nephews, of the parent and on the side, the body computes and
     its result is well-formed by construction. *)
  Lemma rem_finish_valid : forall t d pc pk pv sl sk sv sr n,
    rbh t n -> rbh (T Black sl sk sv sr) (S n) ->
    ~ (pc = Black /\ color_of sl = Black /\ color_of sr = Black) ->
    exists r, rem_finish K V t d pc pk pv (T Black sl sk sv sr) = Ok r /\
              rbh r (match pc with Black => S (S n) | Red => S n end) /\
              (pc = Black -> color_of r = Black).
  Proof.
    intros t d pc pk pv sl sk sv sr n Ht Hs Hnc.
    apply rbh_B_inv in Hs as (m & [= <-] & Hsl & Hsr).
    destruct (rbh_color_cases _ _ Hsl) as [[El Cl] | (a & x & y & b & ->)],
             (rbh_color_cases _ _ Hsr) as [[Er Cr] | (a' & x' & y' & b' & ->)];
      try apply rbh_R_inv in Hsl as (? & ? & ? & ?); try apply rbh_R_inv in Hsr as (? & ? & ? & ?);
      destruct pc; try (exfalso; auto; fail); destruct d;
      unfold rem_finish, is_black; rewrite ?El, ?Er; simpl;
      (eexists; split; [reflexivity|]; split; [repeat (constructor; simpl; auto) | auto; discriminate]).
  Qed.

  (* ... so one round of Tree_Rem_Fix that does not climb ends the repair with a valid tree *)
  Lemma rem_fix_finish : forall t d pc pk pv sl sk sv sr n p,
    rbh t n -> pinv (F K V d pc pk pv (T Black sl sk sv sr) :: p) (S n) ->
    cblack pc && is_black K V sl && is_black K V sr = false ->
    exists r, rem_fix K V t (F K V d pc pk pv (T Black sl sk sv sr) :: p) = Ok r /\ rb_tree r.
  Proof.
    intros t d pc pk pv sl sk sv sr n p Ht Hp Hcl. cbn [rem_fix]. rewrite Hcl.
    assert (Hnc : ~ (pc = Black /\ color_of sl = Black /\ color_of sr = Black))
      by (rewrite <- all_black_iff, Hcl; discriminate).
    destruct pc; [apply pinv_R_inv in Hp as (_ & Hs & Hp & Hb) | apply pinv_B_inv in Hp as (Hs & Hp)];
      destruct (rem_finish_valid t d _ pk pv _ _ _ _ n Ht Hs Hnc) as (r & -> & Hh & Hc);
      eexists; (split; [reflexivity|]); eapply plug_valid; repeat split; eauto.
    rewrite Hc; [discriminate | reflexivity].
  Qed.

  (* the repair of a focus one black node short leaves a valid tree (a focus without parent has to be black for that) *)
  Lemma rem_fix_rb : forall p t n, rbh t n -> pinv p (S n) -> (p = [] -> color_of t = Black) ->
    exists r, rem_fix K V t p = Ok r /\ rb_tree r.
  Proof.
    induction p as [|[d pc pk pv s] p IH]; intros t n Ht Hp Hc.
    - exists t. repeat split; eauto.
    - clear Hc. assert (Hs : rbh s (S n)) by (destruct pc; [apply pinv_R_inv in Hp | apply pinv_B_inv in Hp]; apply Hp).
      destruct s as [|[] sl sk sv sr]; [inv Hs| |].
      + (* (1) red sibling under a black parent: after the rotation the parent is red and the near nephew,
           black of height n+1, is the sibling: a round that does not climb *)
        destruct pc; [apply pinv_R_inv in Hp as (Hx & _); discriminate|].
        apply pinv_B_inv in Hp as (_ & Hp). apply rbh_R_inv in Hs as (Cl & Cr & Hl & Hr).
        destruct d;
          [destruct sl as [|[] a x y b]; [inv Hl | discriminate |];
           apply (rem_fix_finish t DL Red pk pv a x y b n (F K V DL Black sk sv sr :: p))
          |destruct sr as [|[] a x y b]; [inv Hr | discriminate |];
           apply (rem_fix_finish t DR Red pk pv a x y b n (F K V DR Black sk sv sl :: p))];
          auto; repeat (constructor; auto).
      + destruct (cblack pc && is_black K V sl && is_black K V sr) eqn:Hcl; [|eapply rem_fix_finish; eauto].
        (* (2) everything black: recolour the sibling, continue one level up *)
        cbn [rem_fix]. rewrite Hcl. apply all_black_iff in Hcl as (-> & H1 & H2).
        apply pinv_B_inv in Hp as (_ & Hp). apply rbh_B_inv in Hs as (m & [= <-] & Hsl & Hsr).
        apply (IH _ (S n)); [destruct d; repeat (constructor; auto) | exact Hp | now destruct d].
  Qed.

  Lemma rem_fix_valid : forall p t n, rbh t n -> pinv p (S n) ->
    exists r m, rem_fix K V t p = Ok r /\ rbh r m /\ (color_of t = Black \/ p <> [] -> color_of r = Black).
  Proof.
    intros [|f p] t n Ht Hp.
    - exists t, n. simpl. intuition congruence.
    - destruct (rem_fix_rb (f :: p) t n) as (r & -> & Hc & m & Hm); auto; [discriminate|]. eauto 6.
  Qed.

  Lemma rem_node_valid : forall nc nl nk nv nr p1 n,
    foc (T nc nl nk nv nr) p1 n -> exists r, rem_node K V (T nc nl nk nv nr) p1 = Ok r /\ rb_tree r.
  Proof.
    intros nc nl nk nv nr p1 n (Ht & Hp & Hc). simpl. unfold rem_splice.
    set (chld := match nr with E => nl | T _ _ _ _ _ => nr end).
    destruct nc.
    - (* red node: its children are black, the child takes its place *)
      apply rbh_R_inv in Ht as (Hlc & Hrc & Hl & Hr).
      assert (Hv : rb_tree (plug chld p1)).
      { apply (plug_valid _ _ n). subst chld. destruct nr; repeat split; auto; congruence. }
      destruct p1; [destruct (Hc eq_refl)|]. eauto.
    - apply rbh_B_inv in Ht as (m & -> & Hl & Hr).
      assert (Hch : rbh chld m) by (subst chld; destruct nr; auto).
      destruct p1 as [|f p1]; [|apply (rem_fix_rb _ _ m); auto; discriminate].
      eexists. split; [reflexivity|]. eapply rb_blacken, Hch.
  Qed.

  Lemma rem_pred_valid : forall xc xl xk xv xr p n, xl <> E ->
    foc (T xc xl xk xv xr) p n -> exists r, rem_pred K V xc xl xr p = Ok r /\ rb_tree r.
  Proof.
    intros xc xl xk xv xr p n Hne Hf. unfold rem_pred.
    destruct (max_node_spec K V xl Hne) as (pk & pv & -> & Hm).
    destruct (Hm (F K V DL xc pk pv xr :: p)) as (c & l & q & Hq & _). rewrite Hq.
    apply (max_node_inv K V fpos fpos_child) in Hq as (m & Hq); [eapply rem_node_valid, Hq|].
    eapply foc_child, Hf.
  Qed.

  Lemma rem_succ_valid : forall xc xl xk xv xr p n, xr <> E ->
    foc (T xc xl xk xv xr) p n -> exists r, rem_succ K V xc xl xr p = Ok r /\ rb_tree r.
  Proof.
    intros xc xl xk xv xr p n Hne Hf. unfold rem_succ.
    destruct (min_node_spec K V xr Hne) as (sk & sv & -> & Hm).
    destruct (Hm (F K V DR xc sk sv xl :: p)) as (c & r & q & Hq & _). rewrite Hq.
    apply (min_node_inv K V fpos fpos_child) in Hq as (m & Hq); [eapply rem_node_valid, Hq|].
    eapply foc_child, Hf.
  Qed.

  (* whichever in-order neighbour the source's donor rule picks *)
  Lemma rem_at_valid : forall xc xl xk xv xr p n,
    foc (T xc xl xk xv xr) p n -> exists r, rem_at K V use_succ (T xc xl xk xv xr) p = Ok r /\ rb_tree r.
  Proof.
    intros xc xl xk xv xr p n Hf. unfold rem_at.
    destruct xl as [|lc ll lk lv lr]; [|destruct xr as [|rc rl rk rv rr]]; try (eapply rem_node_valid, Hf).
    destruct (donor_is_succ K V use_succ _ _); [eapply rem_succ_valid | eapply rem_pred_valid]; eauto; discriminate.
  Qed.

  Notation size := (size K V).
  Notation height := (height K V).

  Lemma rbh_size : forall t n, rbh t n -> 2 ^ n <= size t + 1.
  Proof. induction 1; simpl in *; lia. Qed.

  Lemma rbh_height : forall t n, rbh t n ->
    height t <= 2 * n + (match color_of t with Red => 1 | Black => 0 end).
  Proof.
    induction 1; simpl.
    - lia.
    - rewrite H, H0 in *. lia.
    - destruct (color_of l), (color_of r); lia.
  Qed.

  Lemma rb_height_bound : forall t, rb_tree t -> 2 ^ height t <= (size t + 1) ^ 2.
  Proof.
    intros t (Hc & n & Hn). pose proof (rbh_size _ _ Hn) as Hs. pose proof (rbh_height _ _ Hn) as Hh.
    rewrite Hc in Hh.
    transitivity (2 ^ (n * 2)).
    - apply Nat.pow_le_mono_r; lia.
    - rewrite Nat.pow_mul_r. apply Nat.pow_le_mono_l. exact Hs.
  Qed.

  (* the descents visit at most `height` nodes; the fix-up loops recurse on the path they leave *)
  Definition within (b : nat) (t : tree) (p : path) : Prop := length p + height t <= b.

  Lemma within_child : forall b c l k v r p, within b (T c l k v r) p ->
    within b l (F K V DL c k v r :: p) /\ within b r (F K V DR c k v l :: p).
  Proof. unfold within. simpl. lia. Qed.

  (* search depth: the way found by the descent of Tree_Get/Mem/Set/Rem in a valid tree has at most
     2*log2(n+1) frames (integer form) *)
  Lemma rb_search_depth : forall (cmp : K -> K -> comparison) t k x p,
    rb_tree t -> descend K V cmp t k [] = (x, p) -> 2 ^ length p <= (size t + 1) ^ 2.
  Proof.
    intros cmp t k x p Hv Hd. apply (descend_inv K V _ (within_child (height t))) in Hd; [|apply le_n].
    transitivity (2 ^ height t); [apply Nat.pow_le_mono_r; unfold within in Hd; lia | now apply rb_height_bound].
  Qed.

  (* ... and so has the way to the node that Tree_Rem finally takes out *)
  Lemma rb_pred_depth : forall p c l k v r k' v' x p',
    max_node K V l (F K V DL c k' v' r :: p) = (x, p') ->
    length p' <= length p + height (T c l k v r).
  Proof.
    intros p c l k v r k' v' x p' H.
    apply (max_node_inv K V _ (within_child (length p + height (T c l k v r)))) in H; unfold within in *; simpl in *; lia.
  Qed.

  Lemma rb_succ_depth : forall p c l k v r k' v' x p',
    min_node K V r (F K V DR c k' v' l :: p) = (x, p') ->
    length p' <= length p + height (T c l k v r).
  Proof.
    intros p c l k v r k' v' x p' H.
    apply (min_node_inv K V _ (within_child (length p + height (T c l k v r)))) in H; unfold within in *; simpl in *; lia.
  Qed.
End Balance.
