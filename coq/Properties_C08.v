(* Property C08 — type-class dispatch returns exactly what the type declares.

   Model: Dispatch.v (small-step lookups over cache words, memoised class pointers, class names, instances).
   D : list (string * inst) is the declaration of a type (class NAME, instance) in the order written;
   dspec cn D c = instance of the FIRST pair whose name equals the name cn c of class c, or None.
   cold_type n D = the record as declared statically / built by Type_New: n empty cache words, empty memo words.
   Hypotheses on the wiring (no two Type_Cache_Entry lines share a slot; slots inside the cache area) are discharged
   for the wiring generated from src/Type.c in C08_generated_wiring_sound. *)
From Coq Require Import List Arith String Bool.
From CelloV Require Import Generated Dispatch DispatchProofs.
Import ListNotations.

(* (1) every history of lookups (type_instance/instance/method lookups = KInstance, implements/type_implements =
   KScan), in any order, cold then warm: each returns the declared instance or none, within the model's fuel, and
   the record stays in a state from which this remains true *)
Theorem C08_every_history_returns_declared :
  forall (cn : cls -> string) (wiring : list (nat * cls)) (skipnull reread : bool) (ncache : nat),
    NoDup (map fst wiring) -> (forall i c, In (i, c) wiring -> i < ncache) ->
  forall (D : list (string * inst)) (h : list (kind * cls)),
  exists T', run_history cn wiring skipnull reread (cold_type ncache D) h = Some (T', map (fun kc => dspec cn D (snd kc)) h)
             /\ inv cn wiring ncache D T'.
Proof. exact every_history_from_cold. Qed.
Print Assumptions C08_every_history_returns_declared.

Example C08_every_history_nonvacuous :
  NoDup (map fst [(0, 5); (1, 7)]) /\ (forall i c, In (i, c) [(0, 5); (1, 7)] -> i < 2) /\
  run_history (fun c => if Nat.eqb c 5 then "A" else if Nat.eqb c 6 then "A" else "B")%string [(0, 5); (1, 7)] false false
    (cold_type 2 [("B", 10); ("A", 11); ("A", 12)]%string) [(KScan, 6); (KInstance, 5); (KInstance, 5); (KInstance, 9)]
  = Some (mkTrec [Some 11; None] [mkTriple (Some 9) "B" 10; mkTriple (Some 5) "A" 11; mkTriple None "A" 12]%string,
          [Some 11; Some 11; Some 11; Some 10]).
Proof.
  split; [repeat constructor; simpl; intuition discriminate|].
  split; [intros i c [H|[H|[]]]; inversion H; subst; auto|]. vm_compute. reflexivity.
Qed.

(* (2) the same under EVERY interleaving of the small steps of any number of threads (schedule = list of thread
   ids, each step contains at most one access to a mutable shared word): no word outside the cache area is touched,
   and every result any thread has obtained is the declared instance *)
Theorem C08_every_schedule_returns_declared :
  forall (cn : cls -> string) (wiring : list (nat * cls)) (skipnull reread : bool) (ncache : nat),
    NoDup (map fst wiring) -> (forall i c, In (i, c) wiring -> i < ncache) ->
  forall (D : list (string * inst)) (scripts : list (list (kind * cls))) (sched : list nat),
  exists s', run_sched cn wiring skipnull reread sched (cold_type ncache D, map idle_thread scripts) = Some s' /\
             inv cn wiring ncache D (fst s') /\
             forall th, In th (snd s') -> Forall (fun e => snd e = dspec cn D (fst e)) (th_log th).
Proof.
  intros cn wiring skipnull reread ncache Hn Hb D scripts sched.
  destruct (run_sched_ok cn wiring skipnull reread ncache Hn Hb D sched (cold_type ncache D, map idle_thread scripts))
    as [s' [Hr [[HI HF] _]]]; [apply sys_inv_cold|].
  exists s'. split; [exact Hr|]. split; [exact HI|]. intros th Hin. eapply Forall_forall in HF; eauto. apply HF.
Qed.
Print Assumptions C08_every_schedule_returns_declared.

(* (2b) lookups are wait-free: a thread that gets (#lookups) * (2 * #instances + 8) turns completes its whole
   script, with exactly the declared answers in script order, whatever the other threads do in between *)
Theorem C08_lookups_complete_under_any_interleaving :
  forall (cn : cls -> string) (wiring : list (nat * cls)) (skipnull reread : bool) (ncache : nat),
    NoDup (map fst wiring) -> (forall i c, In (i, c) wiring -> i < ncache) ->
  forall (D : list (string * inst)) (scripts : list (list (kind * cls))) (sched : list nat),
    (forall tid scr, nth_error scripts tid = Some scr ->
       List.length scr * (2 * List.length D + 8) <= count_occ Nat.eq_dec sched tid) ->
  exists s', run_sched cn wiring skipnull reread sched (cold_type ncache D, map idle_thread scripts) = Some s' /\
             List.length (snd s') = List.length scripts /\
             forall tid scr th', nth_error scripts tid = Some scr -> nth_error (snd s') tid = Some th' ->
               th_todo th' = [] /\ th_cur th' = None /\
               th_log th' = map (fun kc => (snd kc, dspec cn D (snd kc))) scr.
Proof.
  intros cn wiring skipnull reread ncache Hn Hb D scripts sched He.
  destruct (sched_complete cn wiring skipnull reread ncache Hn Hb D sched (cold_type ncache D, map idle_thread scripts))
    as [s' [Hr [Hl Hfin]]]; [apply sys_inv_cold|].
  exists s'. split; [exact Hr|]. simpl in Hl. rewrite map_length in Hl. split; [exact Hl|].
  intros tid scr th' Hs Hs'. destruct (Hfin tid (idle_thread scr)) as [th [E [[Ht Hc] Hlog]]].
  - simpl. rewrite nth_error_map, Hs. reflexivity.
  - exact (He tid scr Hs).
  - rewrite Hs' in E. injection E as <-. split; [exact Ht|]. split; [exact Hc|]. rewrite Hlog. apply map_map.
Qed.
Print Assumptions C08_lookups_complete_under_any_interleaving.

Example C08_schedule_nonvacuous :
  let cn := (fun c => if Nat.eqb c 5 then "A" else "B")%string in
  exists s', run_sched cn [(0, 5)] true true (flat_map (fun _ => [0; 1; 1; 0]) (seq 0 14))
               (cold_type 1 [("B", 10); ("A", 11)]%string, map idle_thread [[(KInstance, 5); (KScan, 7)]; [(KInstance, 5)]]) = Some s' /\
             map (@th_log) (snd s') = [[(5, Some 11); (7, Some 10)]; [(5, Some 11)]].
Proof. eexists. split; vm_compute; reflexivity. Qed.

(* (3a) method call through method()/type_method(): the member of the declared instance is invoked; a class the
   type does not implement, or a member it leaves empty, gives ClassError (and therefore no invocation: the outcome
   is MRaise, not MInvoke) *)
Theorem C08_method_call_invokes_declared_or_raises_ClassError :
  forall (cn : cls -> string) (wiring : list (nat * cls)) (skipnull reread : bool) (ncache : nat),
    NoDup (map fst wiring) -> (forall i c, In (i, c) wiring -> i < ncache) ->
  forall (D : list (string * inst)) (imem : inst -> nat -> bool) (T : trec) (c : cls) (m : nat),
    inv cn wiring ncache D T ->
  exists T' v, lookup cn wiring skipnull reread KInstance c T = ROk T' v /\ inv cn wiring ncache D T' /\
    method_result imem true v m =
      match dspec cn D c with
      | None => MRaise ClassError
      | Some i => if imem i m then MInvoke i m else MRaise ClassError
      end.
Proof.
  intros cn wiring skipnull reread ncache Hn Hb D imem T c m HI.
  apply (lookup_then cn wiring skipnull reread ncache Hn Hb D); [exact HI|]. destruct (dspec cn D c); reflexivity.
Qed.
Print Assumptions C08_method_call_invokes_declared_or_raises_ClassError.

Example C08_method_call_nonvacuous :
  inv (fun _ => "A"%string) [(0, 5)] 1 [("A"%string, 3)] (cold_type 1 [("A"%string, 3)]) /\
  method_result (fun i m => Nat.eqb m 1) true (Some 3) 1 = MInvoke 3 1 /\
  method_result (fun i m => Nat.eqb m 1) true (Some 3) 0 = MRaise ClassError /\
  method_result (fun i m => Nat.eqb m 1) true None 1 = MRaise ClassError.
Proof. split; [apply inv_cold_type | repeat split]. Qed.

Theorem C08_implements_method_reports_declared_member :
  forall (cn : cls -> string) (wiring : list (nat * cls)) (skipnull reread : bool) (ncache : nat),
    NoDup (map fst wiring) -> (forall i c, In (i, c) wiring -> i < ncache) ->
  forall (D : list (string * inst)) (imem : inst -> nat -> bool) (T : trec) (c : cls) (m : nat),
    inv cn wiring ncache D T ->
  exists T' v, lookup cn wiring skipnull reread KScan c T = ROk T' v /\ inv cn wiring ncache D T' /\
    implements_method_result imem v m = match dspec cn D c with None => false | Some i => imem i m end.
Proof.
  intros cn wiring skipnull reread ncache Hn Hb D imem T c m HI.
  apply (lookup_then cn wiring skipnull reread ncache Hn Hb D); [exact HI | reflexivity].
Qed.
Print Assumptions C08_implements_method_reports_declared_member.

(* (3b) cast: unless the type declares its own Cast member, cast to another type raises ValueError, to its own type
   returns the object *)
Theorem C08_cast_checks_the_type :
  forall (cn : cls -> string) (wiring : list (nat * cls)) (skipnull reread : bool) (ncache : nat),
    NoDup (map fst wiring) -> (forall i c, In (i, c) wiring -> i < ncache) ->
  forall (D : list (string * inst)) (imem : inst -> nat -> bool) (T : trec) (ccast tself ttype : nat),
    inv cn wiring ncache D T ->
  exists T' v, lookup cn wiring skipnull reread KInstance ccast T = ROk T' v /\ inv cn wiring ncache D T' /\
    cast_result imem v tself ttype =
      match dspec cn D ccast with
      | Some i => if imem i 0 then CCustom i else if Nat.eqb tself ttype then CSelf else CRaise ValueError
      | None => if Nat.eqb tself ttype then CSelf else CRaise ValueError
      end.
Proof.
  intros cn wiring skipnull reread ncache Hn Hb D imem T ccast tself ttype HI.
  apply (lookup_then cn wiring skipnull reread ncache Hn Hb D); [exact HI | reflexivity].
Qed.
Print Assumptions C08_cast_checks_the_type.

Theorem C08_cast_to_another_type_raises_ValueError :
  forall imem r tself ttype, tself <> ttype ->
    (r = None \/ exists i, r = Some i /\ imem i 0 = false) -> cast_result imem r tself ttype = CRaise ValueError.
Proof.
  intros imem r tself ttype Hne H. apply Nat.eqb_neq in Hne. unfold cast_result.
  destruct H as [->|[i [-> Hi]]]; [|rewrite Hi]; rewrite Hne; reflexivity.
Qed.
Print Assumptions C08_cast_to_another_type_raises_ValueError.

Example C08_cast_nonvacuous : cast_result (fun _ _ => false) None 3 4 = CRaise ValueError /\
                              cast_result (fun _ _ => false) (Some 2) 3 3 = CSelf.
Proof. split; reflexivity. Qed.

(* (4) the data generated from the working tree: no two cache entries share a slot, every slot lies inside the
   CELLO_CACHE_NUM words, every wired name is a class, builtin objects have pairwise distinct names, every declared
   instance is of a class struct with that many members, and the rule texts the model encodes are the source's *)
Theorem C08_generated_wiring_sound :
  NoDup (map fst cache_wiring) /\
  (forall i n, In (i, n) cache_wiring -> i < cello_cache_num /\ exists k, In (n, k) builtin_classes) /\
  Nat.modulo cello_cache_num 3 = 0 /\
  NoDup builtin_objects /\
  (forall t insts, In (t, insts) builtin_types -> Forall (fun s => In s builtin_objects) (map fst insts)) /\
  all_shapes_ok = true.
Proof. exact generated_facts. Qed.
Print Assumptions C08_generated_wiring_sound.

(* (5) hence for every builtin type object and every history of lookups of builtin objects used as classes, with
   the generated wiring: the instance declared for that class by class IDENTITY (first Instance(Class, ...) entry) *)
Theorem C08_builtin_types_return_declared_instance :
  forall tname insts h, In (tname, insts) builtin_types ->
    Forall (fun kc => snd kc < List.length builtin_objects) h ->
  exists T', run_history cn_b wiring_b cache_write_skips_null cache_fetch_rereads (cold_type cello_cache_num (builtin_decl insts)) h =
             Some (T', map (fun kc => decl_lookup (builtin_decl_ids insts) (snd kc)) h).
Proof.
  intros tname insts h Hin HF.
  destruct (every_history_from_cold cn_b wiring_b cache_write_skips_null cache_fetch_rereads cello_cache_num
              wiring_b_nodup wiring_b_bound (builtin_decl insts) h) as [T' [H _]].
  exists T'. rewrite H. f_equal. f_equal. apply map_ext_in. intros [k c] Hkc.
  destruct generated_facts as [_ [_ [_ [Hnd [Hnames _]]]]].
  apply dspec_identity_objs; [exact Hnd | eapply Hnames; eauto |]. eapply Forall_forall in HF; eauto.
Qed.
Print Assumptions C08_builtin_types_return_declared_instance.

Example C08_builtin_nonvacuous :
  exists insts, In ("Int"%string, insts) builtin_types /\
    map (fun c => decl_lookup (builtin_decl_ids insts) (index_of c builtin_objects)) ["Cmp"; "Len"; "Doc"]%string
    = [Some 2; None; Some 0].
Proof.
  exists (match find (fun t => String.eqb (fst t) "Int"%string) builtin_types with Some x => snd x | None => [] end).
  split; [|vm_compute; reflexivity].
  destruct (find (fun t => String.eqb (fst t) "Int"%string) builtin_types) as [[n i]|] eqn:E; [|vm_compute in E; discriminate].
  apply find_some in E. destruct E as [Hin Hn]. cbn [fst] in Hn. apply String.eqb_eq in Hn. subst n. exact Hin.
Qed.

(* the reading by class identity needs distinct classes to have distinct names: two class objects that carry one name
   are indistinguishable to Type_Scan (declaration is by name: Instance(I, ...) stores #I) *)
Theorem C08_same_name_classes_alias :
  exists (cn : cls -> string) dl c, dspec cn (map (fun d => (cn (fst d), snd d)) dl) c <> decl_lookup dl c.
Proof. exists (fun _ => "X"%string), [(0, 10)], 1. vm_compute. discriminate. Qed.
Print Assumptions C08_same_name_classes_alias.

Theorem C08_distinct_names_give_identity_reading :
  forall cn dl c, (forall c', In c' (map fst dl) -> cn c' = cn c -> c' = c) ->
    dspec cn (map (fun d => (cn (fst d), snd d)) dl) c = decl_lookup dl c.
Proof. exact dspec_decl_lookup. Qed.
Print Assumptions C08_distinct_names_give_identity_reading.

(* the hypotheses on the wiring are necessary *)
Theorem C08_shared_slot_refuted : exists cn wiring D h,
  ~ NoDup (map fst wiring) /\
  exists T' r, run_history cn wiring false false (cold_type 2 D) h = Some (T', r) /\ r <> map (fun kc => dspec cn D (snd kc)) h.
Proof.
  exists (fun c => if Nat.eqb c 5 then "A" else "B")%string, [(0, 5); (0, 7)], [("A", 1); ("B", 2)]%string,
         [(KInstance, 5); (KInstance, 7)].
  split.
  - intro H. inversion H as [|? ? Hn _]; subst. apply Hn. simpl; auto.
  - eexists. eexists. split; [vm_compute; reflexivity | vm_compute; discriminate].
Qed.
Print Assumptions C08_shared_slot_refuted.

Theorem C08_slot_outside_cache_refuted : exists cn wiring D c,
  lookup cn wiring false false KInstance c (cold_type 1 D) = RCrash.
Proof. exists (fun _ => "A"%string), [(1, 5)], [("A"%string, 1)], 5. vm_compute. reflexivity. Qed.
Print Assumptions C08_slot_outside_cache_refuted.

(* (6) run-time types: the allocator zeroes the block or Type_New clears all CELLO_CACHE_NUM cache words (read from the
   source), so a new type starts cold in whatever block it is built, and every history of lookups on it answers from
   its own declaration only -- not from what a deleted type left in a recycled block *)
Theorem C08_fresh_runtime_type_answers_from_own_declaration :
  forall (cn : cls -> string) (wiring : list (nat * cls)) (skipnull reread : bool),
    NoDup (map fst wiring) -> (forall i c, In (i, c) wiring -> i < cello_cache_num) ->
  forall (garbage : list (option inst)) (D : list (string * inst)) (h : list (kind * cls)),
    List.length garbage = cello_cache_num ->
  exists T', run_history cn wiring skipnull reread
               (fresh_type type_alloc_zeroed type_new_cleared_words cello_cache_num garbage D) h
             = Some (T', map (fun kc => dspec cn D (snd kc)) h).
Proof.
  intros cn wiring skipnull reread Hn Hb garbage D h Hl. rewrite (generated_fresh_type_cold garbage D Hl).
  destruct (every_history_from_cold cn wiring skipnull reread cello_cache_num Hn Hb D h) as [T' [H _]].
  exists T'. exact H.
Qed.
Print Assumptions C08_fresh_runtime_type_answers_from_own_declaration.

Theorem C08_partial_cache_clear_refuted : exists cn wiring garbage D h,
  NoDup (map fst wiring) /\ (forall i c, In (i, c) wiring -> i < 2) /\ List.length garbage = 2 /\
  exists T' r, run_history cn wiring false false (fresh_type false 1 2 garbage D) h = Some (T', r) /\
               r <> map (fun kc => dspec cn D (snd kc)) h.
Proof.
  exists (fun c => if Nat.eqb c 5 then "A" else "B")%string, [(0, 5); (1, 7)], [Some 40; Some 41], [("A", 1)]%string,
         [(KInstance, 7)].
  split; [repeat constructor; simpl; intuition discriminate|].
  split; [intros i c [H|[H|[]]]; inversion H; subst; auto|].
  split; [reflexivity|].
  eexists. eexists. split; [vm_compute; reflexivity | vm_compute; discriminate].
Qed.
Print Assumptions C08_partial_cache_clear_refuted.
