(* FileRoundTrip.v — the data part of property C20 on the specification of FileModel.v:
   bytes written in ANY chunking are read back identical in ANY chunking after reopening the
   file or after seeking back; stell is the running byte count; seof turns true exactly when a
   read runs into the end.  Transferred to the model of File.c by FileProofs.run_refines. *)
From Coq Require Import List Arith Bool ZArith Lia.
From CelloV Require Import ListFacts FileModel FileProofs.
Import ListNotations.

Section RoundTrip.
  Variable B : Type.
  Variable zero : B.
  Variables is_ws is_digit is_sign : B -> bool.
  Variable creatable : nat -> bool.
  Variable close_fails : nat -> bool.

  Notation sstep := (spec_step B zero is_ws is_digit is_sign creatable close_fails).
  Notation srun := (spec_run B zero is_ws is_digit is_sign creatable close_fails).
  Notation sworld := (sworld B).
  Notation out := (out B).

  (* consecutive pieces of l with the given sizes *)
  Fixpoint pieces (ns : list nat) (l : list B) : list (list B) :=
    match ns with
    | [] => []
    | n :: r => firstn n l :: pieces r (skipn n l)
    end.

  Lemma pieces_concat : forall ns l, list_sum ns = length l -> concat (pieces ns l) = l.
  Proof.
    induction ns as [|n r IH]; intros l H; simpl in *.
    - destruct l; simpl in *; auto; lia.
    - rewrite IH; [apply firstn_skipn|]. rewrite skipn_length. lia.
  Qed.

  Lemma pieces_lengths : forall ns l, list_sum ns <= length l -> map (@length B) (pieces ns l) = ns.
  Proof.
    induction ns as [|n r IH]; intros l H; simpl in *; auto.
    rewrite IH.
    - rewrite firstn_length. f_equal. lia.
    - rewrite skipn_length. lia.
  Qed.

  Lemma write_at_end : forall (c d : list B), write_at B zero c (length c) d = c ++ d.
  Proof.
    intros c d. unfold write_at. rewrite firstn_all, Nat.sub_diag. simpl.
    rewrite skipn_all2; [|lia]. rewrite app_nil_r. auto.
  Qed.

  (* from every world that satisfies P the history ops gives the outcomes outs and ends in a world that satisfies Q *)
  Definition runs (P : sworld -> Prop) (ops : list (op B)) (outs : list out) (Q : sworld -> Prop) : Prop :=
    forall a, P a -> exists a', srun a ops = (a', outs) /\ Q a'.

  Lemma runs_nil : forall P, runs P [] [] P.
  Proof. intros P a Ha. exists a. auto. Qed.

  Lemma runs_step : forall (P Q : sworld -> Prop) o x,
    (forall a, P a -> exists a', sstep a o = (a', x) /\ Q a') -> runs P [o] [x] Q.
  Proof. intros P Q o x H a Ha. destruct (H a Ha) as (a' & E & Hq). exists a'. simpl. rewrite E. auto. Qed.

  Lemma srun_app : forall l1 l2 (a : sworld),
    srun a (l1 ++ l2) =
    let (a1, o1) := srun a l1 in let (a2, o2) := srun a1 l2 in (a2, o1 ++ o2).
  Proof.
    induction l1 as [|o r IH]; intros l2 a; simpl.
    - destruct (srun a l2); auto.
    - destruct (sstep a o) as [a1 x]. rewrite IH.
      destruct (srun a1 r) as [a2 xs]. destruct (srun a2 l2) as [a3 ys]. auto.
  Qed.

  Lemma runs_app : forall P Q R l1 l2 o1 o2,
    runs P l1 o1 Q -> runs Q l2 o2 R -> runs P (l1 ++ l2) (o1 ++ o2) R.
  Proof.
    intros P Q R l1 l2 o1 o2 H1 H2 a Ha.
    destruct (H1 a Ha) as (a1 & E1 & Hq). destruct (H2 a1 Hq) as (a2 & E2 & Hr).
    exists a2. rewrite srun_app, E1, E2. auto.
  Qed.

  Lemma runs_cons : forall P Q R o x l outs,
    runs P [o] [x] Q -> runs Q l outs R -> runs P (o :: l) (x :: outs) R.
  Proof. intros P Q R o x l outs. apply (runs_app P Q R [o] l [x] outs). Qed.

  Notation runF := (run B zero is_ws is_digit is_sign creatable close_fails true true).

  (* what a triple says about the model of File.c in a world that keeps the ledger invariant *)
  Lemma runs_model : forall (w : world B) P ops outs Q,
    inv B w -> runs P ops outs Q -> P (abs B w) -> snd (runF w ops) = outs.
  Proof.
    intros w P ops outs Q Hinv H Hp. destruct (H _ Hp) as (a' & E & _).
    rewrite <- (proj1 (run_refines B zero is_ws is_digit is_sign creatable close_fails ops w _ Hinv (equiv_refl B w))), E.
    reflexivity.
  Qed.

  (* ... in the world after any history from a state without open streams that leaves File i closed *)
  Lemma runs_closed_model : forall fs objs pre i ops outs Q,
    (forall j h, objs j <> FObj (Some h)) ->
    let w := fst (runF (w_init B fs objs) pre) in
    w_objs B w i = FObj None ->
    runs (fun a => sw_objs B a i = SClosed) ops outs Q -> snd (runF w ops) = outs.
  Proof.
    intros fs objs pre i ops outs Q Hn w Hi H.
    apply (runs_model w _ _ _ _ (reachable_inv B zero is_ws is_digit is_sign creatable close_fails fs objs pre Hn) H).
    simpl. rewrite Hi. reflexivity.
  Qed.

  (* File i is open on path p in mode m at position pos with EOF flag e, and the file at p holds c *)
  Definition open_at (i p : nat) (m : mode) (pos : nat) (e : bool) (c : list B) (a : sworld) : Prop :=
    sw_objs B a i = SOpen (mkS p pos e m) /\ sw_fs B a p = Some c.
  Definition closed_on (i p : nat) (c : list B) (a : sworld) : Prop :=
    sw_objs B a i = SClosed /\ sw_fs B a p = Some c.

  Definition trunc_mode (m : mode) : Prop := m = MW \/ m = MWp.
  Definition from_start_mode (m : mode) : Prop := m = MR \/ m = MRp \/ m = MAp.

  Lemma open_trunc_runs : forall i p m,
    creatable p = true -> trunc_mode m ->
    runs (fun a => sw_objs B a i = SClosed) [OOpen B i p m] [OkUnit B] (open_at i p m 0 false []).
  Proof.
    intros i p m Hc Hm. apply runs_step. intros a Hi.
    simpl. unfold s_reopen, s_open, fopen. rewrite Hi, Hc.
    destruct Hm as [-> | ->]; (eexists; split; [reflexivity|]; split; simpl; apply fupd_same).
  Qed.

  Lemma open_start_runs : forall i p m c,
    creatable p = true -> from_start_mode m ->
    runs (closed_on i p c) [OOpen B i p m] [OkUnit B] (open_at i p m 0 false c).
  Proof.
    intros i p m c Hc Hm. apply runs_step. intros a [Hi Hf].
    simpl. unfold s_reopen, s_open, fopen, content. rewrite Hi, Hc, Hf.
    destruct Hm as [-> | [-> | ->]]; (eexists; split; [reflexivity|]; split; simpl; rewrite ?fupd_same; auto).
  Qed.

  Lemma close_runs : forall i p m pos e c,
    close_fails p = false -> runs (open_at i p m pos e c) [OClose B i] [OkUnit B] (closed_on i p c).
  Proof.
    intros i p m pos e c Hc. apply runs_step. intros a [Hi Hf].
    simpl. rewrite Hi. simpl. rewrite Hc. eexists. split; [reflexivity|]. split; simpl; [apply fupd_same|auto].
  Qed.

  Lemma tell_runs : forall i p m pos e c,
    runs (open_at i p m pos e c) [OTell B i] [OkNum B pos] (open_at i p m pos e c).
  Proof.
    intros i p m pos e c. apply runs_step. intros a Ha. exists a. split; [|exact Ha].
    simpl. unfold s_on_open. rewrite (proj1 Ha). reflexivity.
  Qed.

  Lemma eof_runs : forall i p m pos e c,
    runs (open_at i p m pos e c) [OEof B i] [OkBool B e] (open_at i p m pos e c).
  Proof.
    intros i p m pos e c. apply runs_step. intros a Ha. exists a. split; [|exact Ha].
    simpl. unfold s_on_open. rewrite (proj1 Ha). reflexivity.
  Qed.

  Definition seek_target (len pos : nat) (off : Z) (o : origin) : option Z :=
    match o with
    | SeekSet => Some off
    | SeekCur => Some (Z.of_nat pos + off)%Z
    | SeekEnd => Some (Z.of_nat len + off)%Z
    | SeekBad => None
    end.

  Lemma seek_runs : forall i p m pos e c off o t,
    seek_target (length c) pos off o = Some (Z.of_nat t) ->
    runs (open_at i p m pos e c) [OSeek B i off o] [OkUnit B] (open_at i p m t false c).
  Proof.
    intros i p m pos e c off o t Ht. apply runs_step. intros a [Hi Hf].
    assert (Hsk : fseek B (sw_fs B a) (mkS p pos e m) off o = Some (mkS p t false m)).
    { unfold fseek, content. simpl. rewrite Hf.
      destruct o; simpl in *; try discriminate; injection Ht as Ht'; rewrite Ht';
        (destruct (Z.ltb_spec (Z.of_nat t) 0); [lia|]); rewrite Nat2Z.id; reflexivity. }
    simpl. unfold s_on_open. rewrite Hi, Hsk.
    eexists. split; [reflexivity|]. split; simpl; [apply fupd_same|auto].
  Qed.

  Definition wrote (d : list B) : out := OkWrite B (Nat.min 1 (length d)).
  Definition got (pc : list B) : out := OkRead B (Nat.min 1 (length pc)) pc.

  (* fwrite at the end of the file appends, in every mode that can write *)
  Lemma fwrite_end : forall (fs : fsys B) p e m c d,
    fs p = Some c -> m_write m = true ->
    exists fs', fs' p = Some (c ++ d) /\
      fwrite B zero fs (mkS p (length c) e m) d = (Nat.min 1 (length d), fs', mkS p (length (c ++ d)) e m).
  Proof.
    intros fs p e m c d Hf Hw. unfold fwrite, content. simpl. rewrite Hw, Hf.
    destruct d as [|b d]; simpl.
    - exists fs. rewrite app_nil_r. auto.
    - eexists. split; [apply fupd_same|]. destruct (m_append m); rewrite write_at_end, app_length; reflexivity.
  Qed.

  Lemma write_runs : forall i p m e,
    m_write m = true -> forall d c,
    runs (open_at i p m (length c) e c) [OWrite B i d] [wrote d] (open_at i p m (length (c ++ d)) e (c ++ d)).
  Proof.
    intros i p m e Hw d c. apply runs_step. intros a [Hi Hf].
    destruct (fwrite_end (sw_fs B a) p e m c d Hf Hw) as (fs' & Hf' & E).
    simpl. unfold s_on_open. rewrite Hi, E.
    eexists. split; [destruct d; reflexivity|]. split; simpl; [apply fupd_same|auto].
  Qed.

  (* chunks handed one after the other to an operation that appends (swrite, print_to) *)
  Lemma appends_runs : forall (mk : list B -> op B) (res : list B -> out) i p m e,
    (forall d c, runs (open_at i p m (length c) e c) [mk d] [res d] (open_at i p m (length (c ++ d)) e (c ++ d))) ->
    forall ds c,
    runs (open_at i p m (length c) e c) (map mk ds) (map res ds)
         (open_at i p m (length (c ++ concat ds)) e (c ++ concat ds)).
  Proof.
    intros mk res i p m e H ds. induction ds as [|d r IH]; intros c; simpl.
    - rewrite app_nil_r. apply runs_nil.
    - rewrite app_assoc. exact (runs_cons _ _ _ _ _ _ _ (H d c) (IH (c ++ d))).
  Qed.

  Lemma got_full : forall n pos (c : list B),
    0 < n -> pos + n <= length c -> got (firstn n (skipn pos c)) = OkRead B 1 (firstn n (skipn pos c)).
  Proof. intros n pos c Hn Hl. unfold got. rewrite firstn_length, skipn_length. f_equal. lia. Qed.

  Lemma read_runs : forall i p m e c n pos,
    m_read m = true -> pos + n <= length c ->
    runs (open_at i p m pos e c) [ORead B i n] [got (firstn n (skipn pos c))] (open_at i p m (pos + n) e c).
  Proof.
    intros i p m e c n pos Hr Hl. apply runs_step. intros a [Hi Hf].
    simpl. unfold s_on_open, fread, content. rewrite Hi. simpl. rewrite Hr, Hf. simpl.
    destruct n as [|n]; simpl Nat.eqb; cbv iota.
    - rewrite Nat.add_0_r. eexists. split; [reflexivity|]. split; simpl; [apply fupd_same|auto].
    - replace (S n <=? length (skipn pos c)) with true by (symmetry; apply Nat.leb_le; rewrite skipn_length; lia).
      rewrite got_full by lia.
      eexists. split; [reflexivity|]. split; simpl; [apply fupd_same|auto].
  Qed.

  Lemma reads_runs : forall i p m e c,
    m_read m = true -> forall ns pos, pos + list_sum ns <= length c ->
    runs (open_at i p m pos e c) (map (ORead B i) ns) (map got (pieces ns (skipn pos c)))
         (open_at i p m (pos + list_sum ns) e c).
  Proof.
    intros i p m e c Hr ns. induction ns as [|n r IH]; intros pos Hl; simpl in *.
    - rewrite Nat.add_0_r. apply runs_nil.
    - rewrite skipn_skipn, Nat.add_assoc.
      apply (runs_cons _ _ _ _ _ _ _ (read_runs i p m e c n pos Hr ltac:(lia))). apply IH. lia.
  Qed.

  Lemma read_end_runs : forall i p m e c,
    m_read m = true ->
    runs (open_at i p m (length c) e c) [ORead B i 1] [OkRead B 0 []] (open_at i p m (length c) true c).
  Proof.
    intros i p m e c Hr. apply runs_step. intros a [Hi Hf].
    simpl. unfold s_on_open, fread, content. rewrite Hi. simpl. rewrite Hr, Hf, skipn_all. simpl.
    rewrite Nat.add_0_r. eexists. split; [reflexivity|]. split; simpl; [apply fupd_same|auto].
  Qed.

  Lemma read_back_runs : forall i p m c ns,
    m_read m = true -> list_sum ns = length c ->
    runs (open_at i p m 0 false c)
         (map (ORead B i) ns ++ [OTell B i; OEof B i; ORead B i 1; OEof B i])
         (map got (pieces ns c) ++ [OkNum B (length c); OkBool B false; OkRead B 0 []; OkBool B true])
         (open_at i p m (length c) true c).
  Proof.
    intros i p m c ns Hr Hs.
    apply (runs_app _ (open_at i p m (length c) false c)).
    - rewrite <- Hs. apply (reads_runs i p m false c Hr ns 0). simpl. lia.
    - eapply runs_cons; [apply tell_runs|]. eapply runs_cons; [apply eof_runs|].
      eapply runs_cons; [apply read_end_runs, Hr|]. apply eof_runs.
  Qed.

  Lemma m_read_from_start : forall m, from_start_mode m -> m_read m = true.
  Proof. intros m [-> | [-> | ->]]; reflexivity. Qed.
  Lemma m_write_trunc : forall m, trunc_mode m -> m_write m = true.
  Proof. intros m [-> | ->]; reflexivity. Qed.

  Definition reopen_history (i p : nat) (mw mr : mode) (ds : list (list B)) (ns : list nat) : list (op B) :=
    OOpen B i p mw :: map (OWrite B i) ds ++ [OTell B i] ++ [OClose B i; OOpen B i p mr] ++
    map (ORead B i) ns ++ [OTell B i; OEof B i; ORead B i 1; OEof B i].
  Definition reopen_outcome (ds : list (list B)) (ns : list nat) : list out :=
    OkUnit B :: map wrote ds ++ [OkNum B (length (concat ds))] ++ [OkUnit B; OkUnit B] ++
    map got (pieces ns (concat ds)) ++
    [OkNum B (length (concat ds)); OkBool B false; OkRead B 0 []; OkBool B true].

  (* open truncating, hand the chunks ds one after the other to an operation that appends (swrite, print_to),
     stell, close, reopen from the start, read back in the chunking ns *)
  Theorem spec_append_reopen : forall (mk : list B -> op B) (res : list B -> out) i p mw mr ds ns,
    (forall d c, runs (open_at i p mw (length c) false c) [mk d] [res d]
                      (open_at i p mw (length (c ++ d)) false (c ++ d))) ->
    creatable p = true -> close_fails p = false ->
    trunc_mode mw -> from_start_mode mr -> list_sum ns = length (concat ds) ->
    runs (fun a => sw_objs B a i = SClosed)
         (OOpen B i p mw :: map mk ds ++ [OTell B i] ++ [OClose B i; OOpen B i p mr] ++
          map (ORead B i) ns ++ [OTell B i; OEof B i; ORead B i 1; OEof B i])
         (OkUnit B :: map res ds ++ [OkNum B (length (concat ds))] ++ [OkUnit B; OkUnit B] ++
          map got (pieces ns (concat ds)) ++
          [OkNum B (length (concat ds)); OkBool B false; OkRead B 0 []; OkBool B true])
         (open_at i p mr (length (concat ds)) true (concat ds)).
  Proof.
    intros mk res i p mw mr ds ns H Hc Hcf Hmw Hmr Hs.
    eapply runs_cons; [apply open_trunc_runs; auto|].
    eapply runs_app; [apply (appends_runs _ _ i p mw false H ds [])|].
    eapply runs_cons; [apply tell_runs|].
    eapply runs_cons; [apply close_runs, Hcf|]. eapply runs_cons; [apply open_start_runs; auto|].
    apply read_back_runs; auto using m_read_from_start.
  Qed.

  (* the three ways of seeking back to the first byte when the position is the length len *)
  Definition back_to_start (len : nat) (off : Z) (o : origin) : Prop :=
    (o = SeekSet /\ off = 0%Z) \/ (o = SeekCur /\ off = (- Z.of_nat len)%Z) \/ (o = SeekEnd /\ off = (- Z.of_nat len)%Z).

  Definition seek_history (i p : nat) (off : Z) (o : origin) (ds : list (list B)) (ns : list nat) : list (op B) :=
    OOpen B i p MWp :: map (OWrite B i) ds ++ [OTell B i] ++ [OSeek B i off o] ++
    map (ORead B i) ns ++ [OTell B i; OEof B i; ORead B i 1; OEof B i].
  Definition seek_outcome (ds : list (list B)) (ns : list nat) : list out :=
    OkUnit B :: map wrote ds ++ [OkNum B (length (concat ds))] ++ [OkUnit B] ++
    map got (pieces ns (concat ds)) ++
    [OkNum B (length (concat ds)); OkBool B false; OkRead B 0 []; OkBool B true].

  Theorem spec_roundtrip_seek : forall i p ds ns off o,
    creatable p = true -> back_to_start (length (concat ds)) off o -> list_sum ns = length (concat ds) ->
    runs (fun a => sw_objs B a i = SClosed) (seek_history i p off o ds ns) (seek_outcome ds ns)
         (open_at i p MWp (length (concat ds)) true (concat ds)).
  Proof.
    intros i p ds ns off o Hc Hb Hs.
    eapply runs_cons; [apply open_trunc_runs; auto; right; reflexivity|].
    eapply runs_app; [apply (appends_runs _ _ i p MWp false (write_runs i p MWp false eq_refl) ds [])|].
    eapply runs_cons; [apply tell_runs|].
    eapply runs_cons; [apply (seek_runs _ _ _ _ _ _ off o 0)|apply read_back_runs; auto].
    destruct Hb as [[-> ->] | [[-> ->] | [-> ->]]]; simpl; f_equal; lia.
  Qed.

  (* every seek origin and every offset inside the file: stell reports the target, sread delivers
     the bytes that lie there *)
  Theorem spec_seek_tell_read : forall i p m pos e c off o n t,
    m_read m = true -> seek_target (length c) pos off o = Some (Z.of_nat t) -> 0 < n -> t + n <= length c ->
    runs (open_at i p m pos e c)
         [OSeek B i off o; OTell B i; OEof B i; ORead B i n; OTell B i]
         [OkUnit B; OkNum B t; OkBool B false; OkRead B 1 (firstn n (skipn t c)); OkNum B (t + n)]
         (open_at i p m (t + n) false c).
  Proof.
    intros i p m pos e c off o n t Hr Ht Hn Hl.
    eapply runs_cons; [apply seek_runs, Ht|]. eapply runs_cons; [apply tell_runs|].
    eapply runs_cons; [apply eof_runs|]. rewrite <- (got_full n t c Hn Hl).
    eapply runs_cons; [apply read_runs; auto|apply tell_runs].
  Qed.

  Theorem seek_tell_read_anywhere : forall fs objs pre i h off o n t,
    (forall j h', objs j <> FObj (Some h')) ->
    let w := fst (runF (w_init B fs objs) pre) in
    w_objs B w i = FObj (Some h) ->
    let s := f_st (w_files B w h) in
    let c := content B (w_fs B w) (s_path s) in
    m_read (s_mode s) = true ->
    seek_target (length c) (s_pos s) off o = Some (Z.of_nat t) -> 0 < n -> t + n <= length c ->
    snd (runF w [OSeek B i off o; OTell B i; OEof B i; ORead B i n; OTell B i]) =
      [OkUnit B; OkNum B t; OkBool B false; OkRead B 1 (firstn n (skipn t c)); OkNum B (t + n)].
  Proof.
    intros fs objs pre i h off o n t Hn w Hi s c Hr Ht Hpos Hlen.
    destruct s as [p pos e m] eqn:Es. cbn [s_path s_mode s_pos] in *.
    apply (runs_model w _ _ _ _ (reachable_inv B zero is_ws is_digit is_sign creatable close_fails fs objs pre Hn)
             (spec_seek_tell_read i p m pos e c off o n t Hr Ht Hpos Hlen)).
    split; simpl; [rewrite Hi; simpl; fold s; rewrite Es; reflexivity|].
    (* a file that holds t + n > 0 bytes exists *)
    unfold c, content in *. destruct (w_fs B w p); [reflexivity|simpl in Hlen; lia].
  Qed.
End RoundTrip.
