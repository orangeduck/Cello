(* StringProofs.v — proofs about StringModel.v (C16): the model of src/String.c refines the
   abstract-string specification for every history; the specification's search / removal /
   comparison are the list-level notions the property text names.  In Section Refinement the allocation
   rules and the code shapes are variables with the hypotheses the proofs need; from c_new on they are the
   ones re-extracted from src/String.c (Generated.v). *)
From Coq Require Import List Arith Bool NArith ZArith Lia.
From CelloV Require Import ListFacts StringModel.
Import ListNotations.

Lemma realloc_length b n : length (realloc b n) = n.
Proof. unfold realloc. rewrite app_length, repeat_length, firstn_length. lia. Qed.

Lemma map_Some_length (s : list byte) : length (map Some s) = length s.
Proof. apply map_length. Qed.

#[global] Hint Rewrite app_length map_length repeat_length firstn_length skipn_length realloc_length : len.

(* closes goals and side conditions that are linear arithmetic once the lengths in the goal are computed *)
Ltac len := autorewrite with len; cbn [length]; lia.

(* the index is given by an equation: `length s` and `length (map Some s)` both do *)
Lemma firstn_app_eq {T} n (A B : list T) : n = length A -> firstn n (A ++ B) = A.
Proof. intros ->. apply firstn_app_len. Qed.

Lemma skipn_app_eq {T} n k (A B : list T) : n = length A + k -> skipn n (A ++ B) = skipn k B.
Proof. intros ->. apply skipn_app_len. Qed.

Lemma nulfree_app a b : nulfree (a ++ b) <-> nulfree a /\ nulfree b.
Proof. apply Forall_app. Qed.

Lemma nulfree_firstn n s : nulfree s -> nulfree (firstn n s).
Proof. rewrite <- (firstn_skipn n s) at 1. intros H%nulfree_app. apply H. Qed.

Lemma nulfree_skipn n s : nulfree s -> nulfree (skipn n s).
Proof. rewrite <- (firstn_skipn n s) at 1. intros H%nulfree_app. apply H. Qed.

Lemma repr_intro s t : nulfree s -> repr (map Some s ++ Some 0 :: t) s.
Proof. intros H. split; [exact H|]. exists t. reflexivity. Qed.

Lemma repr_c_str b s : repr b s -> c_str b = Some s.
Proof.
  intros [Hn [t ->]]. induction Hn as [|c s Hc _ IH]; cbn [map app c_str]; [reflexivity|].
  destruct c; [congruence|]. rewrite IH. reflexivity.
Qed.

Theorem repr_iff_c_str b s : repr b s <-> c_str b = Some s.
Proof.
  split; [apply repr_c_str|]. revert s.
  induction b as [|[[|c]|] b IH]; intros s H; cbn [c_str] in H; try discriminate.
  - injection H as <-. apply (repr_intro [] b). constructor.
  - destruct (c_str b) as [s'|]; [|discriminate]. injection H as <-.
    destruct (IH s' eq_refl) as [Hn [t ->]]. apply (repr_intro (S c :: s') t).
    constructor; [discriminate|exact Hn].
Qed.

Lemma repr_unique b s s' : repr b s -> repr b s' -> s = s'.
Proof. intros H H'. apply repr_c_str in H. apply repr_c_str in H'. congruence. Qed.

Lemma repr_c_strlen b s : repr b s -> c_strlen b = Some (length s).
Proof. intros H. unfold c_strlen. rewrite (repr_c_str _ _ H). reflexivity. Qed.

Lemma repr_length b s : repr b s -> length s < length b.
Proof. intros [_ [t ->]]. len. Qed.

Lemma repr_firstn b s n : repr b s -> n <= length s -> firstn n b = map Some (firstn n s).
Proof.
  intros [_ [t ->]] H. rewrite firstn_app, firstn_map.
  replace (n - length (map Some s)) with 0 by len. apply app_nil_r.
Qed.

(* a libc call succeeds and leaves a buffer that represents s *)
Definition yields (r : option buffer) (s : list byte) : Prop := exists b', r = Some b' /\ repr b' s.

Lemma yields_some b s : repr b s -> yields (Some b) s.
Proof. intros R. exists b. split; [reflexivity|exact R]. Qed.

Lemma repr_build s v tail : nulfree s -> nulfree v ->
  repr (map Some s ++ map Some (v ++ [0]) ++ tail) (s ++ v).
Proof.
  intros Hs Hv. rewrite map_app, <- app_assoc, app_assoc, <- map_app.
  apply repr_intro, nulfree_app. split; assumption.
Qed.

Lemma write_ok b off d : off + length d <= length b ->
  write b off d = Some (firstn off b ++ map Some d ++ skipn (off + length d) b).
Proof. intros H%Nat.leb_le. unfold write. rewrite H. reflexivity. Qed.

Lemma memmove_ok b dst src cnt : src + cnt <= length b -> dst + cnt <= length b ->
  memmove b dst src cnt = Some (firstn dst b ++ firstn cnt (skipn src b) ++ skipn (dst + cnt) b).
Proof. intros H1%Nat.leb_le H2%Nat.leb_le. unfold memmove. rewrite H1, H2. reflexivity. Qed.

(* a prefix of the old block survives a realloc that keeps at least that many bytes *)
Lemma realloc_app (p t : list cell) n : length p <= n ->
  realloc (p ++ t) n = p ++ firstn (n - length p) t ++ repeat None (n - length (p ++ t)).
Proof. intros H. unfold realloc. rewrite firstn_app, firstn_all2, app_assoc by exact H. reflexivity. Qed.

Lemma firstn_realloc b n k : k <= n -> k <= length b -> firstn k (realloc b n) = firstn k b.
Proof.
  intros Hn Hb. rewrite <- (firstn_skipn k b) at 1. rewrite realloc_app by len.
  apply firstn_app_eq. len.
Qed.

Lemma realloc_repr b s n : repr b s -> length s + 1 <= n -> repr (realloc b n) s.
Proof.
  intros [Hs [t ->]] Hn. change (Some 0 :: t) with ([Some 0] ++ t).
  rewrite app_assoc, realloc_app by len. rewrite <- app_assoc. apply repr_intro, Hs.
Qed.

Lemma write_realloc b n off d : off <= length b -> off + length d <= n ->
  write (realloc b n) off d
  = Some (firstn off b ++ map Some d ++ skipn (off + length d) (realloc b n)).
Proof. intros Hb Hn. rewrite write_ok, firstn_realloc by len. reflexivity. Qed.

(* everything from offset n <= strlen on is replaced by d and a terminator (after a realloc that
   leaves room for them): String_Concat at n = strlen, String_Resize when truncating, String_Format_To *)
Lemma write_cut b s n cap d : repr b s -> n <= length s -> nulfree d -> n + length d + 1 <= cap ->
  yields (write (realloc b cap) n (d ++ [0])) (firstn n s ++ d).
Proof.
  intros R Hn Hd Hcap. pose proof (repr_length _ _ R).
  rewrite write_realloc, (repr_firstn _ _ _ R Hn) by len.
  apply yields_some, repr_build; [exact (nulfree_firstn _ _ (proj1 R))|exact Hd].
Qed.

(* memset(val + strlen, 0, f): with f = 0 the old terminator stays, otherwise the first new zero is one *)
Lemma write_zeros b s f : repr b s -> length s + f <= length b ->
  yields (write b (length s) (repeat 0 f)) s.
Proof.
  intros [Hs [t ->]] H. autorewrite with len in H. cbn [length] in H. rewrite write_ok, repeat_length, firstn_app_eq by len.
  destruct f as [|k]; cbn [repeat map app]; [rewrite (skipn_app_eq _ 0) by len|];
    apply yields_some, repr_intro, Hs.
Qed.

Lemma write_behind b s off d : repr b s -> length s < off -> off + length d <= length b ->
  yields (write b off d) s.
Proof.
  intros [Hs [t ->]] Ho H. rewrite write_ok by exact H. change (Some 0 :: t) with ([Some 0] ++ t).
  rewrite (app_assoc (map Some s)), firstn_app, firstn_all2 by len. rewrite <- !app_assoc.
  apply yields_some, repr_intro, Hs.
Qed.

Lemma memmove_id (b : buffer) cnt : cnt <= length b -> memmove b 0 0 cnt = Some b.
Proof. intros H. rewrite memmove_ok by exact H. cbn [firstn skipn app Nat.add]. rewrite firstn_skipn. reflexivity. Qed.

(* the source lies behind the destination *)
Lemma memmove_spec (A B C D : list cell) dst src cnt :
  dst = length A -> src = length A + length B -> cnt = length C ->
  memmove (A ++ B ++ C ++ D) dst src cnt
  = Some (A ++ C ++ skipn (dst + cnt) (A ++ B ++ C ++ D)).
Proof.
  intros Hd Hs Hc. rewrite memmove_ok, firstn_app_eq by len. do 2 f_equal.
  rewrite (app_assoc A), (skipn_app_eq _ 0) by len. cbn [skipn]. rewrite firstn_app_eq by exact Hc. reflexivity.
Qed.

(* the first n cells copied behind themselves *)
Lemma memmove_dup (A rest : list cell) n : n = length A -> n <= length rest ->
  memmove (A ++ rest) n 0 n = Some (A ++ A ++ skipn n rest).
Proof.
  intros -> H. rewrite memmove_ok by len. cbn [skipn].
  rewrite !firstn_app_eq, (skipn_app_eq _ (length A)) by reflexivity. reflexivity.
Qed.

Definition occurs (v s : list byte) (i : nat) : Prop := exists l r, s = l ++ v ++ r /\ length l = i.

Lemma occurs_bound v s i : occurs v s i -> i <= length s.
Proof. intros [l [r [-> <-]]]. len. Qed.

Lemma prefixb_spec v h : prefixb v h = true <-> exists r, h = v ++ r.
Proof.
  revert h. induction v as [|a v IH]; intros [|b h]; cbn [prefixb app].
  1, 2: split; [eexists; reflexivity|reflexivity].
  - split; [discriminate|intros [r [=]]].
  - rewrite andb_true_iff, Nat.eqb_eq, IH. split; [intros [-> [r ->]]|intros [r [= -> ->]]]; eauto.
Qed.

Lemma occurs_at_spec v s i : i <= length s -> (occurs_at v s i = true <-> occurs v s i).
Proof.
  intros Hi. unfold occurs_at. rewrite prefixb_spec. split.
  - intros [r Hr]. exists (firstn i s), r. rewrite <- Hr, firstn_skipn. split; [reflexivity|len].
  - intros [l [r [-> <-]]]. exists r. apply (skipn_app_eq _ 0). len.
Qed.

Lemma find_map_S (f : nat -> bool) l : find f (map S l) = option_map S (find (fun i => f (S i)) l).
Proof.
  induction l as [|a l IH]; cbn [map find option_map]; [reflexivity|].
  destruct (f (S a)); [reflexivity|apply IH].
Qed.

(* strstr as String.c uses it (left-to-right scan) = first offset in 0..|s| where the needle occurs *)
Lemma find_sub_first_occ v s : find_sub v s = first_occ v s.
Proof.
  unfold first_occ. induction s as [|a s IH].
  - cbn. unfold occurs_at. cbn [skipn]. destruct (prefixb v []); reflexivity.
  - cbn [find_sub]. cbn [length]. rewrite <- cons_seq. cbn [find]. unfold occurs_at at 1. cbn [skipn].
    destruct (prefixb v (a :: s)); [reflexivity|].
    rewrite <- seq_shift, find_map_S, IH. reflexivity.
Qed.

Lemma find_seq_first (f : nat -> bool) n i : forall k,
  find f (seq k n) = Some i <-> (k <= i < k + n /\ f i = true /\ forall j, k <= j < i -> f j = false).
Proof.
  induction n as [|n IH]; intros k; cbn [seq find]; [split; [discriminate|lia]|].
  destruct (f k) eqn:E; [|rewrite IH]; (split; [|intros (H1 & H2 & H3)]).
  - intros [= <-]. repeat split; [lia..|exact E|lia].
  - destruct (Nat.eq_dec k i) as [->|]; [reflexivity|]. rewrite H3 in E by lia. discriminate.
  - intros (H1 & H2 & H3). repeat split; [lia..|exact H2|].
    intros j Hj. destruct (Nat.eq_dec j k) as [->|]; [exact E|apply H3; lia].
  - assert (i <> k) by congruence. repeat split; [lia..|exact H2|intros; apply H3; lia].
Qed.

Theorem first_occ_some v s i :
  first_occ v s = Some i <-> (occurs v s i /\ forall j, j < i -> ~ occurs v s j).
Proof.
  unfold first_occ. rewrite find_seq_first. split.
  - intros (H1 & H2%occurs_at_spec & H3); [|lia]. split; [exact H2|].
    intros j Hj Ho%occurs_at_spec; [|lia]. rewrite H3 in Ho by lia. discriminate.
  - intros [H1 H2]. pose proof (occurs_bound _ _ _ H1).
    repeat split; [lia..|apply occurs_at_spec; [lia|exact H1]|].
    intros j Hj. apply not_true_is_false. intros E%occurs_at_spec; [|lia]. exact (H2 j ltac:(lia) E).
Qed.

Theorem first_occ_none v s : first_occ v s = None <-> forall i, ~ occurs v s i.
Proof.
  split.
  - intros H i Ho. pose proof (occurs_bound _ _ _ Ho).
    apply occurs_at_spec in Ho as Ht; [|lia].
    rewrite (find_none _ _ H i) in Ht by (apply in_seq; lia). discriminate.
  - intros H. destruct (first_occ v s) as [i|] eqn:E; [|reflexivity].
    apply first_occ_some in E. destruct (H i). apply E.
Qed.

Lemma first_occ_self s : first_occ s s = Some 0.
Proof. apply first_occ_some. split; [exists [], []; rewrite app_nil_r; split; reflexivity|lia]. Qed.

Lemma existsb_find (f : nat -> bool) l : existsb f l = match find f l with Some _ => true | None => false end.
Proof. induction l as [|a l IH]; cbn; [reflexivity|]. destruct (f a); [reflexivity|apply IH]. Qed.

Lemma cut_mid (l v r : list byte) : firstn (length l) (l ++ v ++ r) ++ skipn (length l + length v) (l ++ v ++ r) = l ++ r.
Proof.
  rewrite firstn_app_eq, (skipn_app_eq _ (length v)), (skipn_app_eq _ 0) by len. reflexivity.
Qed.

(* rem deletes the FIRST occurrence, whatever follows (overlapping occurrences included) *)
Theorem spec_rem_first (l v r : list nat) :
  (forall j, j < length l -> ~ occurs v (l ++ v ++ r) j) ->
  spec_step (l ++ v ++ r) (ORem v) = (l ++ r, SUnit).
Proof.
  intros Hfirst. cbn [spec_step].
  rewrite (proj2 (first_occ_some v _ (length l))), cut_mid; [reflexivity|].
  split; [exists l, r; split; reflexivity|exact Hfirst].
Qed.

Theorem spec_rem_absent (v s : list nat) :
  (forall i, ~ occurs v s i) -> spec_step s (ORem v) = (s, SRaise SValueError).
Proof. intros H. cbn [spec_step]. apply first_occ_none in H. rewrite H. reflexivity. Qed.

Lemma spec_rem_self s : spec_step s (ORem s) = ([], SUnit).
Proof. rewrite <- (app_nil_r s) at 1. apply (spec_rem_first [] s []). cbn. lia. Qed.

Lemma str_compare_eq a b : str_compare a b = Eq <-> a = b.
Proof.
  revert b. induction a as [|x a IH]; intros [|y b]; cbn [str_compare]; try (split; discriminate).
  - split; reflexivity.
  - destruct (Nat.compare_spec x y) as [->|H|H];
      [rewrite IH; split; congruence|split; [discriminate|intros [= ? _]; lia]..].
Qed.

Lemma str_compare_refl a : str_compare a a = Eq.
Proof. apply str_compare_eq. reflexivity. Qed.

(* eq of the specification is strcmp(..) == 0 *)
Lemma str_compare_eqb a b :
  (if list_eq_dec Nat.eq_dec a b then true else false) = match str_compare a b with Eq => true | _ => false end.
Proof.
  destruct (list_eq_dec Nat.eq_dec a b) as [->|N]; [rewrite str_compare_refl; reflexivity|].
  destruct (str_compare a b) eqn:E; try reflexivity. apply str_compare_eq in E. contradiction.
Qed.

Lemma str_compare_antisym a b : str_compare b a = CompOpp (str_compare a b).
Proof.
  revert b. induction a as [|x a IH]; intros [|y b]; cbn [str_compare CompOpp]; try reflexivity.
  rewrite (Nat.compare_antisym x y). destruct (Nat.compare x y); cbn [CompOpp]; auto.
Qed.

(* with str_compare_eq and str_compare_antisym, strcmp's sign is a strict total order *)
Lemma str_compare_trans a b c : str_compare a b = Lt -> str_compare b c = Lt -> str_compare a c = Lt.
Proof.
  revert b c. induction a as [|x a IH]; intros [|y b] [|z c]; cbn [str_compare]; try discriminate; try reflexivity.
  destruct (Nat.compare_spec x y) as [->|Hxy|Hxy]; try discriminate.
  - destruct (y ?= z); [apply IH|reflexivity|discriminate].
  - intros _ Hyz. replace (x ?= z) with Lt; [reflexivity|].
    symmetry. apply Nat.compare_lt_iff. destruct (Nat.compare_spec y z); try discriminate; lia.
Qed.

(* strcmp's order: at the first difference the smaller unsigned byte decides, a proper prefix is smaller *)
Definition lex_lt (a b : list byte) : Prop :=
  exists p, (exists y t, a = p /\ b = p ++ y :: t) \/
            (exists x y ta tb, a = p ++ x :: ta /\ b = p ++ y :: tb /\ x < y).

Lemma str_compare_app p a b : str_compare (p ++ a) (p ++ b) = str_compare a b.
Proof. induction p as [|c p IH]; cbn [app str_compare]; [reflexivity|]. rewrite Nat.compare_refl. exact IH. Qed.

Lemma str_compare_lt a b : str_compare a b = Lt <-> lex_lt a b.
Proof.
  split.
  - revert b. induction a as [|x a IH]; intros [|y b]; cbn [str_compare]; try discriminate.
    + intros _. exists []. left. repeat eexists.
    + destruct (Nat.compare_spec x y) as [->|H|H]; try discriminate.
      * intros [p [(y' & t & -> & ->)|(x' & y' & ta & tb & -> & -> & L)]]%IH;
          exists (y :: p); [left|right]; repeat eexists; exact L.
      * intros _. exists []. right. repeat eexists; exact H.
  - (* both sides share the prefix p *)
    intros [p [(y & t & -> & ->)|(x & y & ta & tb & -> & -> & L)]].
    + rewrite <- (app_nil_r p) at 1. apply str_compare_app.
    + rewrite str_compare_app. cbn [str_compare]. apply Nat.compare_lt_iff in L. rewrite L. reflexivity.
Qed.

Lemma dec_digits_are_digits fuel : forall n acc, Forall (fun c => 48 <= c <= 57) acc ->
  Forall (fun c => 48 <= c <= 57) (dec_digits fuel n acc).
Proof.
  induction fuel as [|f IH]; intros n acc H; cbn [dec_digits]; [exact H|].
  destruct (n <? 10)%N; [|apply IH]; (constructor; [|exact H]);
    unfold digit_char; generalize (n mod 10)%N (N.mod_lt n 10); lia.
Qed.

Lemma dec_of_N_digits n : Forall (fun c => 48 <= c <= 57) (dec_of_N n).
Proof. apply dec_digits_are_digits. constructor. Qed.

(* value of a big-endian decimal digit string *)
Fixpoint dec_value (l : list nat) : N :=
  match l with
  | [] => 0%N
  | c :: r => (N.of_nat (c - 48) * 10 ^ N.of_nat (length r) + dec_value r)%N
  end.

Lemma dec_digits_value fuel : forall n acc, (n < 2 ^ N.of_nat fuel)%N ->
  dec_value (dec_digits fuel n acc) = (n * 10 ^ N.of_nat (length acc) + dec_value acc)%N.
Proof.
  induction fuel as [|f IH]; intros n acc Hn; cbn [dec_digits].
  - cbn in Hn. assert (n = 0%N) by lia. subst. reflexivity.
  - assert (Hd : dec_value (digit_char (n mod 10) :: acc)
                 = ((n mod 10) * 10 ^ N.of_nat (length acc) + dec_value acc)%N).
    { cbn [dec_value]. unfold digit_char. rewrite (Nat.add_comm 48), Nat.add_sub, N2Nat.id. reflexivity. }
    destruct (N.ltb_spec n 10) as [Hlt|Hge].
    + rewrite Hd, N.mod_small by assumption. reflexivity.
    + rewrite Nat2N.inj_succ, N.pow_succ_r' in Hn.
      rewrite IH, Hd by (apply N.div_lt_upper_bound; lia).
      cbn [length]. rewrite Nat2N.inj_succ, N.pow_succ_r'.
      rewrite (N.div_mod n 10) at 3 by lia. ring.
Qed.

(* the fuel of dec_of_N is enough: the digits denote the number *)
Theorem dec_of_N_value n : dec_value (dec_of_N n) = n.
Proof.
  unfold dec_of_N. rewrite dec_digits_value.
  - cbn [length dec_value]. cbn. lia.
  - rewrite Nat2N.inj_succ, N2Nat.id. destruct n as [|p]; [reflexivity|].
    apply N.log2_spec. reflexivity.
Qed.

(* "%li" yields an optional '-' and then digits that denote |z|, stated as a rule for goals that ask whether the text
   starts with '-'.  Such a match compares the first character with 45 by 46 nested cases; on a digit, written
   48 + k, they reduce to the default branch.  P and Q are variables so that the 46 copies of Q stay small. *)
Lemma dec_of_Z_cases z (P Q : list nat -> Prop) :
  (forall ds, z = (- Z.of_N (dec_value ds))%Z /\ (z < 0)%Z /\ Forall (fun c => 48 <= c <= 57) ds -> P ds) ->
  (forall ds, z = Z.of_N (dec_value ds) /\ Forall (fun c => 48 <= c <= 57) ds -> Q ds) ->
  match dec_of_Z z with 45 :: ds => P ds | ds => Q ds end.
Proof.
  intros HP HQ. destruct z as [|p|p]; unfold dec_of_Z.
  - apply HQ. split; [reflexivity|repeat constructor].
  - assert (R : Q (dec_of_N (Npos p))) by (apply HQ; rewrite dec_of_N_value; split; [reflexivity|apply dec_of_N_digits]).
    revert R. destruct (dec_of_N_digits (Npos p)) as [|c ds [Hc _] _]; [exact (fun R => R)|].
    replace c with (48 + (c - 48)) by lia. exact (fun R => R).
  - apply HP. rewrite dec_of_N_value. split; [reflexivity|split; [lia|apply dec_of_N_digits]].
Qed.

Lemma render_nulfree p : piece_ok p -> nulfree (render p).
Proof.
  destruct p as [t|t|z|]; cbn [piece_ok render]; try (intros H; exact H); [|constructor]. intros _.
  assert (D : forall n, nulfree (dec_of_N n)).
  { intros n. eapply Forall_impl; [|apply dec_of_N_digits]. cbn beta. lia. }
  destruct z; cbn [dec_of_Z]; [repeat constructor; discriminate|apply D|].
  constructor; [discriminate|apply D].
Qed.

Lemma lift_refines b r s : yields r s -> exists b', lift b r = (b', SUnit) /\ repr b' s.
Proof. intros [b' [-> R]]. exists b'. split; [reflexivity|exact R]. Qed.

Lemma obs_refines b s f out : repr b s -> f s = out -> exists b', obs b f = (b', out) /\ repr b' s.
Proof. intros R <-. exists b. unfold obs. rewrite (repr_c_str _ _ R). split; [reflexivity|exact R]. Qed.

Lemma spec_step_no_crash s o : snd (spec_step s o) <> SCrash.
Proof.
  destruct o; cbn [spec_step snd]; try discriminate.
  destruct (first_occ v s); cbn [snd]; discriminate.
Qed.

Lemma spec_run_no_crash ops : forall s, ~ In SCrash (fst (spec_run s ops)).
Proof.
  induction ops as [|o ops IH]; intros s; cbn [spec_run]; [intros []|].
  pose proof (spec_step_no_crash s o) as Hn. destruct (spec_step s o) as [s' out].
  specialize (IH s'). destruct (spec_run s' ops) as [outs sf]. cbn [fst snd] in *.
  intros [H|H]; [congruence|exact (IH H)].
Qed.

Section Refinement.
  Variable assign_alloc : nat -> nat.
  Variable concat_alloc : nat -> nat -> nat.
  Variable resize_alloc : nat -> nat.
  Variable format_alloc : nat -> nat -> nat.
  Variable rem_count : Z -> Z -> Z -> Z.
  Variable rem_checks : bool.
  Variable assign_self_safe : bool.
  Variable concat_self_safe : bool.
  Variable format_self_safe : bool.
  Variable resize_same_returns : bool.
  Variable resize_shrinks : nat -> nat -> bool.
  Variable resize_fill : Z -> Z -> Z.
  Variable format_cap : nat.
  Variable format_heap_when : nat -> nat -> bool.
  (* what the proofs need from the C text: every realloc leaves room for the terminator,
     String_Rem moves the tail behind the match (with its terminator) and checks for NULL *)
  Hypothesis Hassign : forall vl, vl + 1 <= assign_alloc vl.
  Hypothesis Hconcat : forall sl vl, sl + vl + 1 <= concat_alloc sl vl.
  Hypothesis Hresize : forall n, n + 1 <= resize_alloc n.
  Hypothesis Hformat : forall pos size, pos + size + 1 <= format_alloc pos size.
  Hypothesis Hrem : forall hl pl nl, rem_count hl pl nl = (pl - nl + 1)%Z.
  Hypothesis Hchk : rem_checks = true.
  (* needed only for assign(s, s) / concat(s, s): the argument is read after the realloc *)
  Hypothesis Hasafe : assign_self_safe = true.
  Hypothesis Hcsafe : concat_self_safe = true.
  (* needed only for print_to(s, pos, "..%s..", .., s, ..) *)
  Hypothesis Hfsafe : format_self_safe = true.
  (* String_Resize, for EVERY policy with: the truncating path only when n <= len, the filling
     path only when len <= n, and the filled bytes inside the new block *)
  Hypothesis Hshr : forall n m, resize_shrinks n m = true -> n <= m.
  Hypothesis Hgrow : forall n m, resize_shrinks n m = false ->
    m <= n /\ (0 <= resize_fill (Z.of_nat n) (Z.of_nat m))%Z /\
    m + Z.to_nat (resize_fill (Z.of_nat n) (Z.of_nat m)) <= resize_alloc n.
  (* String_Format_To: the local buffer is used only for texts that fit with their terminator *)
  Hypothesis Hlocal : forall size, format_heap_when size format_cap = false -> size + 1 <= format_cap.

  Lemma assign_refines b v : nulfree v -> yields (m_assign assign_alloc b v) v.
  Proof.
    intros Hv. unfold m_assign. pose proof (Hassign (length v)).
    rewrite write_realloc by len. apply yields_some, (repr_build [] v); [constructor|exact Hv].
  Qed.

  (* holds for both shapes of String_Concat (strcat, or memcpy at the old length) *)
  Lemma concat_refines b s v : repr b s -> nulfree v ->
    yields (m_concat concat_alloc concat_self_safe b v) (s ++ v).
  Proof.
    clear Hcsafe. intros Hr Hv. unfold m_concat. pose proof (Hconcat (length s) (length v)) as HN.
    rewrite (repr_c_strlen _ _ Hr), (repr_c_strlen _ s) by (apply realloc_repr; [exact Hr|lia]).
    pose proof (write_cut b s (length s) _ v Hr (le_n _) Hv HN) as W. rewrite firstn_all in W.
    destruct concat_self_safe; exact W.
  Qed.

  Lemma assign_self_refines b s : repr b s ->
    yields (m_assign_self assign_alloc assign_self_safe b) s.
  Proof.
    intros Hr. unfold m_assign_self. pose proof (Hassign (length s)).
    rewrite Hasafe, (repr_c_strlen _ _ Hr), memmove_id by len.
    apply yields_some, realloc_repr; [exact Hr|lia].
  Qed.

  Lemma concat_self_refines b s : repr b s ->
    yields (m_concat_self concat_alloc concat_self_safe b) (s ++ s).
  Proof.
    intros Hr. unfold m_concat_self. pose proof (Hconcat (length s) (length s)).
    rewrite Hcsafe, (repr_c_strlen _ _ Hr).
    pose proof (realloc_length b (concat_alloc (length s) (length s))) as L.
    destruct (realloc_repr _ _ (concat_alloc (length s) (length s)) Hr) as [Hs [t E]]; [lia|].
    rewrite E in *. autorewrite with len in L. cbn [length] in L. rewrite (memmove_dup (map Some s)), app_assoc, <- map_app by len.
    rewrite write_ok, firstn_app_eq by len.
    apply yields_some, (repr_intro (s ++ s)), nulfree_app. split; exact Hs.
  Qed.

  Lemma resize_refines b s n : repr b s ->
    exists b', m_resize resize_alloc resize_same_returns resize_shrinks resize_fill b n = Some b' /\
               repr b' (firstn n s).
  Proof.
    intros Hr. unfold m_resize. rewrite (repr_c_strlen _ _ Hr).
    destruct (resize_same_returns && (n =? length s)) eqn:Esame.
    { apply andb_true_iff in Esame as [_ ->%Nat.eqb_eq]. rewrite firstn_all. apply yields_some, Hr. }
    clear Esame. pose proof (Hresize n). destruct (resize_shrinks n (length s)) eqn:Eshr.
    - apply Hshr in Eshr. rewrite <- (app_nil_r (firstn n s)).
      apply (write_cut b s n _ []); [exact Hr|exact Eshr|constructor|cbn [length]; lia].
    - apply Hgrow in Eshr as (Hmn & Hf0 & Hfit).
      rewrite (proj2 (Z.ltb_ge _ _)) by lia.
      rewrite firstn_all2 by exact Hmn. apply write_zeros; [apply realloc_repr; [exact Hr|lia]|len].
  Qed.

  Lemma rem_refines b s v : repr b s -> nulfree v ->
    exists b', m_rem rem_count rem_checks b v = (b', snd (spec_step s (ORem v))) /\
               repr b' (fst (spec_step s (ORem v))).
  Proof.
    intros Hr Hv. unfold m_rem. cbn [spec_step]. rewrite (repr_c_str _ _ Hr), find_sub_first_occ.
    destruct (first_occ v s) as [i|] eqn:E; [|rewrite Hchk; exists b; split; [reflexivity|exact Hr]].
    apply first_occ_some in E as [[l [r [-> <-]]] _]. destruct Hr as [Hs [t ->]].
    apply nulfree_app in Hs as [Hl [_ Hr]%nulfree_app]. rewrite Hrem, cut_mid.
    rewrite (proj2 (Z.ltb_ge _ _)) by len.
    replace (map Some (l ++ v ++ r) ++ Some 0 :: t)
      with (map Some l ++ map Some v ++ map Some (r ++ [0]) ++ t) by (rewrite !map_app, <- !app_assoc; reflexivity).
    rewrite memmove_spec by len. eexists. split; [reflexivity|]. apply repr_build; assumption.
  Qed.

  Lemma format_refines b s pos text : repr b s -> nulfree text ->
    yields (m_format_to format_alloc format_cap format_heap_when b pos text)
           (if pos <=? length s then firstn pos s ++ text else s).
  Proof.
    intros Hr Ht. unfold m_format_to. pose proof (Hformat pos (length text)) as HN.
    assert (Hpath : format_heap_when (length text) format_cap || (length text + 1 <=? format_cap) = true).
    { destruct (format_heap_when (length text) format_cap) eqn:Eh; [reflexivity|]. apply Nat.leb_le, Hlocal, Eh. }
    rewrite Hpath. destruct (Nat.leb_spec pos (length s)).
    - apply write_cut; assumption || lia.
    - apply write_behind; [apply realloc_repr; [exact Hr|lia]|lia|len].
  Qed.

  Lemma print_refines ps : forall b s pos, repr b s -> Forall piece_ok ps ->
    exists b', m_print_to format_alloc format_self_safe format_cap format_heap_when b pos ps = Some (b', snd (spec_print s pos ps)) /\
               repr b' (fst (spec_print s pos ps)).
  Proof.
    induction ps as [|p ps IH]; intros b s pos Hr Hok; cbn [m_print_to spec_print].
    - exists b. split; [reflexivity|exact Hr].
    - apply Forall_cons_iff in Hok as [Hp Hps].
      assert (Hn : nulfree (piece_text s p)) by (destruct p; try exact (render_nulfree _ Hp); exact (proj1 Hr)).
      assert (Hc : (if format_self_safe then c_str b else None) = Some s) by (rewrite Hfsafe; apply repr_c_str, Hr).
      destruct (format_refines b s pos _ Hr Hn) as [b1 [E1 R1]].
      destruct p; cbn [piece_text] in *; rewrite ?Hc, E1; apply IH; assumption.
  Qed.

  (* one operation: same result as the specification, and the buffer represents the new abstract string *)
  Theorem step_refines b s o : repr b s -> op_ok o ->
    exists b', m_step assign_alloc concat_alloc resize_alloc format_alloc rem_count rem_checks
                      assign_self_safe concat_self_safe format_self_safe
                      resize_same_returns resize_shrinks resize_fill format_cap format_heap_when b o
               = (b', snd (spec_step s o)) /\ repr b' (fst (spec_step s o)).
  Proof.
    intros Hr Hok. pose proof (proj1 Hr) as Hs.
    (* an observer returns a function of the characters: for cmp, len, c_str and hash literally the specification's *)
    destruct o; cbn [m_step spec_step op_ok fst snd] in *; rewrite ?(repr_c_str _ _ Hr);
      try (apply (obs_refines b s); [exact Hr|try reflexivity]).
    - apply lift_refines, assign_refines, Hok.
    - apply lift_refines, concat_refines; assumption.
    - apply lift_refines, concat_refines; assumption.
    - apply lift_refines, resize_refines, Hr.
    - exact (rem_refines b s v Hr Hok).
    - rewrite existsb_find, find_sub_first_occ. reflexivity.
    - rewrite str_compare_eqb. reflexivity.
    - destruct (print_refines ps b s pos Hr Hok) as [b' [E R]]. rewrite E. exists b'. split; [reflexivity|exact R].
    - apply lift_refines, assign_self_refines, Hr.
    - apply lift_refines, concat_self_refines, Hr.
    - pose proof (rem_refines b s s Hr Hs) as H. rewrite spec_rem_self in H. exact H.
    - rewrite find_sub_first_occ, first_occ_self. reflexivity.
    - rewrite str_compare_refl. reflexivity.
    - rewrite str_compare_refl. reflexivity.
    - apply (lift_refines b), assign_refines, Hs.
  Qed.

  (* every history: the model produces exactly the specification's results (in particular it
     never reaches undefined behaviour) and ends representing the specification's string *)
  Theorem run_refines ops : forall b s, repr b s -> Forall op_ok ops ->
    exists bf, m_run assign_alloc concat_alloc resize_alloc format_alloc rem_count rem_checks
                     assign_self_safe concat_self_safe format_self_safe
                     resize_same_returns resize_shrinks resize_fill format_cap format_heap_when b ops
               = (fst (spec_run s ops), bf) /\ repr bf (snd (spec_run s ops)).
  Proof.
    induction ops as [|o ops IH]; intros b s Hr Hok; cbn [m_run spec_run].
    - exists b. split; [reflexivity|exact Hr].
    - apply Forall_cons_iff in Hok as [Ho Hops].
      destruct (step_refines b s o Hr Ho) as [b' [E R]]. rewrite E.
      pose proof (spec_step_no_crash s o) as Hnc.
      destruct (spec_step s o) as [s' out]. cbn [fst snd] in *.
      destruct (IH b' s' R Hops) as [bf [Er Rf]]. rewrite Er.
      destruct (spec_run s' ops) as [outs sf]. cbn [fst snd] in *.
      exists bf. split; [|exact Rf]. destruct out; try reflexivity. congruence.
  Qed.
End Refinement.

(* the byte count String_Rem handed to memmove before its repair (D6) *)
Definition old_rem_count (hl pl nl : Z) : Z := (hl - pl - nl + 1)%Z.

From CelloV Require Import Generated.

Definition c_new := m_new string_assign_alloc.
Definition c_step := m_step string_assign_alloc string_concat_alloc string_resize_alloc
                            string_format_alloc string_rem_count string_rem_checks
                            string_assign_self_safe string_concat_self_safe string_format_self_safe
                            string_resize_same_returns string_resize_shrinks string_resize_fill
                            string_format_local_cap string_format_heap_when.
Definition c_run := m_run string_assign_alloc string_concat_alloc string_resize_alloc
                          string_format_alloc string_rem_count string_rem_checks
                          string_assign_self_safe string_concat_self_safe string_format_self_safe
                            string_resize_same_returns string_resize_shrinks string_resize_fill
                            string_format_local_cap string_format_heap_when.

(* the rules re-extracted from src/String.c (Generated.v) are the ones the proofs need
   (gen_resize_shape enters no theorem: a missing or false flag stops this file compiling) *)
Lemma gen_assign : forall vl, vl + 1 <= string_assign_alloc vl.
Proof. intros. unfold string_assign_alloc. lia. Qed.
Lemma gen_concat : forall sl vl, sl + vl + 1 <= string_concat_alloc sl vl.
Proof. intros. unfold string_concat_alloc. lia. Qed.
Lemma gen_resize : forall n, n + 1 <= string_resize_alloc n.
Proof. intros. unfold string_resize_alloc. lia. Qed.
Lemma gen_resize_shape : string_resize_shape_ok = true.
Proof. reflexivity. Qed.
Lemma gen_format : forall pos size, pos + size + 1 <= string_format_alloc pos size.
Proof. intros. unfold string_format_alloc. lia. Qed.
Lemma gen_rem : forall hl pl nl, string_rem_count hl pl nl = (pl - nl + 1)%Z.
Proof. intros. unfold string_rem_count. lia. Qed.
Lemma gen_chk : string_rem_checks = true.
Proof. reflexivity. Qed.
Lemma gen_asafe : string_assign_self_safe = true.
Proof. reflexivity. Qed.
Lemma gen_csafe : string_concat_self_safe = true.
Proof. reflexivity. Qed.
Lemma gen_fsafe : string_format_self_safe = true.
Proof. reflexivity. Qed.

(* the tests of String_Resize and String_Format_To compare linear terms (<= or <, or no test at
   all), whichever way the source writes them *)
Ltac linear_policy :=
  intros; rewrite ?Nat.leb_le, ?Nat.ltb_lt, ?Nat.leb_gt, ?Nat.ltb_ge in *; (discriminate || lia).

Lemma gen_shr : forall n m, string_resize_shrinks n m = true -> n <= m.
Proof. unfold string_resize_shrinks. linear_policy. Qed.
Lemma gen_grow : forall n m, string_resize_shrinks n m = false ->
  m <= n /\ (0 <= string_resize_fill (Z.of_nat n) (Z.of_nat m))%Z /\
  m + Z.to_nat (string_resize_fill (Z.of_nat n) (Z.of_nat m)) <= string_resize_alloc n.
Proof. unfold string_resize_shrinks, string_resize_fill, string_resize_alloc. linear_policy. Qed.
Lemma gen_local : forall size, string_format_heap_when size string_format_local_cap = false ->
  size + 1 <= string_format_local_cap.
Proof. unfold string_format_heap_when, string_format_local_cap. linear_policy. Qed.

Lemma c_run_refines ops b s : repr b s -> Forall op_ok ops ->
  exists bf, c_run b ops = (fst (spec_run s ops), bf) /\ repr bf (snd (spec_run s ops)).
Proof. exact (run_refines _ _ _ _ _ _ _ _ _ string_resize_same_returns _ _ _ _ gen_assign gen_concat gen_resize gen_format gen_rem gen_chk gen_asafe gen_csafe gen_fsafe gen_shr gen_grow gen_local ops b s). Qed.

Theorem c_history_refines v0 ops : nulfree v0 -> Forall op_ok ops ->
  exists b0 bf, c_new v0 = Some b0 /\ c_run b0 ops = (fst (spec_run v0 ops), bf) /\
                repr bf (snd (spec_run v0 ops)).
Proof.
  intros Hv Hok. destruct (assign_refines _ gen_assign [] v0 Hv) as [b0 [E R]].
  destruct (c_run_refines ops b0 v0 R Hok) as [bf Hf]. exists b0, bf. split; [exact E|exact Hf].
Qed.

(* print_to without the target among its arguments, in closed form: everything from pos on is
   replaced by the rendered text; behind the terminator (or without any piece) nothing changes *)
Theorem spec_print_closed ps : forall s pos, Forall (fun p => p <> PSelf) ps ->
  spec_print s pos ps =
  (match ps with
   | [] => s
   | _ => if pos <=? length s then firstn pos s ++ concat (map render ps) else s
   end, pos + length (concat (map render ps))).
Proof.
  induction ps as [|p ps IH]; intros s pos Hns; cbn [spec_print map concat].
  - cbn [length]. rewrite Nat.add_0_r. reflexivity.
  - apply Forall_cons_iff in Hns as [Hp Hps].
    assert (Et : piece_text s p = render p) by (destruct p; try reflexivity; congruence).
    rewrite Et, IH by assumption. rewrite app_length, Nat.add_assoc. f_equal.
    destruct ps as [|q ps']; [cbn [map concat]; rewrite app_nil_r; reflexivity|].
    destruct (Nat.leb_spec pos (length s)) as [Hle|Hgt].
    + (* the string is now exactly pos + |render p| long: the next piece is appended *)
      assert (Hl : pos + length (render p) = length (firstn pos s ++ render p)) by len.
      rewrite Hl, Nat.leb_refl, firstn_all, <- app_assoc. reflexivity.
    + destruct (Nat.leb_spec (pos + length (render p)) (length s)); [lia|reflexivity].
Qed.
