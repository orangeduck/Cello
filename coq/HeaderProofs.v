(* HeaderProofs.v — proofs about the model of Header.v (property C19).

   The model is finite in everything except the length of operation histories and the identity
   of user types; the theorems quantify over ALL histories (induction, with an invariant that is
   checked by complete case analysis of one step) and over all type names.  Constants come from
   Generated.v: if the source changes a class code, the class written at a header_init site, the
   refusals of dealloc, the order in del_by or a guard of String/Tuple, the case analyses below are
   re-run on the new values and fail where the property no longer follows. *)
From Coq Require Import List Arith Bool Lia.
From CelloV Require Import Generated Header.
Import ListNotations.

Lemma codes_distinct :
  forall a b, code_of a = code_of b -> a = b.
Proof. intros [] []; vm_compute; intro H; try reflexivity; discriminate H. Qed.

Lemma aclass_of_code_of : forall a, aclass_of_code (code_of a) = Some a.
Proof. intros []; vm_compute; reflexivity. Qed.

Definition kind_eqb (a b : kind) : bool :=
  match a, b with KPlain, KPlain | KString, KString | KTuple, KTuple | KType, KType => true | _, _ => false end.

Definition has_buffer (k : kind) : bool := match k with KString | KTuple => true | _ => false end.

(* nh: the object's buffer is not heap memory (String/Tuple on the stack) *)
Definition nh_of (cls : aclass) (k : kind) : bool :=
  match cls with AStack | AStatic => has_buffer k | _ => false end.

Definition invb (cls : aclass) (k : kind) (o : obj) : bool :=
  negb (aclass_eqb cls AHeap) &&
  Nat.eqb (o_alloc o) (code_of cls) && kind_eqb (o_kind o) k && o_magic o &&
  match o_reg o with RNone => true | _ => false end &&
  (if nh_of cls k then match o_buf o with BLive false => true | _ => false end
   else match o_buf o with BLive false => false | _ => true end).

(* o carries type T and class cls, with the magic number; only heap objects are registered with the collector;
   a non-heap object starts in the invariant *)
Definition header_ok (cls : aclass) (T : tname) (o : obj) : Prop :=
  (m_type_of o = T /\ aclass_of_code (o_alloc o) = Some cls /\ o_magic o = true) /\
  (o_reg o <> RNone -> cls = AHeap) /\
  (cls <> AHeap -> invb cls (kind_of T) o = true).

(* the three header_init call sites behind every producer, for every type (Type_Alloc only ever sees Type) *)
Lemma alloc_ok : forall c T m b, header_ok AHeap T (m_alloc c T m b).
Proof. intros c T m b. destruct T; repeat split; try reflexivity; intro H; elim H; reflexivity. Qed.

Lemma stack_ok : forall T, header_ok AStack T (m_stack T).
Proof. intros T. destruct T; repeat split; try reflexivity; intro H; elim H; reflexivity. Qed.

Lemma embedded_ok : forall c T K V, header_ok AData (cont_type c T K V) (m_embedded c T K V).
Proof.
  intros c T K V. unfold m_embedded, header_ok. generalize (cont_type c T K V) as X. intro X.
  replace (cont_site c) with (code_of AData) by (destruct c; reflexivity).
  destruct (kind_of X); repeat split; try reflexivity; intro H; elim H; reflexivity.
Qed.

(* whatever the build configuration, and whether or not the (producer, type) pair exists *)
Lemma produce_ok : forall c p T K V, header_ok (spec_class p) (spec_type p T K V) (m_produce c p T K V).
Proof.
  intros c p T K V. destruct p as [| | | | | | | | | |ct|ct|ct|ct|ct| | | | |i|i|]; try destruct i;
    try apply alloc_ok; try apply stack_ok; try apply embedded_ok; [|destruct T];
    repeat split; try reflexivity; intro H; elim H; reflexivity.
Qed.

(* what the property demands of a step on a non-heap object of class cls and kind k *)
Definition demand_of (cls : aclass) (k : kind) (q : op) : demand :=
  let nh := nh_of cls k in
  if deleting q then DAttempt nh
  else if nh && match q with
                | OpDestruct => true
                | OpSweep => false
                | _ => match inplace_fn k q with Some _ => true | None => false end
                end
       then DAttempt nh else DNotFreed nh.

Definition step_ok (c : cfg) (cls : aclass) (k : kind) (q : op) (o : obj) : Prop :=
  let s := m_op c q o in
  meets o s (weaken c q (demand_of cls k q)) /\ invb cls k (fst (fst s)) = true.

(* every operation: a statement about all of them is one evaluation over this list *)
Definition all_ops : list op :=
  [OpDel; OpDelRaw; OpDelRoot; OpDealloc; OpDeallocRaw; OpDeallocRoot; OpDestruct; OpAssign; OpResize; OpConcat;
   OpAppend; OpPrintTo; OpAssignIter; OpPush; OpPop; OpPushAt; OpPopAt; OpRem; OpSweep; OpDelStopped].

Lemma on_all_ops {A} (f g : op -> A) : map f all_ops = map g all_ops -> forall q, f q = g q.
Proof. intros E q. injection E; intros; destruct q; assumption. Qed.

(* step_ok as a value to compute: the object that has to equal o (o itself where the demand leaves the object free),
   or None where the step fails its demand or leaves the invariant *)
Definition verdict (c : cfg) (cls : aclass) (k : kind) (o : obj) (q : op) : option obj :=
  let '(o', out, e) := m_op c q o in
  if invb cls k o' then
    match weaken c q (demand_of cls k q) with
    | DAny => Some o
    | DNotFreed nh => if released_nothing nh e then Some o else None
    | DAttempt nh => if released_nothing nh e && raises_refusal out then Some o' else None
    end
  else None.

Lemma verdict_ok c cls k o q : verdict c cls k o q = Some o -> step_ok c cls k q o.
Proof.
  unfold verdict, step_ok, meets. destruct (m_op c q o) as [[o' out] e]. cbn [fst snd].
  destruct (invb cls k o'); [|discriminate].
  destruct (weaken c q (demand_of cls k q)) as [|nh|nh]; [auto| |].
  - destruct (released_nothing nh e); [auto | discriminate].
  - destruct (released_nothing nh e), (raises_refusal out); try discriminate. intros [= ->]. auto.
Qed.

(* complete case analysis of one step: class x kind x buffer state x configuration, each case one evaluation over
   all operations.  The type word and the body bytes stay abstract: no operation looks at them, and evaluation
   carries them through *)
Lemma step_ok_all :
  forall ngc cls k q o, invb cls k o = true -> step_ok (cfg_src ngc) cls k q o.
Proof.
  intros ngc cls k q [ty al mg ok bd bf bc rg] H. unfold invb in H. simpl in H.
  apply andb_prop in H as [H Hb]. apply andb_prop in H as [H Hr]. apply andb_prop in H as [H Hm].
  apply andb_prop in H as [H Hk]. apply andb_prop in H as [Hc Ha].
  apply Nat.eqb_eq in Ha. subst al mg. apply verdict_ok. revert q. apply on_all_ops.
  destruct rg; try discriminate Hr; destruct cls; try discriminate Hc; destruct k, ok; try discriminate Hk;
    destruct bf as [|[]|]; try discriminate Hb; destruct ngc; vm_compute; exact eq_refl.
Qed.

Lemma nh_of_spec : forall p T K V, nh_of (spec_class p) (kind_of (spec_type p T K V)) = spec_bufnh p T K V.
Proof. intros. unfold nh_of, spec_bufnh. destruct (spec_class p), (kind_of (spec_type p T K V)); reflexivity. Qed.

Lemma demand_of_spec :
  forall p T K V q, spec_class p <> AHeap ->
    demand_of (spec_class p) (kind_of (spec_type p T K V)) q = spec_demand p T K V q.
Proof.
  intros p T K V q Hh. unfold demand_of, spec_demand. rewrite nh_of_spec.
  destruct (spec_class p); [| |contradiction|]; reflexivity.
Qed.

Lemma history_inv :
  forall ngc p T K V ops o, spec_class p <> AHeap ->
    invb (spec_class p) (kind_of (spec_type p T K V)) o = true ->
    history_meets (cfg_src ngc) p T K V ops o.
Proof.
  intros ngc p T K V ops. induction ops as [|q r IH]; intros o Hh Hi; simpl; auto.
  destruct (step_ok_all ngc _ _ q o Hi) as [Hm Hi'].
  rewrite demand_of_spec in Hm by exact Hh. split; [exact Hm | apply IH; assumption].
Qed.

Theorem nonheap_histories :
  forall ngc p T K V ops, spec_class p <> AHeap ->
    history_meets (cfg_src ngc) p T K V ops (m_produce (cfg_src ngc) p T K V).
Proof. intros. apply history_inv; [assumption | apply produce_ok; assumption]. Qed.

Lemma meets_released :
  forall c p T K V q o s, spec_class p <> AHeap -> meets o s (weaken c q (spec_demand p T K V q)) ->
    released_nothing (spec_bufnh p T K V) (snd s) = true.
Proof.
  intros c p T K V q o [[o' out] e] Hh. rewrite <- (demand_of_spec _ _ _ _ _ Hh), <- nh_of_spec.
  unfold weaken, demand_of. generalize (nh_of (spec_class p) (kind_of (spec_type p T K V))) as nh. intros nh.
  (destruct (deleting q); [|destruct (nh && _)]); destruct (f7_cell c q); intros H; apply H.
Qed.

Lemma released_nothing_In :
  forall nh l e, released_nothing nh l = true -> In e l -> is_obj_ev e = false /\ (nh = true -> is_buf_ev e = false).
Proof.
  intros nh l e R He. apply andb_prop in R. destruct R as [R1 R2]. split.
  - destruct (is_obj_ev e) eqn:X; [|reflexivity]. rewrite (proj2 (existsb_exists _ _)) in R1 by eauto. discriminate.
  - intros ->. destruct (is_buf_ev e) eqn:X; [|reflexivity]. rewrite (proj2 (existsb_exists _ _)) in R2 by eauto. discriminate.
Qed.

(* plain reading: no event of a history that meets the demands releases the block, or the non-heap buffer *)
Theorem nonheap_never_released :
  forall c p T K V ops o, spec_class p <> AHeap -> history_meets c p T K V ops o ->
    forall e, In e (events (m_run c ops o)) ->
      is_obj_ev e = false /\ (spec_bufnh p T K V = true -> is_buf_ev e = false).
Proof.
  intros c p T K V ops o Hh. revert o.
  induction ops as [|q r IH]; intros o Hm e He; simpl in He; [contradiction|].
  destruct Hm as [Hm Hr]. apply meets_released in Hm; [|exact Hh].
  destruct (m_op c q o) as [[o' out] ev]. unfold events in He. simpl in He.
  apply in_app_or in He. destruct He as [He|He]; [eapply released_nothing_In; eauto | eapply IH; eauto].
Qed.

(* D22 (repaired by 8c426d9): had del_by run the destructor before the class check, del_raw of a String
   stored in an Array would raise ResourceError after releasing the string's buffer *)
Definition cfg_d22 (ngc : bool) : cfg := mkCfg ngc false hdr_dealloc_refuses guards_src.

Lemma frees_cons :
  forall c q r o, frees (m_run c (q :: r) o) =
    count is_free_obj (snd (m_op c q o)) + frees (m_run c r (fst (fst (m_op c q o)))).
Proof.
  intros c q r o. unfold frees, events, count. simpl.
  destruct (m_op c q o) as [[o' out] e]. simpl.
  rewrite filter_app, app_length. reflexivity.
Qed.

Lemma sweeps_release_nothing :
  forall c r o, sweeps r = true -> o_reg o <> RAuto -> frees (m_run c r o) = 0.
Proof.
  intros c r. induction r as [|q r IH]; intros o Hs Hr; [reflexivity|].
  simpl in Hs. apply andb_true_iff in Hs. destruct Hs as [Hq Hs]. destruct q; try discriminate Hq.
  rewrite frees_cons.
  assert (E : m_op c OpSweep o = (o, (if c_ngc c then ONa else OOk), [])).
  { unfold m_op, m_sweep. destruct (c_ngc c); [reflexivity|]. destruct (o_reg o); try reflexivity. contradiction. }
  rewrite E. simpl. apply IH; assumption.
Qed.

Lemma on_all_kinds {A} (f g : kind -> A) :
  map f [KPlain; KString; KTuple; KType] = map g [KPlain; KString; KTuple; KType] -> forall k, f k = g k.
Proof. intros E k. injection E; intros; destruct k; assumption. Qed.

(* what the sweeps after it need to know of a step: how often it passes the block to free, and whether it leaves
   an entry for the sweeper *)
Definition head (c : cfg) (q : op) (o : obj) : nat * bool :=
  let s := m_op c q o in
  (count is_free_obj (snd s), match o_reg (fst (fst s)) with RAuto => true | _ => false end).

Lemma then_sweeps :
  forall c q r o a n, (if sweeps r then Some a else None) = Some n -> head c q o = (a, false) ->
    frees (m_run c (q :: r) o) = n.
Proof.
  intros c q r o a n Hm [= Ha Hr]. destruct (sweeps r) eqn:Hs; [injection Hm as <- | discriminate Hm].
  rewrite frees_cons, Ha, sweeps_release_nothing; [apply Nat.add_0_r | exact Hs |].
  intros E. rewrite E in Hr. discriminate Hr.
Qed.

Lemma frees_del_stopped : forall c r o, frees (m_run c (OpDelStopped :: r) o) = frees (m_run c r o).
Proof. intros c r o. rewrite frees_cons. simpl. destruct (c_ngc c); reflexivity. Qed.

Theorem heap_released_exactly_once :
  forall ngc p T K V ops n,
    matched_total (cfg_src ngc) p ops = Some n ->
    frees (m_run (cfg_src ngc) ops (m_produce (cfg_src ngc) p T K V)) = n.
Proof.
  intros ngc p T K V ops n Hm.
  destruct ngc, p; try discriminate Hm; destruct ops as [|q r]; try discriminate Hm; destruct q; try discriminate Hm;
    unfold matched_total in Hm; cbn [c_ngc cfg_src] in Hm;
    lazymatch type of Hm with
    | (if sweeps _ then _ else _) = _ => idtac      (* the sweeps find the object released, a root, or raw *)
    | match _ with [] => Some _ | _ :: _ => None end = _ =>     (* without the collector: a single operation *)
        destruct r; [|discriminate Hm]
    | _ =>      (* del while stopped, then the sweep that carries it out *)
        destruct r as [|[] r]; try discriminate Hm; rewrite frees_del_stopped
    end;
    (* the head of a freshly allocated object, whatever the kind of its type: one evaluation over the four kinds *)
    (eapply then_sweeps; [exact Hm|]); unfold m_produce, m_alloc; generalize (kind_of T); apply on_all_kinds;
    vm_compute; exact eq_refl.
Qed.

Lemma round_up_ge : forall w s, 0 < w -> s <= round_up w s.
Proof.
  intros w s Hw. unfold round_up.
  pose proof (Nat.div_mod (s + w - 1) w ltac:(lia)) as E.
  pose proof (Nat.mod_upper_bound (s + w - 1) w ltac:(lia)) as B.
  rewrite Nat.mul_comm. lia.
Qed.
