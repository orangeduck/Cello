(* RBRefine.v — proofs about the Tree model (RBTree.v), part 4: the Tree object against the
   ordered association-list specification, step by step and over whole histories; the key orders
   of the two instances are total orders. *)
From Coq Require Import List Arith Bool ZArith Lia Sorted.
From CelloV Require Import RBTree RBProofs RBBalance RBIter.
Import ListNotations.

Definition total_order {K : Type} (cmp : K -> K -> comparison) : Prop :=
  (forall a b, cmp a b = Eq -> a = b) /\
  (forall a, cmp a a = Eq) /\
  (forall a b, cmp a b = CompOpp (cmp b a)) /\
  (forall a b c, cmp a b = Lt -> cmp b c = Lt -> cmp a c = Lt).

(* what the proofs use of the key order: keys that compare Eq need not be the same object, they only
   have to compare alike with every other key (Float keys +0 / -0) *)
Definition total_preorder {K : Type} (cmp : K -> K -> comparison) : Prop :=
  (forall a b c, cmp a b = Eq -> cmp a c = cmp b c) /\
  (forall a, cmp a a = Eq) /\
  (forall a b, cmp a b = CompOpp (cmp b a)) /\
  (forall a b c, cmp a b = Lt -> cmp b c = Lt -> cmp a c = Lt).

Lemma total_order_pre : forall {K} {cmp : K -> K -> comparison}, total_order cmp -> total_preorder cmp.
Proof. intros K cmp (E & R). split; [|exact R]. intros a b c ->%E. reflexivity. Qed.

Section Refine.
  Variables K V : Type.
  Variable cmp : K -> K -> comparison.
  Variable use_succ : bool -> bool -> bool.   (* Tree_Rem's donor rule: arbitrary *)
  Hypothesis TO : total_preorder cmp.

  Notation rbt := (rbt K V).
  Notation inorder := (inorder K V).
  Notation sorted := (sorted K V cmp).
  Notation a_get := (a_get K V cmp).
  Notation a_set := (a_set K V cmp).
  Notation a_set_all := (a_set_all K V cmp).
  Notation t_step := (t_step K V cmp use_succ).
  Notation spec_step := (spec_step K V cmp).

  Lemma total_eq : forall a b c, cmp a b = Eq -> cmp a c = cmp b c.
  Proof. apply TO. Qed.
  Lemma total_refl : forall a, cmp a a = Eq.
  Proof. apply TO. Qed.
  Lemma total_anti : forall a b, cmp a b = CompOpp (cmp b a).
  Proof. apply TO. Qed.
  Lemma total_trans : forall a b c, cmp a b = Lt -> cmp b c = Lt -> cmp a c = Lt.
  Proof. apply TO. Qed.

  (* abstraction: the bindings in iteration order (descending keys) *)
  Definition abs (t : rbt) : amap K V := inorder (root K V t).

  (* search-tree order, red-black shape, item counter *)
  Definition rb_inv (t : rbt) : Prop :=
    sorted (abs t) /\ rb_tree K V (root K V t) /\ nitems K V t = length (abs t).

  Lemma rb_inv_empty : rb_inv (t_empty K V).
  Proof. repeat split; [constructor|]. exists 0. constructor. Qed.

  Lemma lookup_abs : forall t k, sorted (abs t) -> lookup K V cmp (root K V t) k = a_get (abs t) k.
  Proof. intros t k. apply lookup_spec; auto using total_eq, total_refl, total_anti. apply total_trans. Qed.

  Lemma t_set_ok : forall t k v, rb_inv t ->
    exists t', t_set K V cmp t k v = Ok t' /\ rb_inv t' /\ abs t' = a_set (abs t) k v.
  Proof.
    intros t k v (Hs & Hb & Hn). unfold t_set.
    destruct (set_root_valid K V cmp (root K V t) k v Hb) as (r & added & Hr & Hv). rewrite Hr.
    destruct (set_root_spec K V cmp total_eq total_anti total_trans _ _ _ _ _ Hs Hr) as (Hi & Hl).
    eexists. split; [reflexivity|]. unfold rb_inv, abs in *. simpl. rewrite Hl, Hi. split; [|reflexivity].
    split; [|split]; [apply sorted_a_set; auto using total_eq, total_anti; apply total_trans | exact Hv | destruct added; lia].
  Qed.

  Lemma t_set_all_ok : forall kvs t, rb_inv t ->
    exists t', t_set_all K V cmp t kvs = Ok t' /\ rb_inv t' /\ abs t' = a_set_all (abs t) kvs.
  Proof.
    induction kvs as [|[k v] kvs IH]; intros t Hi; simpl; [eauto|].
    destruct (t_set_ok t k v Hi) as (t1 & -> & Hi1 & <-). apply IH, Hi1.
  Qed.

  Lemma a_get_in_sorted : forall m k v, sorted m -> In (k, v) m -> a_get m k = Some v.
  Proof.
    intros m k v Hs Hin. apply in_split in Hin as (A & B & ->).
    apply sorted_mid in Hs as [Hg _]; [|apply total_anti].
    rewrite a_get_app_gt by assumption. simpl. now rewrite total_refl.
  Qed.

  (* Tree_Assign from a tree sets the source's bindings one after the other *)
  Lemma t_set_from_all : forall src m t,
    (forall k v, In (k, v) m -> lookup K V cmp src k = Some v) ->
    t_set_from K V cmp src t (keys K V m) = t_set_all K V cmp t m.
  Proof.
    induction m as [|[k v] m IH]; intros t Hl; simpl; [reflexivity|].
    rewrite (Hl k v) by now left. destruct (t_set K V cmp t k v); simpl; auto.
    apply IH. intros k' v' Hin. apply Hl. now right.
  Qed.

  Lemma t_assign_from_ok : forall src, rb_inv src ->
    exists t', t_assign_from K V cmp src = Ok t' /\ rb_inv t' /\ abs t' = abs src.
  Proof.
    intros src (Hs & Hb & Hn). unfold t_assign_from. rewrite (iter_forward_spec K V src Hn). simpl.
    rewrite t_set_from_all by (intros k v Hin; rewrite lookup_abs; auto using a_get_in_sorted).
    destruct (t_set_all_ok (inorder (root K V src)) _ rb_inv_empty) as (t' & -> & Hi & Ha).
    exists t'. repeat split; try apply Hi. rewrite Ha. apply (a_set_all_sorted K V cmp total_anti _ []), Hs.
  Qed.

  Theorem step_refines_total : forall t o, rb_inv t ->
    rb_inv (fst (t_step t o)) /\
    abs (fst (t_step t o)) = fst (spec_step (abs t) o) /\
    snd (t_step t o) = snd (spec_step (abs t) o).
  Proof.
    intros t o Hi. destruct o as [k v|k|k|k|n| |kvs]; simpl.
    - destruct (t_set_ok t k v Hi) as (t' & -> & Hi' & Ha). auto.
    - (* rem: the search finds what the specification's lookup finds *)
      pose proof Hi as (Hs & Hb & Hn). rewrite <- lookup_abs, (lookup_descend K V cmp _ k []) by exact Hs.
      destruct (descend K V cmp (root K V t) k []) as [[|c l k' v r] p] eqn:Hd; cbn [fst]; [auto|].
      destruct (descend_fpos K V cmp _ _ _ _ Hb Hd) as (m & Hm).
      destruct (rem_at_valid K V use_succ _ _ _ _ _ _ _ Hm) as (r1 & Hr1 & Hv1). rewrite Hr1.
      destruct (rem_spec K V cmp use_succ total_eq total_anti total_trans _ _ _ _ _ _ _ _ _ Hs Hd Hr1) as (Hi1 & Hl1).
      unfold rb_inv, abs in *. simpl. rewrite Hl1, Hi1, Hn.
      repeat split; try apply Hv1; auto. apply sorted_a_rem, Hs.
    - rewrite lookup_abs by apply Hi. auto.
    - rewrite lookup_abs by apply Hi. auto.
    - destruct n; simpl; auto using rb_inv_empty.
    - destruct (t_assign_from_ok t Hi) as (t' & -> & Hi' & Ha). auto.
    - destruct (t_set_all_ok kvs (t_empty K V) rb_inv_empty) as (src & -> & Hi1 & Ha1). simpl.
      destruct (t_assign_from_ok src Hi1) as (t' & -> & Hi2 & Ha2). simpl. rewrite Ha2. auto.
  Qed.

  Lemma spec_step_total : forall m o, snd (spec_step m o) <> OCrash V /\ snd (spec_step m o) <> OFuel V.
  Proof.
    intros m [k v|k|k|k|n| |kvs]; simpl; try destruct (a_get m k); try destruct n; split; discriminate.
  Qed.

  Theorem run_refines : forall ops t, rb_inv t ->
    rb_inv (t_run K V cmp use_succ ops t) /\
    abs (t_run K V cmp use_succ ops t) = spec_run K V cmp ops (abs t) /\
    t_outs K V cmp use_succ ops t = spec_outs K V cmp ops (abs t).
  Proof.
    induction ops as [|o ops IH]; intros t Hi; simpl; [auto|].
    destruct (step_refines_total t o Hi) as (Hi1 & <- & <-).
    destruct (IH _ Hi1) as (Hi2 & -> & ->). auto.
  Qed.

  Lemma spec_outs_total : forall ops m,
    ~ In (OCrash V) (spec_outs K V cmp ops m) /\ ~ In (OFuel V) (spec_outs K V cmp ops m).
  Proof.
    induction ops as [|o ops IH]; intros m; simpl; [tauto|].
    destruct (spec_step_total m o) as (H1 & H2). destruct (IH (fst (spec_step m o))) as (H3 & H4).
    split; intros [H|H]; auto.
  Qed.

  Lemma size_inorder : forall t : tree K V, size K V t = length (inorder t).
  Proof. induction t; simpl; auto. rewrite app_length. simpl. lia. Qed.

  Definition kgt (a b : K) : Prop := cmp a b = Gt.

  Lemma sorted_keys : forall m, sorted m -> StronglySorted kgt (keys K V m).
  Proof. induction 1; simpl; constructor; auto. now apply Forall_map. Qed.
End Refine.

Lemma int_cmp_total : total_order int_cmp.
Proof.
  unfold int_cmp. repeat split.
  - apply Z.compare_eq.
  - apply Z.compare_refl.
  - intros a b. apply Z.compare_antisym.
  - intros a b c. rewrite !Z.compare_lt_iff. lia.
Qed.

Lemma bytes_cmp_total : total_order bytes_cmp.
Proof.
  repeat split.
  - induction a as [|x a IH]; intros [|y b]; simpl; try easy.
    destruct (N.compare_spec x y) as [->| |]; try easy. intros E. f_equal; auto.
  - induction a as [|x a IH]; simpl; auto. now rewrite N.compare_refl.
  - induction a as [|x a IH]; intros [|y b]; simpl; auto.
    rewrite (N.compare_antisym y x), IH. now destruct (N.compare y x).
  - induction a as [|x a IH]; intros [|y b] [|z c]; simpl; try easy.
    destruct (N.compare_spec x y) as [->|Hxy|Hxy], (N.compare_spec y z) as [->|Hyz|Hyz]; try discriminate; auto.
    + apply IH.
    + now rewrite (proj2 (N.compare_lt_iff x z) Hxy).
    + now rewrite (proj2 (N.compare_lt_iff x z) (N.lt_trans _ _ _ Hxy Hyz)).
Qed.
