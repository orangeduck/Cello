(* Properties_C15.v — property C15: text written by show / print_to is read back by look / scan_from
   into an equal value, consuming exactly the characters written, from a String and from a File.
   Each statement is a general theorem of RoundTripProofs.v / RoundTripFloat.v put at rt_cfg, or a fact about
   the generated data or a concrete witness, settled by evaluation here; each is followed by Print Assumptions.
   rt_cfg = the data re-extracted from the C text (escape tables, `continue`, "%lf", sign rule). *)
From CelloV Require Import Generated RoundTrip RoundTripProofs RoundTripFloat RoundTripInst.

(* what the theorems below need of the C text: its escape tables are inverse to each other, String_Look has its
   `continue`, scan_from advances past "%%" by what it matched *)
Theorem c15_source_shape : config_ok rt_cfg.
Proof. exact RoundTripInst.rt_cfg_ok. Qed.
Print Assumptions c15_source_shape.

(* String: look (show s ++ anything) = s for every NUL-free byte string, consuming exactly show's text *)
Theorem c15_string_roundtrip : forall s rest, nul_free s ->
  look_string rt_look_continue rt_look_escapes (show_string rt_show_escapes s ++ rest)%list
  = LDone s (length (show_string rt_show_escapes s)).
Proof.
  intros s rest H. change rt_look_continue with (cf_look_cont rt_cfg). rewrite (ok_cont _ rt_cfg_ok).
  exact (RoundTripProofs.string_roundtrip _ _ (ok_tables _ rt_cfg_ok) s rest H).
Qed.
Print Assumptions c15_string_roundtrip.

(* the same for EVERY admissible writer table (distinct letters = injective, no NUL escaped, quote and
   backslash escaped), read back with the inverse table: the escape table is data, not part of the proof *)
Theorem c15_string_roundtrip_any_table : forall se, show_table_ok se ->
  forall s rest, nul_free s ->
  look_string true (invert_table se) (show_string se s ++ rest)%list = LDone s (length (show_string se s)).
Proof. exact RoundTripProofs.string_roundtrip_any_table. Qed.
Print Assumptions c15_string_roundtrip_any_table.

(* the table found in String_Show is admissible *)
Theorem c15_show_table_admissible : show_table_ok rt_show_escapes.
Proof.
  repeat split.
  - exact (NoDup_nodup N.eq_dec (map snd rt_show_escapes) <: NoDup (map snd rt_show_escapes)).     (* no two escapes share a letter: nodup removes none *)
  - cbv [rt_show_escapes]. repeat (constructor; [cbn; discriminate|]). constructor.
  - vm_compute. discriminate.
  - vm_compute. discriminate.
Qed.
Print Assumptions c15_show_table_admissible.

(* Int: "%li" text of every int64 is read back by "%li" into the same value, consuming exactly that
   text, whatever follows that does not continue the number *)
Theorem c15_int_roundtrip : forall z rest, int64 z -> stops_int rest ->
  look_value rt_cfg TInt (show_value rt_cfg (VInt z) ++ rest)%list = Some (VInt z, length (show_value rt_cfg (VInt z))).
Proof. exact (fun z rest => RoundTripProofs.show_value_reads rt_cfg (VInt z) rest rt_cfg_ok). Qed.
Print Assumptions c15_int_roundtrip.

(* Int through a numeric specification (int_directive_ok lists the two classes), for EVERY length modifier:
   the modifier enters through the width of the C type it names (spec_half: hh char 2^7, h short 2^15,
   none int 2^31 — these three narrow the int64 argument — and l ll j z t q: 2^63, no narrowing);
   in_range sp z / urange sp z = the named type holds z.
   - %[+][ ][0][width][mod]d / i, read back by %[mod']d, or by %[mod']i when no zero padding was requested,
     whenever both named types hold z; for the narrow ones this needs the sign restoration of scan_from_with
     (c15_int_restore: present for none, h and hh);
   - %[0][width][mod]u / x / X / o read back by a directive of the same base and width class: for a 64-bit
     modifier for EVERY int64 (two's complement), for a narrow one for 0 <= z < 2^bits;
   the value comes back equal and exactly the characters written are consumed *)
Theorem c15_int_spec_roundtrip : forall sp ssp z rest, int_directive_ok rt_cfg sp ssp z rest ->
  scan_num rt_cfg ssp (print_num sp (VInt z) ++ rest)%list = Some (VInt z, length (print_num sp (VInt z))).
Proof. exact (RoundTripProofs.int_directive_roundtrip rt_cfg). Qed.
Print Assumptions c15_int_spec_roundtrip.

(* scan_from_with gives a d / i result its sign back for every narrow directive (none, h, hh) *)
Theorem c15_int_restore : forall sp, int_restore rt_cfg sp = true.
Proof. intros sp. unfold int_restore. destruct (n_short sp); vm_compute; reflexivity. Qed.
Print Assumptions c15_int_restore.

(* repaired (dcf755e): %hhd / %hd results were zero-extended: -1 came back as 255 *)
Theorem c15_scan_hh_zero_extends_refuted :
  scan_num cfg_no_narrow spec_hhd (print_num spec_hhd (VInt (-1))) = Some (VInt 255, 2) /\
  scan_num rt_cfg spec_hhd (print_num spec_hhd (VInt (-1))) = Some (VInt (-1), 2).
Proof. vm_compute. split; reflexivity. Qed.
Print Assumptions c15_scan_hh_zero_extends_refuted.

(* sequences of Strings and Ints with separators, at any start position, String sink and source.
   lits_ok: every run of literal text (the pieces between "%%"s) that ends in white space is followed
   by something that does not start with white space — scanf's white-space directive would eat it *)
Theorem c15_show_seq_string : forall its pre rest, show_seq_ok rt_cfg its rest -> lits_ok rt_cfg its rest ->
  scan_str rt_cfg (fst (print_to_string rt_cfg pre (length pre) its) ++ rest)%list (length pre) (List.map sitem_of its) nil
  = SOk (values_of its) (snd (print_to_string rt_cfg pre (length pre) its)).
Proof. intros its pre rest H Hl. exact (proj1 (RoundTripProofs.show_seq_roundtrip rt_cfg rt_cfg_ok its rest H Hl) pre). Qed.
Print Assumptions c15_show_seq_string.

(* a readable sufficient condition for lits_ok: each literal as a whole either does not end in white
   space or is followed by text that does not start with white space *)
Theorem c15_lits_simple : forall its rest, lits_simple rt_cfg its rest -> lits_ok rt_cfg its rest.
Proof. exact (RoundTripProofs.lits_simple_ok rt_cfg). Qed.
Print Assumptions c15_lits_simple.

(* the same through a File *)
Theorem c15_show_seq_file : forall its old rest, show_seq_ok rt_cfg its rest -> lits_ok rt_cfg its rest ->
  scan_file rt_cfg (List.skipn (length old) (fst (print_to_file rt_cfg old (length old) its) ++ rest)%list) (length old)
    (List.map sitem_of its) nil
  = SOk (values_of its) (snd (print_to_file rt_cfg old (length old) its)).
Proof. intros its old rest H Hl. exact (proj2 (RoundTripProofs.show_seq_roundtrip rt_cfg rt_cfg_ok its rest H Hl) old). Qed.
Print Assumptions c15_show_seq_file.

(* D7 (repaired in the repository): without the `continue` the escape letter is appended as well *)
Theorem c15_look_without_continue_refuted :
  exists s, nul_free s /\
    look_string false rt_look_escapes (show_string rt_show_escapes s) <> LDone s (length (show_string rt_show_escapes s)).
Proof. exists (10%N :: nil). split; [repeat constructor; discriminate | vm_compute; discriminate]. Qed.
Print Assumptions c15_look_without_continue_refuted.

(* Float, core arithmetic (full statement): for every double x = mx 2^ex and every printed precision p,
   the nearest-even binary64 (m, e) of the decimal that "%.pf" prints for x satisfies
   |m 2^e - mx 2^ex| <= 10^-p   (both sides multiplied by 10^p 2^1074 to stay in Z) *)
Theorem c15_float_value_roundtrip : forall (pd : nat) (mx : N) (ex : Z),
  (Z.of_N mx < 2 ^ 53)%Z -> (-1074 <= ex)%Z ->
  let r := round_bin 53 (-1074) (scaled_round pd mx ex) (pow10 pd) in
  (-1074 <= snd r)%Z /\
  (Z.abs (sval (-1074) (pow10 pd) (fst r) (snd r) - sval (-1074) (pow10 pd) mx ex) <= 2 ^ 1074)%Z.
Proof. exact (RoundTripFloat.float_value_roundtrip 53 (-1074) eq_refl (Z.lt_le_incl (-1074) 0 eq_refl)). Qed.
Print Assumptions c15_float_value_roundtrip.

(* Float through show / look: the text show writes for a finite double b is read back by look,
   consuming exactly that text, into a bit pattern b' that decodes to a finite double of the same
   sign within 10^-6 of the original (float_close 6 b b') *)
Theorem c15_float_show_look : forall b rest, finite b -> stops_float rest ->
  exists b', look_value rt_cfg TFloat (show_value rt_cfg (VFloat b) ++ rest)%list
             = Some (VFloat b', length (show_value rt_cfg (VFloat b)))
             /\ float_close 6 b b'.
Proof. exact (RoundTripFloat.float_show_look rt_cfg rt_cfg_ok_float). Qed.
Print Assumptions c15_float_show_look.

(* sequences of Ints, Floats and Strings written with %$, a signed decimal or unsigned directive, or "%[+][ ][0][width][.p]f" read by "%lf"
   (wf_seq lists the side conditions item by item), separated by literal
   text, at any start position, String sink and source; value_close = Ints and Strings equal, Floats
   within the printed precision *)
Theorem c15_seq_roundtrip_string : forall its sits pre rest, wf_seq rt_cfg its sits rest -> lits_ok rt_cfg its rest ->
  exists vs',
    scan_str rt_cfg (fst (print_to_string rt_cfg pre (length pre) its) ++ rest)%list (length pre) sits nil
    = SOk vs' (snd (print_to_string rt_cfg pre (length pre) its))
    /\ List.Forall2 value_close (values_of its) vs'.
Proof.
  intros its sits pre rest H Hl.
  destruct (RoundTripFloat.wf_seq_roundtrip rt_cfg rt_cfg_ok_float its sits rest H Hl) as (vs' & Hr & Hv).
  exists vs'. exact (conj (proj1 Hr pre) Hv).
Qed.
Print Assumptions c15_seq_roundtrip_string.

(* the same through a File *)
Theorem c15_seq_roundtrip_file : forall its sits old rest, wf_seq rt_cfg its sits rest -> lits_ok rt_cfg its rest ->
  exists vs',
    scan_file rt_cfg (List.skipn (length old) (fst (print_to_file rt_cfg old (length old) its) ++ rest)%list)
      (length old) sits nil
    = SOk vs' (snd (print_to_file rt_cfg old (length old) its))
    /\ List.Forall2 value_close (values_of its) vs'.
Proof.
  intros its sits old rest H Hl.
  destruct (RoundTripFloat.wf_seq_roundtrip rt_cfg rt_cfg_ok_float its sits rest H Hl) as (vs' & Hr & Hv).
  exists vs'. exact (conj (proj2 Hr old) Hv).
Qed.
Print Assumptions c15_seq_roundtrip_file.

(* D8 (repaired): through "%f" the scanner stores a float; 123456789.123456 comes back as 123456792.0 *)
Theorem c15_float_look_single_refuted :
  exists b b', decode_double b <> None /\
    scan_num (Build_config nil nil true false true true true true) (spec_f false) (print_num (spec_f false) (VFloat b))
    = Some (VFloat b', 16) /\ b = 4728057454355442549%N /\ b' = 4728057454548484096%N.
Proof.
  exists 4728057454355442549%N, 4728057454548484096%N.
  split; [vm_compute; discriminate|]. split; [vm_compute; reflexivity | split; reflexivity].
Qed.
Print Assumptions c15_float_look_single_refuted.

(* F6 (repaired): %d without `l` zero-extended negatives *)
Theorem c15_scan_d_zero_extends_refuted :
  exists z, (- two31 <= z < two31)%Z /\
    scan_num cfg_no_signext spec_d (print_num spec_d (VInt z)) <> Some (VInt z, length (print_num spec_d (VInt z))).
Proof. exists (-5)%Z. vm_compute. split; [split; [discriminate | reflexivity] | discriminate]. Qed.
Print Assumptions c15_scan_d_zero_extends_refuted.

(* D22 (repaired): scan_from added the LENGTH of a literal piece to the position; on a File the piece " "
   had consumed the padding of the following "%5li" as well, so the position returned was 7 for 10
   characters (String: 10); with the measured advance both give 10 *)
Theorem c15_literal_length_refuted :
  let its := (PShow (VStr (97 :: 98 :: nil)) :: PLit (32 :: nil) :: PNum spec_5li (VInt 42) :: nil)%N%Z%list in
  let sits := (SLook TStr :: SLit (32 :: nil) :: SNum spec_li :: nil)%N%list in
  length (print_items cfg_old_literals its) = 10 /\
  scan_str cfg_old_literals (print_items cfg_old_literals its) 0 sits nil = SOk (VStr (97 :: 98 :: nil) :: VInt 42 :: nil)%N%Z%list 10 /\
  scan_file cfg_old_literals (print_items cfg_old_literals its) 0 sits nil = SOk (VStr (97 :: 98 :: nil) :: VInt 42 :: nil)%N%Z%list 7 /\
  scan_file rt_cfg (print_items rt_cfg its) 0 sits nil = SOk (VStr (97 :: 98 :: nil) :: VInt 42 :: nil)%N%Z%list 10.
Proof. vm_compute. repeat split; reflexivity. Qed.
Print Assumptions c15_literal_length_refuted.

(* D23 (repaired): "%%" advanced the position by 2 for one character: "5%7" written with "%li%%%li"
   could not be read back with the same format (FormatError) *)
Theorem c15_percent_two_refuted :
  let its := (PShow (VInt 5) :: PLit (37 :: nil) :: PShow (VInt 7) :: nil)%N%Z%list in
  let sits := (SLook TInt :: SLit (37 :: nil) :: SLook TInt :: nil)%N%list in
  print_items cfg_old_literals its = (53 :: 37 :: 55 :: nil)%N%list /\
  scan_str cfg_old_literals (print_items cfg_old_literals its) 0 sits nil = SRaise (VInt 5 :: nil)%Z%list /\
  scan_str rt_cfg (print_items rt_cfg its) 0 sits nil = SOk (VInt 5 :: VInt 7 :: nil)%Z%list 3.
Proof. vm_compute. repeat split; reflexivity. Qed.
Print Assumptions c15_percent_two_refuted.

(* non-vacuity *)
Example c15_ex_nul_free : nul_free ex_string.
Proof. exact RoundTripInst.ex_nul_free. Qed.
Example c15_ex_show_seq_ok : show_seq_ok rt_cfg ex_items ex_rest.
Proof. exact RoundTripInst.ex_show_seq_ok. Qed.
Example c15_ex_wf_seq : wf_seq rt_cfg ex_items_f ex_sitems_f ex_rest.
Proof. exact RoundTripInst.ex_wf_seq. Qed.
Example c15_ex_finite : finite 4728057454355442549%N.
Proof. exact RoundTripInst.ex_finite. Qed.
Example c15_ex_lits_ok : lits_ok rt_cfg ex_items ex_rest.
Proof. exact RoundTripInst.ex_lits_ok. Qed.
Example c15_ex_int_directive_d : int_directive_ok rt_cfg spec_p08d spec_d (-2147483648) ex_rest.
Proof. exact RoundTripInst.ex_int_directive_d. Qed.
Example c15_ex_int_directive_lX : int_directive_ok rt_cfg spec_lX spec_lx (-5) ex_rest.
Proof. exact RoundTripInst.ex_int_directive_lX. Qed.
Example c15_ex_lits_ok_pct : lits_ok rt_cfg ex_items_pct ex_rest /\ show_seq_ok rt_cfg ex_items_pct ex_rest.
Proof. exact RoundTripInst.ex_lits_ok_pct. Qed.
Example c15_ex_int_directive_hhd : int_directive_ok rt_cfg spec_hhd spec_hhd (-128) ex_rest.
Proof. exact RoundTripInst.ex_int_directive_hhd. Qed.
Example c15_ex_int_directive_hx : int_directive_ok rt_cfg spec_hx spec_hx 65535 ex_rest.
Proof. exact RoundTripInst.ex_int_directive_hx. Qed.
