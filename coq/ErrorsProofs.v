(* ErrorsProofs.v — C12: guarded operations ("validate every argument, then mutate") are atomic. *)
From Coq Require Import List.
From CelloV Require Import ErrorsModel.
Import ListNotations.

Lemma run_gop_atomic (S X : Type) (o : gop S X) s s' e :
  run_gop S X o s = (s', Some e) -> s' = s /\ first_failure S X (guards S X o) s = Some e.
Proof.
  unfold run_gop. destruct (first_failure S X (guards S X o) s) eqn:F; intros H; inversion H; subst; auto.
Qed.

Lemma run_gop_ok (S X : Type) (o : gop S X) s s' :
  run_gop S X o s = (s', None) -> s' = body S X o s /\ first_failure S X (guards S X o) s = None.
Proof.
  unfold run_gop. destruct (first_failure S X (guards S X o) s) eqn:F; intros H; inversion H; subst; auto.
Qed.
