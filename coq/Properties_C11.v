(* Properties_C11.v — property C11: iteration agrees with len and get, forwards and backwards,
   for views too.  Statements, each followed by Print Assumptions, and Examples showing that the
   hypotheses of the main theorems can be met.  A theorem is closed by `exact` of the lemma of IterProofs.v that states it (or has it
   as an instance) or of the conjunction of the lemmas that state its parts; filter_yields_the_elements and nested_views_compose
   are put together here from wb_filter resp. wb_slice, wb_map, wb_filter and wb_iterates.  All theorems are about the model
   coq/IterModel.v with the rules [repaired]; theorem 1 ties [repaired] to the C source.

   Reading guide.  [walk repaired f d cut u] is foreach over [u] (d = Fwd: iter_init/iter_next, Bwd:
   iter_last/iter_prev), cut off after [cut] items, [f] = fuel of Filter's while(true) loops.  Its
   result (items, WDone) means Terminal was reached; WCrash = a cursor step or read outside the
   underlying storage; WRunaway = cut off.  [wb f u cvs]: u is well-behaved with cursor chain cvs
   (IterProofs.v).  [iterates f u vs]: for every cut > length vs the forward walk yields exactly vs
   and the backward walk rev vs.  [lg u vs]: len u = length vs and get u i = i-th of vs. *)
From Coq Require Import List ZArith Bool.
From CelloV Require Import Generated IterModel IterSource IterProofs.
Import ListNotations.
Local Open Scope Z_scope.

(* 1. The variant of the model selected by the C source of the working tree (flags and function
      texts re-read by tools/genx_iter.py on every run) is the repaired one. *)
Theorem source_is_the_repaired_code : source_rules = repaired /\ source_shapes_ok = true.
Proof. exact (conj IterProofs.source_rules_repaired IterProofs.source_shapes). Qed.
Print Assumptions source_is_the_repaired_code.

(*    Range_Iter_Last is TRANSLATED, not matched: the two expressions it assigns to i->val (Generated.v, every int64
      operation under wrap64, whatever their form in the source) are, for every range in the box, the model's
      first + step*(len-1). *)
Theorem source_range_last_is_the_models : forall r, in_box r -> 0 < range_count r ->
  (0 < r_step r -> iter_range_last_pos wrap64 (r_start r) (r_stop r) (r_step r) (range_count r) = range_val r (range_count r - 1)) /\
  (r_step r < 0 -> iter_range_last_neg wrap64 (r_start r) (r_stop r) (r_step r) (range_count r) = range_val r (range_count r - 1)).
Proof. exact IterProofs.source_range_last_ok. Qed.
Print Assumptions source_range_last_is_the_models.

(* 2. Forward iteration over a well-behaved iterable ends with Terminal after exactly the items of
      its chain, backward iteration yields the same items in reverse order. *)
Theorem well_behaved_iterates : forall f u cvs, wb f u cvs -> iterates f u (map snd cvs).
Proof. exact IterProofs.wb_iterates. Qed.
Print Assumptions well_behaved_iterates.
Example well_behaved_iterates_nonvacuous : wb 3 (IArray [VInt 7; VInt 8]) (chain_from 0 [VInt 7; VInt 8]).
Proof. exact (IterProofs.wb_array 3 [VInt 7; VInt 8]). Qed.

(* 3. ... and no walk over a well-behaved iterable, however early it is cut off, ever steps or reads
      outside the underlying storage, raises, or runs out of fuel ("never reads outside"). *)
Theorem well_behaved_never_outside : forall f u cvs d cut, wb f u cvs ->
  snd (walk repaired f d cut u) = WDone \/ snd (walk repaired f d cut u) = WRunaway.
Proof. exact IterProofs.walk_safe. Qed.
Print Assumptions well_behaved_never_outside.

(* 4. Array (repaired Array_Iter_Prev), List: forward = the elements = [get 0 .. get (len-1)],
      backward = reverse, len = number of elements.  Every length, including 0. *)
Theorem array_iteration : forall f xs, iterates f (IArray xs) xs /\ lg (IArray xs) xs.
Proof. exact (fun f xs => conj (iterates_of f _ _ _ (IterProofs.wb_array f xs) (chain_from_snd xs 0)) (IterProofs.lg_array xs)). Qed.
Print Assumptions array_iteration.
Theorem list_iteration : forall f xs, iterates f (IList xs) xs /\ lg (IList xs) xs.
Proof. exact (fun f xs => conj (iterates_of f _ _ _ (IterProofs.wb_list f xs) (chain_from_snd xs 0)) (IterProofs.lg_list xs)). Qed.
Print Assumptions list_iteration.
(* Tree: iter_init/next/last/prev follow child and parent links as Tree_Iter_Init, Next, Last, Prev do; over EVERY binary tree shape
   (so whatever the red-black balancing of C03 does) the walk visits the nodes in in-order sequence,
   backward = reverse, len = number of nodes.  (Keyed get: not positional.) *)
Theorem tree_iteration : forall f T,
  iterates f (ITree T) (inorder T) /\ it_len repaired (ITree T) = OVal (zlen (inorder T)).
Proof. exact (fun f T => conj (iterates_of f _ _ _ (IterProofs.wb_tree f T) (tchain_snd T [])) (IterProofs.tree_len T)). Qed.
Print Assumptions tree_iteration.
(* Tuple of DISTINCT objects (cursor = the element pointer; NoDup excludes open finding F3, see 8.) *)
Theorem tuple_iteration : forall f (items : list (nat * val)), NoDup (map fst items) ->
  iterates f (ITuple items) (map snd items) /\ lg (ITuple items) (map snd items).
Proof.
  exact (fun f items H => conj (iterates_of f _ _ _ (IterProofs.wb_tuple f items H) (map_map _ snd items)) (IterProofs.lg_tuple items)).
Qed.
Print Assumptions tuple_iteration.
Example tuple_iteration_nonvacuous : NoDup (map fst [(0%nat, VInt 5); (1%nat, VInt 5); (2%nat, VInt 7)]).
Proof. repeat constructor; cbn; intuition discriminate. Qed.
(* Table: the slot scan of Table_Iter_Init/Next/Last/Prev over ANY slot occupancy (fuel nslots+1 is
   adequate): the keys of the occupied slots in slot order, backward = reverse, len = their number *)
Theorem table_iteration : forall f slots,
  iterates f (ITable slots) (map snd (tab_chain_from 0 slots)) /\
  it_len repaired (ITable slots) = OVal (zlen (tab_chain_from 0 slots)) /\
  (forall k, In k (map snd (tab_chain_from 0 slots)) <-> In (Some k) slots).
Proof.
  exact (fun f slots => conj (IterProofs.wb_iterates f _ _ (IterProofs.wb_table f slots))
                        (conj (IterProofs.tab_len slots) (fun k => IterProofs.tab_chain_keys slots k 0%nat))).
Qed.
Print Assumptions table_iteration.

(* 5. Range, for ALL start/stop/step of either sign with step <> 0 and |.| < 2^62 (in_box; inside
      that box no int64 operation of the code wraps, which is part of the proof): the walk yields
      range_elems r = [range_val r 0; ..; range_val r (count-1)] where range_val r i = start + step*i
      (step > 0) resp. stop-1 + step*i (step < 0); these are exactly the values of that progression
      inside [start, stop); len = count, get i = i-th, backward = reverse. *)
Theorem range_iteration : forall f r, in_box r ->
  iterates f (IRange r) (map VInt (range_elems r)) /\ lg (IRange r) (map VInt (range_elems r)) /\
  length (range_elems r) = Z.to_nat (range_count r) /\
  (forall i, (i < Z.to_nat (range_count r))%nat -> nth_error (range_elems r) i = Some (range_val r (Z.of_nat i))) /\
  (forall i, 0 <= i < range_count r -> r_start r <= range_val r i < r_stop r) /\
  (forall i, range_count r <= i ->
     if 0 <? r_step r then r_stop r <= range_val r i else range_val r i < r_start r).
Proof.
  exact (fun f r H => conj (iterates_of f _ _ _ (IterProofs.wb_range f r H) (range_chain_snd r)) (conj (IterProofs.lg_range r H)
          (conj (range_elems_length r) (conj (range_elems_nth r)
          (conj (fun i => range_val_bounds r i (proj2 (proj2 (proj2 H)))) (fun i => range_val_past r i (proj2 (proj2 (proj2 H))))))))).
Qed.
Print Assumptions range_iteration.
Example range_iteration_nonvacuous :
  in_box (mkRng 0 10 4) /\ in_box (mkRng (-7) 9 (-3)) /\
  range_elems (mkRng 0 10 4) = [0; 4; 8] /\ range_elems (mkRng (-7) 9 (-3)) = [8; 5; 2; -1; -4; -7] /\
  range_elems (mkRng 5 0 1) = [] /\ range_elems (mkRng 0 0 2) = [].
Proof. vm_compute. repeat split; discriminate. Qed.

(* Range_Get with any int64 key: the negative keys -len .. -1 count from the end, everything outside
   [-len, len) raises IndexOutOfBoundsError (also C12) *)
Theorem range_get_total : forall r key, in_box r -> - two63 <= key < two63 ->
  range_get repaired r key =
  let i := if key <? 0 then range_count r + key else key in
  if (0 <=? i) && (i <? range_count r) then OVal (range_val r i) else ORaise EIndex.
Proof. exact IterProofs.range_get_ok. Qed.
Print Assumptions range_get_total.

(* 6. Views over ANY well-behaved underlying iterable u (hence over other views: the results
      compose to every nesting depth).
      Map: the images in order. *)
Theorem map_view : forall f u cvs g, wb f u cvs ->
  wb f (IMap g u) (map_chain g cvs) /\ map snd (map_chain g cvs) = map g (map snd cvs).
Proof. exact (fun f u cvs g H => conj (IterProofs.wb_map f u cvs g H) (map_chain_snd g cvs)). Qed.
Print Assumptions map_view.
Theorem map_len_get : forall g u vs, lg u vs -> lg (IMap g u) (map g vs).
Proof. exact IterProofs.lg_map. Qed.
Print Assumptions map_len_get.

(*    Filter: the accepted elements (List.filter); fuel adequacy: length of the underlying chain. *)
Theorem filter_view : forall f u cvs p, wb f u cvs -> (length cvs <= f)%nat ->
  wb f (IFilter p u) (filter (acc_of p) cvs) /\
  map snd (filter (acc_of p) cvs) = filter (fun v => is_some (p v)) (map snd cvs).
Proof. exact (fun f u cvs p H Hf => conj (IterProofs.wb_filter f u cvs p H Hf) (filter_chain_snd p cvs)). Qed.
Print Assumptions filter_view.
(*    A predicate answers with an OBJECT (None = NULL = reject); only NULL / non-NULL matters: predicates that accept
      the same items give the same chain, made of the underlying iterable's own cursors and items (identity), so Filter
      yields exactly the accepted ELEMENTS in order whatever object the predicate answers with. *)
Theorem filter_yields_the_elements : forall f u cvs p q, wb f u cvs -> (length cvs <= f)%nat ->
  (forall v, is_some (p v) = is_some (q v)) ->
  filter (acc_of p) cvs = filter (acc_of q) cvs /\
  wb f (IFilter p u) (filter (acc_of q) cvs) /\
  (forall i c v, nth_error (filter (acc_of p) cvs) i = Some (c, v) -> In (c, v) cvs).
Proof.
  intros f u cvs p q H Hf Hpq.
  assert (E : filter (acc_of p) cvs = filter (acc_of q) cvs) by (apply filter_ext; intros [c v]; apply Hpq).
  split; [exact E|]. split; [rewrite <- E; now apply IterProofs.wb_filter|].
  intros i c v Hn. apply nth_error_In in Hn. now apply filter_In in Hn.
Qed.
Print Assumptions filter_yields_the_elements.
Example filter_yields_the_elements_nonvacuous :
  (forall v, is_some (pred_of 6 v) = is_some (pred_of 2 v)) /\ pred_of 6 (VObj 3 4) = Some flag_obj /\ pred_of 2 (VObj 3 4) = Some (VObj 3 4).
Proof. split; [|split; reflexivity]. intros v. unfold pred_of. now destruct (Z.rem (vkey v) 2 =? 0)%Z. Qed.
Example filter_view_nonvacuous :
  wb 4 (IRange (mkRng 0 4 1)) (range_chain (mkRng 0 4 1)) /\ (length (range_chain (mkRng 0 4 1)) <= 4)%nat.
Proof.
  split; [apply IterProofs.wb_range; vm_compute; repeat split; discriminate | apply Nat.leb_le; reflexivity].
Qed.

(*    Slice (as repaired): the items at the positions start, start+step, .. below stop, for a negative
      step stop-1, stop-1+step, .. not below start ([slice_sel]); slice_ok is what slice_stack
      establishes (theorem slice_stack_clamps).  The walk never leaves the underlying chain. *)
Theorem slice_view : forall f u cvs r, wb f u cvs -> it_len repaired u = OVal (zlen cvs) -> slice_ok r (zlen cvs) ->
  wb f (ISlice u r) (slice_chain r cvs) /\
  map snd (slice_chain r cvs) = slice_sel r (map snd cvs) /\
  it_len repaired (ISlice u r) = OVal (zlen (slice_chain r cvs)).
Proof.
  exact (fun f u cvs r H Hl Hok => conj (IterProofs.wb_slice f u cvs r H Hl Hok) (conj (slice_chain_snd r cvs) (slice_len u cvs r Hok))).
Qed.
Print Assumptions slice_view.
Example slice_view_nonvacuous :
  let xs := map VInt [1; 2; 3; 4; 5; 6; 7] in
  slice_ok (mkRng 1 6 (-3)) (zlen (chain_from 0 xs)) /\ slice_sel (mkRng 1 6 (-3)) xs = map VInt [6; 3] /\
  slice_ok (mkRng 0 7 4) (zlen (chain_from 0 xs)) /\ slice_sel (mkRng 0 7 4) xs = map VInt [1; 5].
Proof. vm_compute. repeat split; discriminate. Qed.
Theorem slice_len_get : forall u vs r, lg u vs -> slice_ok r (zlen vs) -> lg (ISlice u r) (slice_sel r vs).
Proof. exact IterProofs.lg_slice. Qed.
Print Assumptions slice_len_get.

(*    No look-ahead: once the Slice's own Range cursor is exhausted (or the selection is empty) the Slice answers Terminal
      without ANY call on its input - for every input u, well-behaved or not.  (Between two selected positions it takes
      exactly |step| steps, all inside the chain: slice_view.)  The correspondence observes this through a probe. *)
Theorem slice_touches_nothing_beyond : forall f d u r,
  (forall c rv, ostep d r rv = None -> it_step repaired f d (ISlice u r) (CSlice c rv) = OVal None) /\
  (ostart repaired d r = None -> it_start repaired f d (ISlice u r) = OVal None).
Proof. exact (fun f d u r => conj (fun c rv => IterProofs.slice_exhausted_touches_nothing f d u r c rv) (IterProofs.slice_empty_touches_nothing f d u r)). Qed.
Print Assumptions slice_touches_nothing_beyond.

(*    slice_stack: omitted / negative-from-end / beyond-the-ends arguments are clamped into [0, n]
      (signed clamp, as repaired), so the Slice's range satisfies slice_ok. *)
Theorem slice_stack_clamps : forall u n args, it_len repaired u = OVal n -> 0 <= n < box -> (length args <= 3)%nat ->
  Forall (fun a => match a with Some x => - box < x < box | None => True end) args ->
  mk_slice repaired u args = OVal (ISlice u (slice_range n args)).
Proof. exact IterProofs.mk_slice_ok. Qed.
Print Assumptions slice_stack_clamps.
Theorem slice_stack_range_ok : forall n args, 0 <= n < box ->
  match args with
  | _ :: _ :: Some c :: _ => - box < c < box /\ c <> 0
  | _ => True
  end -> slice_ok (slice_range n args) n.
Proof. exact IterProofs.slice_range_ok. Qed.
Print Assumptions slice_stack_range_ok.
Example slice_stack_nonvacuous :
  slice_range 3 [Some (-100); None] = mkRng 0 3 1 /\ slice_range 6 [None; None; Some (-1)] = mkRng 0 6 (-1) /\
  slice_range 6 [Some (-2); Some 100; Some 2] = mkRng 4 6 2.
Proof. cbn. repeat split. Qed.

(*    Zip (with the repaired Zip_Iter_Last): tuples up to the shortest input, all arities >= 1 ... *)
Theorem zip_view : forall f us css, us <> [] ->
  Forall2 (wb f) us css -> Forall2 (fun u l => item_len_of f u = OVal (zlen l)) us css ->
  wb f (IZip us) (zip_chain css) /\
  length (zip_chain css) = minlen css /\
  (forall j, (j < minlen css)%nat ->
     nth_error (map snd (zip_chain css)) j = Some (VTup (map (fun l => nth j (map snd l) dv) css))).
Proof.
  exact (fun f us css _ H Hl => conj (IterProofs.wb_zip f us css H Hl) (conj (zip_chain_length css) (zip_chain_vals css))).
Qed.
Print Assumptions zip_view.
(*    ... where an input's item count is its len if it implements Len, else a forward count *)
Theorem zip_item_len : forall f u cvs, wb f u cvs -> (length cvs <= f)%nat ->
  (implements_len u = true -> it_len repaired u = OVal (zlen cvs)) -> item_len_of f u = OVal (zlen cvs).
Proof. exact IterProofs.item_len_ok. Qed.
Print Assumptions zip_item_len.
(*    ... and the Zip of no inputs is empty *)
Theorem zip_of_nothing : forall f, wb f (IZip []) [].
Proof. exact (fun f => IterProofs.wb_zip f [] [] (Forall2_nil _) (Forall2_nil _)). Qed.
Print Assumptions zip_of_nothing.
Example zip_view_nonvacuous :
  let a := map VInt [1; 2; 3] in let b := map VInt [7; 8] in
  Forall2 (wb 5) [IArray a; IList b] [chain_from 0 a; chain_from 0 b] /\
  Forall2 (fun u l => item_len_of 5 u = OVal (zlen l)) [IArray a; IList b] [chain_from 0 a; chain_from 0 b] /\
  map snd (zip_chain [chain_from 0 a; chain_from 0 b]) = [VTup (map VInt [1; 7]); VTup (map VInt [2; 8])].
Proof.
  cbn zeta. split; [|split].
  - constructor; [apply IterProofs.wb_array|]. constructor; [apply IterProofs.wb_list|]. constructor.
  - constructor; [reflexivity|]. constructor; [reflexivity|]. constructor.
  - reflexivity.
Qed.

(*    Zip len = length of the shortest input, get i = the tuple of the inputs' get i *)
Theorem zip_len_get : forall us vss, us <> [] -> Forall2 lg us vss -> lg (IZip us) (zip_rows vss).
Proof. exact (fun us vss _ => IterProofs.lg_zip us vss). Qed.
Print Assumptions zip_len_get.
Example zip_len_get_nonvacuous :
  Forall2 lg [IArray (vi [1; 2; 3]); IList (vi [7; 8])] [vi [1; 2; 3]; vi [7; 8]] /\
  zip_rows [vi [1; 2; 3]; vi [7; 8]] = [VTup (vi [1; 7]); VTup (vi [2; 8])].
Proof.
  split; [|reflexivity]. constructor; [apply IterProofs.lg_array|]. constructor; [apply IterProofs.lg_list|]. constructor.
Qed.

(*    reverse(I) = slice(I, _, _, -1) yields the items of I in reverse order *)
Theorem reverse_view : forall f u cvs, wb f u cvs -> it_len repaired u = OVal (zlen cvs) -> zlen cvs < box ->
  exists s, mk_reverse repaired u = OVal s /\ iterates f s (rev (map snd cvs)).
Proof. exact IterProofs.reverse_ok. Qed.
Print Assumptions reverse_view.

(*    enumerate(I) = zip(range(0, len I), I) yields the pairs (i, i-th item of I) *)
Theorem enumerate_view : forall f u cvs, wb f u cvs -> it_len repaired u = OVal (zlen cvs) ->
  item_len_of f u = OVal (zlen cvs) -> zlen cvs < box ->
  exists s ch, mk_enumerate repaired u = OVal s /\ wb f s ch /\ length ch = length cvs /\
    forall j, (j < length cvs)%nat ->
      nth_error (map snd ch) j = Some (VTup [VInt (Z.of_nat j); nth j (map snd cvs) dv]).
Proof. exact IterProofs.enumerate_ok. Qed.
Print Assumptions enumerate_view.

(*    Composition to depth 3 over an arbitrary well-behaved u (itself possibly a view). *)
Theorem nested_views_compose : forall f u cvs r g p,
  wb f u cvs -> it_len repaired u = OVal (zlen cvs) -> slice_ok r (zlen cvs) -> (length cvs <= f)%nat ->
  iterates f (IFilter p (IMap g (ISlice u r))) (filter (fun v => is_some (p v)) (map g (slice_sel r (map snd cvs)))).
Proof.
  intros f u cvs r g p H Hl Hok Hf. rewrite <- slice_chain_snd, <- map_chain_snd, <- filter_chain_snd.
  apply IterProofs.wb_iterates, IterProofs.wb_filter; [apply IterProofs.wb_map, IterProofs.wb_slice; auto|].
  unfold map_chain. rewrite map_length. exact (Nat.le_trans _ _ _ (slice_chain_le r cvs Hok) Hf).
Qed.
Print Assumptions nested_views_compose.

(*    The hypotheses of reverse_view, enumerate_view and nested_views_compose hold together, e.g. for an
      Array of six items and the range (0, 6, 2); and a view of a view satisfies them again (composition). *)
Example views_hypotheses_nonvacuous :
  let xs := map VInt [1; 2; 3; 4; 5; 6] in let u := IArray xs in let cvs := chain_from 0 xs in
  wb 6 u cvs /\ it_len repaired u = OVal (zlen cvs) /\ item_len_of 6 u = OVal (zlen cvs) /\ zlen cvs < box /\
  slice_ok (mkRng 0 6 2) (zlen cvs) /\ (length cvs <= 6)%nat /\
  wb 6 (IMap (fun_of 1) (ISlice u (mkRng 0 6 2))) (map_chain (fun_of 1) (slice_chain (mkRng 0 6 2) cvs)) /\
  map snd (map_chain (fun_of 1) (slice_chain (mkRng 0 6 2) cvs)) = map VInt [101; 103; 105].
Proof.
  cbn zeta.
  assert (Hok : slice_ok (mkRng 0 6 2) (zlen (chain_from 0 (map VInt [1; 2; 3; 4; 5; 6]))))
    by (vm_compute; repeat split; discriminate).
  split; [apply IterProofs.wb_array|]. split; [reflexivity|]. split; [reflexivity|]. split; [reflexivity|].
  split; [exact Hok|]. split; [apply Nat.leb_le; reflexivity|]. split; [|vm_compute; reflexivity].
  apply IterProofs.wb_map, IterProofs.wb_slice; [apply IterProofs.wb_array | reflexivity | exact Hok].
Qed.

(* 7. The pre-repair texts are refuted (one rules record per defect, everything else repaired). *)
Theorem array_prev_refuted : exists xs, snd (walk pre_D9 10 Bwd 10 (IArray xs)) = WCrash.
Proof. exact IterProofs.array_prev_refuted. Qed.
Print Assumptions array_prev_refuted.
Theorem tuple_last_refuted : it_start pre_D10 5 Bwd (ITuple []) = OCrash.
Proof. exact IterProofs.tuple_last_refuted. Qed.
Print Assumptions tuple_last_refuted.
Theorem range_len_refuted :
  range_len pre_D11len (mkRng 0 0 2) = 1 /\ range_len pre_D11len (mkRng 5 0 1) = -5 /\
  fst (walk pre_D11len 5 Fwd 9 (IRange (mkRng 0 0 2))) = [].
Proof. exact IterProofs.range_len_refuted. Qed.
Print Assumptions range_len_refuted.
Theorem range_last_refuted :
  walk pre_D11last 5 Fwd 9 (IRange (mkRng 0 10 4)) = (vi [0; 4; 8], WDone) /\
  walk pre_D11last 5 Bwd 9 (IRange (mkRng 0 10 4)) = (vi [9; 5; 1], WDone).
Proof. exact IterProofs.range_last_refuted. Qed.
Print Assumptions range_last_refuted.
Theorem range_get_refuted :
  range_get pre_D11get (mkRng 0 10 1) (-11) = OVal (-1) /\
  range_get pre_D11get (mkRng 0 10 2) 9223372036854775807 = OVal (-2).
Proof. exact IterProofs.range_get_refuted. Qed.
Print Assumptions range_get_refuted.
Theorem slice_arg_refuted : slice_arg pre_D12arg 0 3 (Some (-100)) = 3.
Proof. exact IterProofs.slice_arg_refuted. Qed.
Print Assumptions slice_arg_refuted.
Theorem slice_walk_refuted :
  walk pre_D12walk 5 Fwd 9 (ISlice (IArray (vi [1; 2; 3; 4; 5; 6])) (mkRng 0 2 1)) = (vi [1; 2; 3; 4; 5; 6], WDone) /\
  snd (walk pre_D12walk 5 Fwd 9 (ISlice (IArray (vi [1; 2; 3; 4; 5; 6])) (mkRng 0 6 4))) = WCrash.
Proof. exact IterProofs.slice_walk_refuted. Qed.
Print Assumptions slice_walk_refuted.
Theorem zip_last_refuted :
  walk pre_F4 5 Bwd 9 (IZip [IArray (vi [1; 2; 3]); IList (vi [7; 8])]) =
  ([VTup (vi [3; 8]); VTup (vi [2; 7])], WDone).
Proof. exact IterProofs.zip_last_refuted. Qed.
Print Assumptions zip_last_refuted.

(* 8. Open finding F3 (signature tuple-repeated-pointer): with the Tuple cursor being the element
      pointer, a Tuple holding the same object twice never finishes its forward walk, whatever the
      fuel and the cut-off.  (tuple_iteration therefore needs NoDup.) *)
Theorem tuple_repeated_pointer_refuted : forall f cut x y z,
  snd (walk repaired f Fwd cut (ITuple [(0%nat, x); (1%nat, y); (0%nat, x); (2%nat, z)])) = WRunaway.
Proof. exact IterProofs.tuple_repeated_pointer_refuted. Qed.
Print Assumptions tuple_repeated_pointer_refuted.

(* 9. Open finding range-int64-overflow: the box of theorem 5 cannot simply be dropped. *)
Theorem range_overflow_refuted :
  snd (walk repaired 5 Fwd 40 (IRange (mkRng 0 9223372036854775807 4611686018427387904))) = WRunaway /\
  range_len repaired (mkRng (-9223372036854775808) 9223372036854775807 4611686018427387904) = 1.
Proof. exact IterProofs.range_overflow_refuted. Qed.
Print Assumptions range_overflow_refuted.
