(* Properties_C12.v — property C12: a failed operation is reported as an exception and changes nothing.
   Statements closed by `exact` or by a few lines in place (raising steps of Table and Tree: every branch of
   the step is inspected, by the tactic `branches` of SeqAccessProofs.v; the handler's start state: unfolding), each followed by Print Assumptions.
   The theorems are about the FAITHFUL container models (the ones whose every slot / cell / node is
   compared with the real library after every operation by the checks of C02, C04, C16): their raising
   steps return the state they were given, whatever the state and the arguments, and outside its
   contract every operation raises exactly the documented exception. *)
From Coq Require Import List Arith NArith ZArith Bool String.
From CelloV Require Import RBTree RBProofs RBRefine IterModel IterSource IterProofs StringModel StringProofs Generated RobinHood TableModel TableProofs ErrorsModel ErrorsProofs ErrorsGlue SeqModels SeqProofs SeqTupleProofs SeqAccessProofs SeqTheorems.
Import ListNotations.

(* Array, List, Tuple: a raising step changes nothing — any state, any operation, any argument *)
Theorem sequence_failed_op_changes_nothing :
  forall (E : Type) (eqb ltb same : E -> E -> bool) (zero : E)
         (gc sc : nat -> nat -> bool) (gs ss : nat -> nat -> nat) (o : sop E) (e : cexn),
  (forall a a', a_step E eqb ltb gc sc gs ss a o = (a', ORaise E e) -> a' = a) /\
  (forall l l', l_step E eqb zero l o = (l', ORaise E e) -> l' = l) /\
  (forall t t', SeqModels.t_step E eqb ltb same t o = (t', ORaise E e) -> t' = t).
Proof.
  exact SeqAccessProofs.raise_unchanged.
Qed.
Print Assumptions sequence_failed_op_changes_nothing.

(* outside the in-range contract the abstract sequence prescribes the documented exception:
   ValueError for an absent element, FormatError for an impossible resize, ClassError for an
   unimplemented class (sort on List), IndexOutOfBoundsError for every index outside the range *)
Theorem sequence_out_of_contract_is_documented :
  forall (E : Type) (eqb ltb : E -> E -> bool) (zero : E) (c : kind) (l : list E) (o : sop E),
  in_range E eqb c l o = false ->
  SeqModels.spec_step E eqb ltb zero c l o =
    (l, ORaise E match o with
                 | SRem _ _ => ValueError | SResize _ _ => FormatError | SSort _ => ClassError
                 | _ => IndexError end).
Proof. intros E eqb ltb zero c l o H. unfold SeqModels.spec_step. rewrite H. reflexivity. Qed.
Print Assumptions sequence_out_of_contract_is_documented.

(* ... and the models follow the abstract sequence along EVERY history, failed operations included:
   after any mixture of valid and invalid operations the container still is the abstract sequence *)
Theorem array_usable_after_failures :
  forall (E : Type) (eqb ltb : E -> E -> bool) (zero : E),
  (forall x y, ltb x y = true -> ltb y x = false) ->
  (forall x y z, ltb x y = true -> ltb y z = true -> ltb x z = true) ->
  forall (ops : list (sop E)) (a : array E),
  a_inv E a ->
  refines_all E eqb ltb zero (array E)
    (a_step E eqb ltb array_grow_cond array_shrink_cond array_grow_size array_shrink_size)
    (a_abs E) (a_inv E) KArray (fun _ _ => True) a ops.
Proof. exact SeqTheorems.array_refines_list_all. Qed.
Print Assumptions array_usable_after_failures.

Theorem list_usable_after_failures :
  forall (E : Type) (eqb ltb : E -> E -> bool) (zero : E) (ops : list (sop E)) (l : llist E),
  l_inv E l ->
  refines_all E eqb ltb zero (llist E) (l_step E eqb zero) (l_abs E) (l_inv E) KList (fun _ _ => True) l ops.
Proof. exact SeqTheorems.list_refines_list_all. Qed.
Print Assumptions list_usable_after_failures.

Theorem tuple_usable_after_failures :
  forall (E : Type) (eqb ltb same : E -> E -> bool) (zero : E),
  (forall x y, ltb x y = true -> ltb y x = false) ->
  (forall x y z, ltb x y = true -> ltb y z = true -> ltb x z = true) ->
  (forall x, same x x = true) ->
  (forall x y, eqb x y = eqb y x) ->
  forall (ops : list (sop E)) (t : tuple E),
  t_inv E same t ->
  refines_all E eqb ltb zero (tuple E) (SeqModels.t_step E eqb ltb same) (t_abs E) (t_inv E same) KTuple
              (t_fresh E same) t ops.
Proof. exact SeqTheorems.tuple_refines_list_all. Qed.
Print Assumptions tuple_usable_after_failures.

(* Table: a raising step (KeyError of get/rem, FormatError of an impossible resize) changes nothing,
   for every hash function, displacement rule, prime table and state *)
Theorem table_failed_op_changes_nothing :
  forall (K V : Type) (keq : K -> K -> bool) (hash : K -> N) (swap : nat -> nat -> bool)
         (primes : list N) (num den : N) (t t' : TableModel.table K V) (o : TableModel.op K V) (e : cexn),
  TableModel.t_step K V keq hash swap primes num den t o = (t', TableModel.ORaise V e) -> t' = t.
Proof.
  intros K V keq hash swap primes num den t t' o e. destruct o; simpl; branches.
Qed.
Print Assumptions table_failed_op_changes_nothing.

(* Table: after any history, get or rem of an absent key raises KeyError (and changes nothing) *)
Theorem table_absent_key_raises_keyerror : forall (K V : Type) (keq : K -> K -> bool) (hash : K -> N),
  (forall a b, keq a b = true <-> a = b) ->
  forall (ops : list (TableModel.op K V)) (k : K),
  let t := T_run K V keq hash ops in
  let m := TableModel.spec_run K V keq ops [] in
  a_get K V keq m k = None ->
  T_step K V keq hash t (TGet K V k) = (t, TableModel.ORaise V KeyError) /\
  T_step K V keq hash t (TRem K V k) = (t, TableModel.ORaise V KeyError).
Proof. exact TableProofs.T_absent_keyerror. Qed.
Print Assumptions table_absent_key_raises_keyerror.

(* Tree: a raising step (KeyError, FormatError) returns the tree it was given *)
Theorem tree_failed_op_changes_nothing :
  forall (K V : Type) (cmp : K -> K -> comparison) (us : bool -> bool -> bool) (t t' : RBTree.rbt K V) (o : RBTree.op K V) (e : RBTree.texn),
  RBTree.t_step K V cmp us t o = (t', RBTree.ORaise V e) -> t' = t.
Proof.
  intros K V cmp us t t' o e. destruct o; unfold RBTree.t_step, RBTree.lift; branches.
Qed.
Print Assumptions tree_failed_op_changes_nothing.

(* Tree: every step agrees with the ordered-map specification, which prescribes KeyError for an absent key and
   FormatError for resize(n > 0) and leaves the map unchanged in both cases *)
Theorem tree_step_follows_spec : forall (K V : Type) (cmp : K -> K -> comparison) (us : bool -> bool -> bool), RBRefine.total_order cmp ->
  forall (t : RBTree.rbt K V) (o : RBTree.op K V), RBRefine.rb_inv K V cmp t ->
    RBRefine.rb_inv K V cmp (fst (RBTree.t_step K V cmp us t o)) /\
    RBRefine.abs K V (fst (RBTree.t_step K V cmp us t o)) = fst (RBTree.spec_step K V cmp (RBRefine.abs K V t) o) /\
    snd (RBTree.t_step K V cmp us t o) = snd (RBTree.spec_step K V cmp (RBRefine.abs K V t) o).
Proof. intros K V cmp us TO. exact (step_refines_total K V cmp us (RBRefine.total_order_pre TO)). Qed.
Print Assumptions tree_step_follows_spec.

(* Range: get is total over every int64 key: inside the range the value, outside IndexOutOfBoundsError
   (a Range has no state to change) *)
Theorem range_get_outside_raises_index_error : forall r key, IterProofs.in_box r -> (- IterModel.two63 <= key < IterModel.two63)%Z ->
  IterModel.range_get IterModel.repaired r key =
  let i := if (key <? 0)%Z then (IterProofs.range_count r + key)%Z else key in
  if ((0 <=? i) && (i <? IterProofs.range_count r))%Z then IterModel.OVal (IterProofs.range_val r i) else IterModel.ORaise IterModel.EIndex.
Proof. exact IterProofs.range_get_ok. Qed.
Print Assumptions range_get_outside_raises_index_error.

(* String: rem of a substring that does not occur raises ValueError and the string is unchanged;
   the allocation model follows the abstract string along every history (C16_history_refines) *)
Theorem string_rem_absent_raises_and_changes_nothing : forall v s,
  (forall i, ~ StringProofs.occurs v s i) -> StringModel.spec_step s (StringModel.ORem v) = (s, StringModel.SRaise StringModel.SValueError).
Proof. exact spec_rem_absent. Qed.
Print Assumptions string_rem_absent_raises_and_changes_nothing.

Theorem string_model_follows_spec_on_every_history : forall v0 ops, StringModel.nulfree v0 -> Forall StringModel.op_ok ops ->
  exists b0 bf, StringProofs.c_new v0 = Some b0 /\ StringProofs.c_run b0 ops = (fst (StringModel.spec_run v0 ops), bf) /\
                StringModel.repr bf (snd (StringModel.spec_run v0 ops)).
Proof. exact c_history_refines. Qed.
Print Assumptions string_model_follows_spec_on_every_history.

(* the shape "validate every argument, then mutate": if any guard fails the state is returned as it
   was together with the first failing guard's exception; the body runs only when all guards pass *)
Theorem guarded_operation_is_atomic : forall (S X : Type) (o : gop S X) (s s' : S) (e : X),
  run_gop S X o s = (s', Some e) -> s' = s /\ first_failure S X (guards S X o) s = Some e.
Proof. exact run_gop_atomic. Qed.
Print Assumptions guarded_operation_is_atomic.

(* static tie, re-extracted from src/*.c on every run (tools/genx_err.py): in every function that checks its
   arguments (bounds, NULL, allocation class, method, magic number under the CELLO_*_CHECK switches, or a type
   cast) no mutating statement precedes the last such check — the C functions have the guarded shape above *)
Theorem argument_checks_precede_mutation_in_the_source :
  forallb (fun r => snd r) err_guard_order = true /\ 30 <= List.length err_guard_order.
Proof. vm_compute. split; [reflexivity|]. repeat constructor. Qed.
Print Assumptions argument_checks_precede_mutation_in_the_source.

(* the contract table of the failed-operation matrix names only the exceptions the property documents *)
Definition documented_exn (e : cexn) : bool :=
  match e with
  | IndexError | KeyError | ValueError | TypeError | ClassError | FormatError | ResourceError => true
  | _ => false
  end.
Theorem contract_names_documented_exceptions :
  forallb (fun r => match snd r with [] => false | es => forallb documented_exn es end) contract = true.
Proof. vm_compute. reflexivity. Qed.
Print Assumptions contract_names_documented_exceptions.

(* C12 meets C07 (ErrorsGlue.v): programs of guarded operations and try/catch blocks, run on the exception MACHINE
   of Exn.v (the macro expansion over struct Exception, constants taken from the source).  From a fresh thread and
   for every program within the nesting bound: the operations that took effect are exactly those the direct reading
   [crun] performs, the block depth is back to 0, and the run ends normally unless an exception nobody accepts is
   left — then the thread dies with exactly that object. *)
Theorem failed_operation_under_try_catch_on_the_machine : forall (S : Type) (p : ErrorsGlue.cprog S) (s : S),
  ErrorsGlue.cnesting S p <= exc_max_depth ->
  let '(tr, r, st') := ExnProofs.mach (ErrorsGlue.compile S p s) Exn.st_init in
  ErrorsGlue.ticks tr = ErrorsGlue.cdone S p s /\ Exn.depth st' = 0 /\
  r = match snd (ErrorsGlue.crun S p s) with None => Exn.MNormal | Some e => Exn.MDied (Some e) 1 end.
Proof. exact ErrorsGlue.machine_runs_compiled. Qed.
Print Assumptions failed_operation_under_try_catch_on_the_machine.

(* ... and the handler that accepts the exception of a failed operation continues from exactly the state in which
   the operation was attempted (everything the body did before it is kept, the failed operation left no trace) *)
Theorem handler_continues_from_the_state_of_the_failed_attempt :
  forall (S : Type) (pre : ErrorsGlue.cprog S) n (o : gop S nat) fs h s e,
  snd (ErrorsGlue.crun S pre s) = None ->
  first_failure S nat (guards S nat o) (fst (ErrorsGlue.crun S pre s)) = Some e ->
  Exn.matches fs e = true ->
  ErrorsGlue.crun S (ErrorsGlue.CTry S (ErrorsGlue.CSeq S pre (ErrorsGlue.COp S n o)) fs h) s
  = ErrorsGlue.crun S h (fst (ErrorsGlue.crun S pre s)).
Proof.
  intros S pre n o fs h s e Hpre He Hm. cbn [ErrorsGlue.crun].
  destruct (ErrorsGlue.crun S pre s) as [s1 r1]. cbn [fst snd] in *. subst r1.
  unfold run_gop. rewrite He, Hm. reflexivity.
Qed.
Print Assumptions handler_continues_from_the_state_of_the_failed_attempt.

(* non-vacuity: a counter that refuses to go below 0; the second decrement fails inside try, the handler increments *)
Example failed_operation_under_try_catch_nonvacuous :
  let dec := mkG nat nat [fun s => if s =? 0 then Some 30 else None] pred in
  let inc := mkG nat nat [] Datatypes.S in
  let p := ErrorsGlue.CTry nat (ErrorsGlue.CSeq nat (ErrorsGlue.COp nat 1 dec) (ErrorsGlue.COp nat 2 dec)) [31] (ErrorsGlue.COp nat 3 inc) in
  ErrorsGlue.crun nat p 1 = (1, None) /\ ErrorsGlue.cdone nat p 1 = [1; 3] /\
  fst (ExnProofs.mach (ErrorsGlue.compile nat p 1) Exn.st_init) = ([Exn.ETick 1 1; Exn.EHandler 30 1 0; Exn.ETick 3 0], Exn.MNormal).
Proof. vm_compute. repeat split. Qed.
