(* SeqTupleProofs.v — Tuple (pointer array with Terminal sentinel, length by scanning, iteration
   by pointer identity) refines the abstract sequence, provided the stored pointers are pairwise
   distinct; with a repeated pointer iteration never ends (finding F3).  Property C04. *)
From Coq Require Import List Arith Bool ZArith Lia Permutation Sorted.
From CelloV Require Import ListFacts SeqModels SeqProofs.
Import ListNotations.

Section TupleRefines.
  Variable E : Type.
  Variable eqb ltb same : E -> E -> bool.
  Variable zero : E.
  Hypothesis same_refl : forall x, same x x = true.
  Hypothesis eqb_sym : forall x y, eqb x y = eqb y x.
  (* discharged by SortProofs.qsort_correct for an asymmetric, transitive ltb *)
  Hypothesis qsort_ok : forall xs : list E,
    exists ys, qsort ltb xs = Ok ys /\ Permutation xs ys /\ sorted_by_ltb E ltb ys.

  Notation t_step := (t_step E eqb ltb same).
  Notation spec_step := (spec_step E eqb ltb zero).
  Notation spec_ok := (spec_ok E eqb ltb zero).
  Notation in_range := (in_range E eqb).
  Notation TObjE := (@TObj E).
  Notation TTermE := (@TTerm E).
  Notation TJunkE := (@TJunk E).
  Notation distinct := (distinct E same).
  Notation new_to := (new_to E same).

  Lemma distinct_app a b :
    distinct (a ++ b) <->
    distinct a /\ distinct b /\ (forall x y, In x a -> In y b -> same x y = false /\ same y x = false).
  Proof.
    induction a as [|z a IH]; simpl; [intuition|]. rewrite IH. setoid_rewrite in_app_iff. split.
    - intros (Hz & Ha & Hb & Hab). split; [split; auto | split; [exact Hb|]]. intros x y [<-|Hx] Hy; auto.
    - intros ((Hz & Ha) & Hb & Hab). split; [intros y [Hy|Hy]; auto | auto].
  Qed.

  Lemma distinct_perm a b : Permutation a b -> distinct a -> distinct b.
  Proof.
    induction 1 as [|x a b Hp IH|x y a|a b c H1 IH1 H2 IH2]; simpl; auto.
    - intros [Hx Ha]. split; [|auto]. intros y Hy. apply Hx. eapply Permutation_in; [symmetry|]; eauto.
    - intros (Hy & Hx & Ha).
      split; [|split; [|exact Ha]].
      + intros z [<-|Hz]; [destruct (Hy x (or_introl eq_refl)); auto | apply Hx; auto].
      + intros z Hz. apply Hy. right. exact Hz.
  Qed.

  Lemma distinct_insert a b v : distinct (a ++ b) -> new_to (a ++ b) v -> distinct (a ++ v :: b).
  Proof.
    intros Hd Hn. apply (distinct_perm (v :: a ++ b)); [apply Permutation_middle|].
    split; [|exact Hd]. intros y Hy. apply and_comm, Hn, Hy.
  Qed.

  Lemma distinct_delete a x b : distinct (a ++ x :: b) -> distinct (a ++ b).
  Proof. intros Hd. apply (distinct_perm _ (x :: a ++ b)) in Hd; [apply Hd | symmetry; apply Permutation_middle]. Qed.

  (* a heap tuple holding the pointers vs; an invariant state is `tup vs` with vs distinct *)
  Definition tup (vs : list E) : tuple E := mkTu E (map TObjE vs ++ [TTermE]) true.

  Lemma t_inv_tup t : t_inv E same t <-> exists vs, t = tup vs /\ distinct vs.
  Proof.
    split.
    - intros (Hh & vs & Hi & Hd). exists vs. destruct t. cbn in *. subst. auto.
    - intros (vs & -> & Hd). split; [reflexivity | exists vs; auto].
  Qed.

  Lemma t_len_items (vs : list E) rest i :
    t_len_from E (map TObjE vs ++ TTermE :: rest) i = Some (i + length vs).
  Proof.
    revert i. induction vs as [|v vs IH]; intros i; simpl; [f_equal; lia|].
    rewrite IH. f_equal. lia.
  Qed.

  Lemma t_objs_items (vs : list E) rest : t_objs E (map TObjE vs ++ rest) (length vs) = Some vs.
  Proof. induction vs as [|v vs IH]; simpl; [reflexivity | rewrite IH; reflexivity]. Qed.

  Lemma t_len_tup vs : t_len E (tup vs) = Some (length vs).
  Proof. apply t_len_items. Qed.

  Lemma t_abs_tup vs : t_abs E (tup vs) = vs.
  Proof. unfold t_abs. rewrite t_len_tup. cbn [tup titems]. rewrite t_objs_items. reflexivity. Qed.

  Lemma t_find_items (vs : list E) rest i v :
    t_find E eqb (map TObjE vs ++ TTermE :: rest) i v = Some (find_first E eqb vs i v).
  Proof.
    revert i. induction vs as [|x vs IH]; intros i; simpl; [reflexivity|].
    rewrite (eqb_sym v x). destruct (eqb x v); [reflexivity | apply IH].
  Qed.

  (* the item under the cursor when b is still to visit *)
  Definition head_of (b : list E) : titem E :=
    match b with [] => TTermE | x :: _ => TObjE x end.

  Lemma t_next_items a x b :
    distinct (a ++ x :: b) ->
    t_next E same (titems E (tup (a ++ x :: b))) x = Some (head_of b).
  Proof.
    intros Hd. induction a as [|z a IH]; simpl.
    - rewrite same_refl. destruct b; reflexivity.
    - simpl in Hd. destruct Hd as [Hz Hd].
      destruct (Hz x) as [H1 _]; [apply in_or_app; simpl; auto|]. rewrite H1. apply IH. exact Hd.
  Qed.

  Lemma t_iter_loop_items : forall b a fuel,
    distinct (a ++ b) -> length b < fuel ->
    t_iter_loop E same fuel (titems E (tup (a ++ b))) (head_of b) (rev a) = Ok (a ++ b).
  Proof.
    induction b as [|x b IH]; intros a [|fuel] Hd Hf; try (simpl in Hf; lia).
    - simpl. rewrite rev_involutive, app_nil_r. reflexivity.
    - cbn [t_iter_loop head_of]. rewrite t_next_items by exact Hd.
      specialize (IH (a ++ [x]) fuel). rewrite <- app_assoc, rev_unit in IH. apply IH; [exact Hd | simpl in Hf; lia].
  Qed.

  Lemma t_mem_loop_items v : forall b a fuel,
    distinct (a ++ b) -> length b < fuel ->
    t_mem_loop E eqb same fuel (titems E (tup (a ++ b))) (head_of b) v = Ok (existsb (fun x => eqb x v) b).
  Proof.
    induction b as [|x b IH]; intros a [|fuel] Hd Hf; try (simpl in Hf; lia); [reflexivity|].
    cbn [t_mem_loop head_of existsb]. destruct (eqb x v); [reflexivity|]. simpl orb.
    rewrite t_next_items by exact Hd.
    specialize (IH (a ++ [x]) fuel). rewrite <- app_assoc in IH. apply IH; [exact Hd | simpl in Hf; lia].
  Qed.

  (* the fuel S |items| of t_iter and of mem exceeds the number of elements *)
  Lemma head_items vs : exists r, titems E (tup vs) = head_of vs :: r /\ length vs < S (length (head_of vs :: r)).
  Proof.
    assert (length vs < S (length (titems E (tup vs)))) by (cbn; len).
    destruct vs; cbn in *; eauto.
  Qed.

  Theorem t_iter_tup vs : distinct vs -> t_iter E same (tup vs) = Ok vs.
  Proof.
    intros Hd. unfold t_iter, t_iter_fuel. destruct (head_items vs) as (r & Hr & Hl).
    pose proof (t_iter_loop_items vs [] _ Hd Hl) as H. cbn [app] in H. rewrite Hr in *. exact H.
  Qed.

  (* on the invariant state holding vs, operation o does what the specification says, inside the
     contract and outside *)
  Definition t_follows (vs : list E) (o : sop E) : Prop :=
    t_step (tup vs) o = (tup (fst (spec_step KTuple vs o)), snd (spec_step KTuple vs o)).
  (* unfolds t_follows and the step of the model and of the specification at the operation, Tuple_Len computed, so
     that both sides show their range tests *)
  Ltac open_spec :=
    red; unfold SeqModels.t_step, SeqModels.spec_step; rewrite t_len_tup;
    cbn [SeqModels.in_range push_at_pos theap tup negb].

  (* what realloc makes of the items array when it grows by k units *)
  Lemma realloc_tup vs k :
    realloc TJunkE (titems E (tup vs)) (length vs + S k) = map TObjE vs ++ TTermE :: repeat TJunkE k.
  Proof.
    cbn [tup titems]. rewrite realloc_app_ge, map_length by len.
    replace (length vs + S k - length vs) with (S k) by lia. unfold realloc. cbn. rewrite firstn_nil, Nat.sub_0_r.
    reflexivity.
  Qed.

  Lemma t_push_ok vs v : t_follows vs (SPush E v).
  Proof.
    open_spec. cbn [fst snd]. rewrite (realloc_tup vs 1), write_all_block by (cbn; lia).
    unfold tup. rewrite map_app, <- app_assoc. reflexivity.
  Qed.

  Lemma t_pop_ok vs : t_follows vs (SPop E).
  Proof.
    open_spec. destruct vs as [|x vs _] using rev_ind; [reflexivity|].
    rewrite removelast_last, last_length. cbn [tup titems Nat.eqb negb fst snd].
    rewrite Nat.sub_succ, Nat.sub_0_r, realloc_le by len.
    replace (S (length vs)) with (length (map TObjE (vs ++ [x]))) by len.
    rewrite firstn_app_len, map_app. cbn [map]. rewrite set_at_block_end. reflexivity.
  Qed.

  Lemma t_push_at_ok vs k v : t_follows vs (SPushAt E k v).
  Proof.
    open_spec. index_case Hlt; [|reflexivity]. set (p := Z.to_nat _) in *. clearbody p.
    rewrite (realloc_tup vs 1). destruct (split_le E vs p) as (a & b & -> & <-); [lia|].
    rewrite insert_at_app, !map_app, <- !app_assoc, app_length.
    destruct (memmove_insert _ (map TObjE a) (map TObjE b ++ [TTermE]) TJunkE [] (TObjE v)) as (l1 & Hm & Hs).
    rewrite app_length, !map_length, <- !app_assoc in Hm. rewrite map_length, app_nil_r in Hs. cbn [length app repeat] in Hm |- *.
    replace (length a + length b - length a + 1) with (length b + 1) by lia. rewrite Hm, Hs.
    unfold tup. rewrite map_app, <- app_assoc. reflexivity.
  Qed.

  Lemma t_pop_pos_ok vs p :
    p < length vs -> t_pop_pos E (tup vs) (length vs) p = (tup (remove_at E p vs), OUnit E).
  Proof.
    intros Hp. unfold t_pop_pos. cbn [theap tup titems negb].
    destruct (memmove_delete_block E _ TObjE vs [TTermE] p 1 Hp (le_n 1)) as [y Hm].
    replace (length vs - p) with (length vs - S p + 1) by lia. rewrite Hm. cbn [firstn skipn app].
    pose proof (remove_at_length E p vs Hp) as Hl.
    rewrite realloc_le by len. change [TTermE; y] with ([TTermE] ++ [y]). rewrite app_assoc.
    assert (Hn : length vs = length (map TObjE (remove_at E p vs) ++ [TTermE])) by len.
    rewrite Hn, firstn_app_len. reflexivity.
  Qed.

  Lemma t_pop_at_ok vs k : t_follows vs (SPopAt E k).
  Proof.
    open_spec. unfold t_pop_at. index_case Hlt; [|reflexivity]. apply t_pop_pos_ok, Hlt.
  Qed.

  Lemma t_set_ok vs k v : t_follows vs (SSet E k v).
  Proof.
    open_spec. index_case Hlt; [|reflexivity]. cbn [tup titems]. rewrite set_at_block by exact Hlt. reflexivity.
  Qed.

  Lemma t_get_ok vs k : t_follows vs (SGet E k).
  Proof.
    open_spec. index_case Hlt; [|reflexivity]. cbn [tup titems]. rewrite nth_error_block by exact Hlt.
    destruct (nth_error vs _) eqn:Hv; [reflexivity | apply nth_error_None in Hv; lia].
  Qed.

  Lemma t_mem_ok vs v : distinct vs -> t_follows vs (SMem E v).
  Proof.
    intros Hd. open_spec. cbn [fst snd]. destruct (head_items vs) as (r & Hr & Hl).
    pose proof (t_mem_loop_items v vs [] _ Hd Hl) as H. cbn [app] in H. rewrite Hr in *. rewrite H. reflexivity.
  Qed.

  Lemma t_rem_ok vs v : t_follows vs (SRem E v).
  Proof.
    open_spec. cbn [tup titems]. rewrite t_find_items. pose proof (find_first_spec E eqb vs 0 v) as Hf.
    destruct (find_first E eqb vs 0 v) as [q|]; [|rewrite Hf; reflexivity].
    destruct Hf as (p & -> & Hp & -> & ->). cbn [negb fst snd].
    unfold t_pop_at. rewrite norm_nat, oob_inb, inb_nat, Nat2Z.id by exact Hp. apply t_pop_pos_ok, Hp.
  Qed.

  Lemma t_concat_ok vs ws : t_follows vs (SConcat E ws).
  Proof.
    open_spec. cbn [fst snd].
    replace (length vs + 1 + length ws) with (length vs + S (length ws)) by lia.
    rewrite realloc_tup, write_all_block by len.
    destruct (skipn_shift _ (repeat TJunkE (length ws)) TTermE []) as [y Hy].
    rewrite repeat_length, app_nil_r, map_length in *. rewrite Hy, app_assoc, <- map_app.
    rewrite <- (app_length vs ws), set_at_block_end. reflexivity.
  Qed.

  Lemma t_resize_ok vs m : t_follows vs (SResize E m).
  Proof.
    open_spec. destruct (Nat.ltb_spec m (length vs)) as [Hlt|_]; cbn [negb fst snd tup titems]; [|reflexivity].
    rewrite realloc_le, firstn_app, firstn_map, map_length by len.
    replace (m + 1 - length vs) with 0 by lia. cbn [firstn]. rewrite app_nil_r.
    destruct (split_at E vs m Hlt) as (a & x & b & -> & <-).
    rewrite firstn_app_2, firstn_app_len, map_app. cbn [firstn map].
    rewrite set_at_block_end. reflexivity.
  Qed.

  Lemma t_sort_ok vs :
    exists ys, t_step (tup vs) (SSort E) = (tup ys, OUnit E) /\ Permutation vs ys /\ sorted_by_ltb E ltb ys.
  Proof.
    unfold SeqModels.t_step. rewrite t_len_tup. cbn [tup titems theap].
    rewrite t_objs_items, skipn_block. destruct (qsort_ok vs) as (ys & -> & H). exists ys. auto.
  Qed.

  Theorem t_step_spec vs o : distinct vs -> o <> SSort E -> t_follows vs o.
  Proof.
    intros Hd Ho. destruct o.
    - apply t_push_ok.
    - apply t_pop_ok.
    - apply t_push_at_ok.
    - apply t_pop_at_ok.
    - apply t_set_ok.
    - apply t_get_ok.
    - apply t_mem_ok, Hd.
    - apply t_rem_ok.
    - apply t_concat_ok.
    - exact (t_push_ok vs v).
    - apply t_resize_ok.
    - congruence.
    - open_spec. rewrite write_all_full by (rewrite realloc_length; len). reflexivity.
    - open_spec. cbn [tup titems]. rewrite t_objs_items. reflexivity.
  Qed.

  (* the specification keeps the pointers distinct when the stored ones are new *)
  Lemma spec_distinct vs o :
    distinct vs -> t_fresh E same vs o -> o <> SSort E -> distinct (fst (spec_step KTuple vs o)).
  Proof.
    intros Hd Hfr Ho. unfold SeqModels.spec_step.
    destruct (in_range KTuple vs o) eqn:Hin; cbn [negb fst]; [|exact Hd].
    assert (Hrm : forall p, p < length vs -> distinct (remove_at E p vs)).
    { intros p Hp. destruct (split_at E vs p Hp) as (a & x & b & -> & <-).
      rewrite remove_at_app. eapply distinct_delete, Hd. }
    assert (Hfn : forall n, distinct (firstn n vs)).
    { intros n. rewrite <- (firstn_skipn n vs) in Hd. apply distinct_app in Hd. tauto. }
    destruct o; cbn in Hin, Hfr; try discriminate Hin; cbn [fst snd]; auto.   (* closes mem, resize, assign, copy *)
    - (* push *) apply (distinct_insert vs [] v); rewrite app_nil_r; assumption.
    - (* pop *) rewrite removelast_firstn_len. apply Hfn.
    - (* push_at *) unfold push_at_pos in *. destruct (inb _ _) eqn:Hi; [|discriminate]. apply index_ok in Hi as [_ Hi].
      destruct (split_le E vs _ (Nat.lt_le_incl _ _ Hi)) as (a & b & -> & <-).
      rewrite insert_at_app. apply distinct_insert; assumption.
    - (* pop_at *) apply Hrm, index_ok, Hin.
    - (* set *) apply index_ok in Hin as [_ Hi]. destruct (split_at E vs _ Hi) as (a & x & b & -> & <-).
      rewrite replace_at_app. apply distinct_insert; [eapply distinct_delete, Hd|].
      intros y Hy. apply Hfr. apply in_app_or in Hy as [Hy|Hy]; apply in_or_app; simpl; auto.
    - (* get *) destruct (nth_error vs _); exact Hd.
    - (* rem *) pose proof (find_first_spec E eqb vs 0 v) as Hf. destruct (find_first E eqb vs 0 v); [|congruence].
      destruct Hf as (p & _ & Hp & -> & _). apply Hrm, Hp.
    - (* concat *) destruct Hfr as [Hw Hn]. apply distinct_app. split; [exact Hd|]. split; [exact Hw|].
      intros x y Hx Hy. apply (Hn y Hy x Hx).
    - (* append *) apply (distinct_insert vs [] v); rewrite app_nil_r; assumption.
    - (* sort *) congruence.
  Qed.

  Theorem t_step_ok (t : tuple E) (o : sop E) :
    t_inv E same t -> t_fresh E same (t_abs E t) o ->
    t_inv E same (fst (t_step t o)) /\
    spec_ok KTuple (t_abs E t) o (t_abs E (fst (t_step t o))) (snd (t_step t o)).
  Proof.
    intros Hi Hfr. apply t_inv_tup in Hi as (vs & -> & Hd). rewrite t_abs_tup in *.
    destruct (sort_or_not E o) as [->|Ho].
    - destruct (t_sort_ok vs) as (ys & -> & Hp & Hs). cbn [fst snd]. rewrite t_abs_tup.
      split; [apply t_inv_tup; exists ys; eauto using distinct_perm | cbn; auto].
    - pose proof (t_step_spec vs o Hd Ho) as Hs. red in Hs. rewrite Hs. cbn [fst snd]. rewrite t_abs_tup. split.
      + apply t_inv_tup. eexists. split; [reflexivity | apply spec_distinct; assumption].
      + apply spec_ok_step. auto.
  Qed.

  Theorem t_observe (t : tuple E) :
    t_inv E same t ->
    t_len E t = Some (length (t_abs E t)) /\ t_iter E same t = Ok (t_abs E t).
  Proof.
    intros Hi. apply t_inv_tup in Hi as (vs & -> & Hd). rewrite t_abs_tup.
    split; [apply t_len_tup | apply t_iter_tup, Hd].
  Qed.

  (* finding F3: with the same pointer twice the cursor never gets past the second occurrence *)
  Lemma t_iter_repeated (p : E) :
    same p p = true ->
    forall fuel, t_iter_fuel E same fuel (mkTu E [TObjE p; TObjE p; TTermE] true) = Fuel.
  Proof.
    intros Hp fuel. unfold t_iter_fuel. cbn [titems]. generalize (@nil E).
    induction fuel as [|fu IH]; intros acc; [reflexivity|].
    cbn [t_iter_loop t_next]. rewrite Hp. apply IH.
  Qed.

  Theorem t_iter_repeated_pointer_diverges (p : E) :
    forall fuel, t_iter_fuel E same fuel (mkTu E [TObjE p; TObjE p; TTermE] true) = Fuel.
  Proof. apply t_iter_repeated, same_refl. Qed.
End TupleRefines.
