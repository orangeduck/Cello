(* ExnProofs.v — proofs about the exception machine of Exn.v (property C07). *)
From Coq Require Import String List Arith Bool Lia.
From CelloV Require Import Generated Exn.
Import ListNotations.

(* Token strings found in the source against the shapes the machine encodes: decided by
   computation.  The lemma is generic so that the comparison itself sits in Properties_C07.v: a
   changed macro or signal table breaks that one obligation and nothing else. *)
Lemma strings_equal_dec : forall l : list (string * string),
  if forallb (fun p => String.eqb (fst p) (snd p)) l
  then Forall (fun p => fst p = snd p) l else True.
Proof.
  intros l. destruct (forallb _ l) eqn:H; [|exact I].
  rewrite forallb_forall in H. apply Forall_forall.
  intros p Hin. apply String.eqb_eq. now apply H.
Qed.

(* The library's exception kinds (`var NAME = CelloEmpty(ARG);`): exception_catch matches by eq and
   Type objects compare by their name, which is ARG; so every kind must carry its own variable's
   name and the names must be pairwise distinct.  Decided by computation, like the shapes. *)
Fixpoint nodupb (l : list string) : bool :=
  match l with
  | [] => true
  | x :: r => negb (existsb (String.eqb x) r) && nodupb r
  end.

Lemma nodupb_NoDup : forall l, nodupb l = true -> NoDup l.
Proof.
  induction l as [|x r IH]; intros H; [constructor|].
  cbn in H. apply andb_true_iff in H. destruct H as (Hx & Hr). constructor; [|now apply IH].
  intros Hin. apply negb_true_iff in Hx.
  assert (existsb (String.eqb x) r = true) by (apply existsb_exists; exists x; split; [exact Hin | apply String.eqb_refl]).
  congruence.
Qed.

Lemma kinds_ok_dec : forall l : list (string * string),
  if forallb (fun p => String.eqb (fst p) (snd p)) l && nodupb (map snd l)
  then Forall (fun p => fst p = snd p) l /\ NoDup (map snd l) else True.
Proof.
  intros l. pose proof (strings_equal_dec l) as H. destruct (forallb _ l); [|exact I].
  cbn [andb]. destruct (nodupb (map snd l)) eqn:Hn; [|exact I]. split; [exact H | now apply nodupb_NoDup].
Qed.

Lemma jump_or_die_not_normal : forall st, jump_or_die st <> MNormal.
Proof. intros st; unfold jump_or_die; destruct (bufs st); discriminate. Qed.

Lemma matches_spec : forall fs k, matches fs k = true <-> accepts fs k.
Proof.
  intros fs k. unfold matches, accepts. destruct fs as [|f fs']; [now split; auto|].
  rewrite existsb_exists. setoid_rewrite Nat.eqb_eq. split; [now right | now intros [E|H]].
Qed.

Lemma matches_false_spec : forall fs k, matches fs k = false <-> rejects fs k.
Proof.
  intros fs k. rewrite <- not_true_iff_false, matches_spec. unfold accepts, rejects. split.
  - intros H. split; [intros E | intros f Hin Heq]; apply H; eauto.
  - intros (Hne & Hnin) [E | (f & Hin & Heq)]; [exact (Hne E) | exact (Hnin f Hin Heq)].
Qed.

Lemma ref_run_sound : forall p d c, let '(t, r, c') := ref_run d c p in eval d c p t r c'.
Proof.
  induction p as [ | n | p IHp q IHq | k m f IHf | b IHb fs h IHh | k0 | p IHp ]; intros d c; cbn [ref_run].
  - constructor.
  - constructor.
  - generalize (IHp d c). destruct (ref_run d c p) as [[t1 [|k m|k]] c1]; intros E1;
      [|apply EvSeqStop; [exact E1 | discriminate] ..].
    generalize (IHq d c1). destruct (ref_run d c1 q) as [[t2 r2] c2]. intros E2. eapply EvSeqNormal; eassumption.
  - generalize (IHf d c). destruct (ref_run d c f) as [[t1 r1] c1]; intros E1.
    destruct (rfn_end r1) eqn:Hr;
      [eapply EvThrow; eassumption | rewrite <- Hr; apply EvThrowEscaped; [exact E1 | rewrite Hr; discriminate] ..].
  - generalize (IHb (S d) c). destruct (ref_run (S d) c b) as [[t1 [|k m|k]] c1]; intros E1.
    + now apply EvTryNormal.
    + destruct (matches fs k) eqn:Hm.
      * generalize (IHh d c1). destruct (ref_run d c1 h) as [[t2 r2] c2]; intros E2.
        eapply EvTryHandled; [exact E1 | now apply matches_spec | exact E2].
      * apply EvTryPassed; [exact E1 | now apply matches_false_spec].
    + now apply EvTryLeft.
  - constructor.
  - generalize (IHp d c). destruct (ref_run d c p) as [[t1 r1] c1]. intros E1. now constructor.
Qed.

Lemma ref_run_eval : forall p d c t r c', ref_run d c p = (t, r, c') -> eval d c p t r c'.
Proof. intros p d c t r c' H. generalize (ref_run_sound p d c). now rewrite H. Qed.

Lemma eval_ref_run : forall d c p t r c', eval d c p t r c' -> ref_run d c p = (t, r, c').
Proof.
  induction 1; cbn [ref_run]; try reflexivity.
  - now rewrite IHeval1, IHeval2.
  - rewrite IHeval. now destruct r.
  - now rewrite IHeval, H0.
  - rewrite IHeval. now destruct (rfn_end r1).
  - now rewrite IHeval.
  - now rewrite IHeval.
  - apply matches_spec in H0. now rewrite IHeval1, H0, IHeval2.
  - apply matches_false_spec in H0. now rewrite IHeval, H0.
  - now rewrite IHeval.
Qed.

Lemma eval_iff_ref_run : forall d c p t r c', eval d c p t r c' <-> ref_run d c p = (t, r, c').
Proof. intros. split; [apply eval_ref_run | apply ref_run_eval]. Qed.

(* A try block enters its handler exactly when its body lets an exception escape that its filter
   accepts; the handler is then entered once, with that exception bound; the block ends as the
   handler ends (a handler left by break / continue ends the block normally). *)
Lemma handler_runs_iff : forall d c b fs h t r c',
  eval d c (PTry b fs h) t r c' ->
  forall t1 r1 c1, eval (S d) c b t1 r1 c1 ->
  ((exists k m, r1 = RRaised k m /\ accepts fs k) <->
   (exists k m t2, t = t1 ++ EHandler k m d :: t2)) /\
  (forall k m t2, t = t1 ++ EHandler k m d :: t2 ->
     r1 = RRaised k m /\ exists r2, eval d c1 h t2 r2 c' /\ r = rhandler_end r2).
Proof.
  intros d c b fs h t r c' He t1 r1 c1 Hb.
  (* either the handler stayed out, or it ran on the exception the body let escape *)
  assert (D : (t = t1 /\ forall k m, r1 = RRaised k m -> ~ accepts fs k) \/
              exists k m t2 r2, r1 = RRaised k m /\ accepts fs k /\ t = t1 ++ EHandler k m d :: t2 /\
                                eval d c1 h t2 r2 c' /\ r = rhandler_end r2).
  { apply eval_ref_run in He. apply eval_ref_run in Hb. cbn [ref_run] in He. rewrite Hb in He.
    destruct r1 as [|k m|k]; [| destruct (matches fs k) eqn:Hm |].
    - injection He as <- <- <-. left. split; [reflexivity | discriminate].
    - destruct (ref_run d c1 h) as [[t2 r2] c2] eqn:Rh. injection He as <- <- <-.
      right. exists k, m, t2, r2. apply matches_spec in Hm. apply ref_run_eval in Rh. auto.
    - injection He as <- <- <-. left. split; [reflexivity|].
      intros k' m' E Ha. injection E as <- <-. apply matches_spec in Ha. congruence.
    - injection He as <- <- <-. left. split; [reflexivity | discriminate]. }
  assert (Hnil : forall x l', t1 <> t1 ++ x :: l').
  { intros x l' E. rewrite <- app_nil_r in E at 1. now apply app_inv_head in E. }
  destruct D as [(-> & Hno) | (k & m & t2 & r2 & -> & Ha & -> & Hh & ->)].
  - split; [split|].
    + intros (k & m & -> & Ha). destruct (Hno _ _ eq_refl Ha).
    + intros (k & m & t2 & E). now apply Hnil in E.
    + intros k m t2 E. now apply Hnil in E.
  - split; [split; eauto|].
    intros k' m' t2' E. apply app_inv_head in E. injection E as <- <- <-. eauto.
Qed.

Lemma chain_app : forall l1 l2 p, chain (l1 ++ l2) p = chain l2 (chain l1 p).
Proof. induction l1 as [|[fs h] l1 IH]; intros l2 p; cbn; [reflexivity | apply IH]. Qed.

(* A non-matching exception continues to the nearest enclosing matching handler: wrap a raising
   program in blocks that do not accept the exception (pre), then one that does, then anything. *)
Lemma passes_through : forall pre p d c t1 k m c1,
  ref_run (length pre + d) c p = (t1, RRaised k m, c1) ->
  Forall (fun lv => rejects (fst lv) k) pre ->
  ref_run d c (chain pre p) = (t1, RRaised k m, c1).
Proof.
  induction pre as [|[fs h] pre IH]; intros p d c t1 k m c1 Hp Hall; cbn [chain].
  - exact Hp.
  - inversion Hall as [|x l Hx Hl]; subst. apply matches_false_spec in Hx.
    apply IH; [|exact Hl]. cbn [ref_run length Nat.add fst] in *. now rewrite Hp, Hx.
Qed.

Lemma nearest_matching_handler : forall pre fs h p d c t1 k m c1,
  ref_run (S (length pre + d)) c p = (t1, RRaised k m, c1) ->
  Forall (fun lv => rejects (fst lv) k) pre ->
  accepts fs k ->
  ref_run d c (chain (pre ++ [(fs, h)]) p) =
    let '(t2, r2, c2) := ref_run d c1 h in (t1 ++ EHandler k m d :: t2, rhandler_end r2, c2).
Proof.
  intros pre fs h p d c t1 k m c1 Hp Hall Hm. apply matches_spec in Hm.
  rewrite chain_app. cbn [chain ref_run].
  rewrite (passes_through pre p (S d) c t1 k m c1); [now rewrite Hm | now rewrite <- plus_n_Sm | exact Hall].
Qed.

Lemma nesting_chain : forall levels p,
  nesting (chain levels p) <=
  length levels + Nat.max (nesting p) (fold_right (fun lv a => Nat.max (nesting (snd lv)) a) 0 levels).
Proof.
  induction levels as [|[fs h] rest IH]; intros p; cbn [chain length fold_right snd].
  - lia.
  - specialize (IH (PTry p fs h)). cbn [nesting] in IH. lia.
Qed.

(* An exception handled by a handler that is left early — by break, by continue, or by return from
   the function the inner block stands in; [early k] is the inner construct for each exit kind. *)
Definition early (k : exit_kind) (o m : nat) : prog :=
  match k with
  | XReturn => PCall (PTry (PThrow o m PSkip) [] (PSeq (PTick 1) (PSeq (PExit XReturn) (PTick 9))))
  | _ => PTry (PThrow o m PSkip) [] (PSeq (PTick 1) (PSeq (PExit k) (PTick 9)))
  end.

Section Refinement.
Variable max : nat.
Variable tko : bool.      (* whether exception_try keeps e->obj does not matter once the object is
                             stored after the message has been formatted *)
Notation run := (mrun max true true tko).

(* What the machine does on [p] from [st], against the structured semantics at the level
   [depth st].  No hypothesis on [active st]: the flag is only read by exception_catch, and
   exception_try has reset it by then. *)
Definition refines (p : prog) (st : mstate) : Prop :=
  forall tr r st', run p st = (tr, r, st') ->
  forall tr0 r0 c', ref_run (depth st) (msg st) p = (tr0, r0, c') ->
  tr = tr0 /\ bufs st' = bufs st /\ msg st' = c' /\
  match r0 with
  | RNormal => r = MNormal /\ (active st = false -> active st' = false)
  | RRaised k m => obj st' = Some k /\ msg st' = m /\ r = jump_or_die st'
  | RExit k => r = MExit k /\ (active st = false -> active st' = false)
  end.

(* the machine's outcome for a result of the structured semantics, in the final state [s] *)
Definition mout_of (r0 : rres) (s : mstate) : mout :=
  match r0 with RNormal => MNormal | RRaised _ _ => jump_or_die s | RExit k => MExit k end.

Lemma mout_of_fn_end : forall r0 s, fn_end (mout_of r0 s) = mout_of (rfn_end r0) s.
Proof. intros [| |[]] s; try reflexivity. unfold mout_of, jump_or_die. now destruct (bufs s). Qed.

Lemma mout_of_handler_end : forall r0 s, handler_end (mout_of r0 s) = mout_of (rhandler_end r0) s.
Proof. intros [| |[]] s; try reflexivity. unfold mout_of, jump_or_die. now destruct (bufs s). Qed.

(* The run of the machine, computed from the run of the structured semantics.  The state is given by
   its fields: the states in between then have the depth and the message the induction hypothesis
   asks for by computation.  That break / continue / return only leave what [exits_ok] lets them
   leave is part of the induction: a try body is never left that way, so its frame is always popped. *)
Lemma run_follows : forall p ret brk o c bs a,
  exits_ok ret brk p = true -> length bs + nesting p <= max ->
  let '(t, r0, c') := ref_run (length bs) c p in
  exists o' a', run p (MS o c bs a) = (t, mout_of r0 (MS o' c' bs a'), MS o' c' bs a') /\
    match r0 with
    | RNormal => a = false -> a' = false
    | RRaised k m => o' = Some k /\ c' = m
    | RExit k => exits_ok ret brk (PExit k) = true /\ (a = false -> a' = false)
    end.
Proof.
  induction p as [ | n | p IHp q IHq | k m f IHf | b IHb fs h IHh | k0 | p IHp ];
    intros ret brk o c bs a Hok Hb; cbn [mrun ref_run exits_ok nesting] in *;
    try (apply andb_true_iff in Hok; destruct Hok as (Hok1 & Hok2)).
  - exists o, a. auto.
  - exists o, a. auto.
  - generalize (IHp _ _ o c bs a Hok1 ltac:(lia)).
    destruct (ref_run (length bs) c p) as [[t1 [|k m|k]] c1]; intros (o1 & a1 & -> & H1); cbn [mout_of].
    + generalize (IHq _ _ o1 c1 bs a1 Hok2 ltac:(lia)).
      destruct (ref_run (length bs) c1 q) as [[t2 r2] c2]; intros (o2 & a2 & -> & H2).
      exists o2, a2. split; [reflexivity|]. destruct r2; [auto | exact H2 | destruct H2; auto].
    + exists o1, a1. split; [now destruct bs | exact H1].
    + exists o1, a1. auto.
  - (* the arguments are shown (program f), then the object is stored and raised *)
    unfold throw_pre, throw_post. generalize (IHf _ _ o c bs a Hok Hb).
    destruct (ref_run (length bs) c f) as [[t1 r1] c1]; intros (o1 & a1 & -> & H1). rewrite mout_of_fn_end.
    destruct r1 as [|k' m'|[]]; cbn [rfn_end mout_of]; try (exists (Some k), a1; auto; fail).
    + exists o1, a1. split; [now destruct bs | exact H1].
    + now destruct H1.
    + now destruct H1.
  - unfold exception_try, depth. cbn [bufs obj msg].
    destruct (Nat.eqb_spec (length bs) max) as [E|_]; [lia|].
    generalize (IHb _ _ (if tko then o else None) c (S (length bs) :: bs) false Hok1 ltac:(cbn; lia)).
    cbn [length]. destruct (ref_run (S (length bs)) c b) as [[t1 [|k m|k]] c1]; intros (o1 & a1 & -> & H1);
      cbn [mout_of jump_or_die bufs].
    + (* body ended normally: pop, catch sees active = false *)
      rewrite (H1 eq_refl). exists o1, false. auto.
    + (* body raised: the jump names our buffer; fail, pop, catch *)
      destruct H1 as (-> & ->). rewrite Nat.eqb_refl. cbn.
      destruct (matches fs k); [|exists (Some k), true; auto].
      generalize (IHh _ _ (Some k) m bs false Hok2 ltac:(lia)).
      destruct (ref_run (length bs) m h) as [[t2 r2] c2]; intros (o2 & a2 & -> & H2).
      rewrite mout_of_handler_end. exists o2, a2. split; [reflexivity|].
      destruct r2 as [| |[]]; cbn in *; try exact H2; try destruct H2; auto.
    + (* the body cannot be left by break / continue / return *)
      now destruct k, H1.
  - exists o, a. auto.
  - generalize (IHp _ _ o c bs a Hok Hb).
    destruct (ref_run (length bs) c p) as [[t1 r1] c1]; intros (o1 & a1 & -> & H1). rewrite mout_of_fn_end.
    exists o1, a1. split; [reflexivity|]. destruct r1 as [| |[]]; cbn in *; try exact H1; now destruct H1.
Qed.

Lemma refine : forall p ret brk st,
  exits_ok ret brk p = true -> depth st + nesting p <= max -> refines p st.
Proof.
  intros p ret brk [o c bs a] Hok Hb tr r st' Hrun tr0 r0 c' Href.
  pose proof (run_follows p ret brk o c bs a Hok Hb) as H. unfold depth in Href. cbn [bufs msg] in Href.
  rewrite Href in H. destruct H as (o' & a' & E & H).
  rewrite E in Hrun. inversion Hrun; subst. destruct r0; repeat split; try reflexivity; apply H.
Qed.

(* the refinement as one statement about a run: same observations, depth and jump-buffer stack
   restored; a raise goes to the innermost enclosing buffer, or kills the program when there is none *)
Lemma machine_refines_structured : forall p ret brk st,
  exits_ok ret brk p = true ->
  depth st + nesting p <= max ->
  let '(tr, r, st') := run p st in
  let '(tr0, r0, c') := ref_run (depth st) (msg st) p in
  tr = tr0 /\ depth st' = depth st /\ bufs st' = bufs st /\ msg st' = c' /\
  match r0 with
  | RNormal => r = MNormal /\ (active st = false -> active st' = false)
  | RRaised k m =>
      obj st' = Some k /\ msg st' = m /\
      match bufs st with
      | [] => r = MDied (Some k) m
      | t :: _ => r = MJump t
      end
  | RExit k => r = MExit k /\ (active st = false -> active st' = false)
  end.
Proof.
  intros p ret brk [o c bs a] Hok Hb. unfold depth. cbn [msg bufs active].
  generalize (run_follows p ret brk o c bs a Hok Hb).
  destruct (ref_run (length bs) c p) as [[tr0 r0] c']; intros (o' & a' & -> & H).
  repeat split. destruct r0 as [|k m|k]; [exact (conj eq_refl H) | | exact (conj eq_refl (proj2 H))].
  destruct H as (-> & ->). repeat split. now destruct bs.
Qed.

(* a try block whose body ends normally — in particular one whose exceptions were all handled
   by blocks inside it — never runs its handler, whatever its filter *)
Lemma handled_not_seen_outside : forall B fs h st,
  exits_ok false false B = true ->
  depth st + S (nesting B) <= max ->
  snd (fst (ref_run (S (depth st)) (msg st) B)) = RNormal ->
  let '(tr, r, st') := run (PTry B fs h) st in
  tr = fst (fst (ref_run (S (depth st)) (msg st) B)) /\ r = MNormal /\ depth st' = depth st /\ active st' = false.
Proof.
  intros B fs h [o c bs a] Hok Hb HN. cbn [mrun]. unfold exception_try, depth in *. cbn [obj msg bufs] in *.
  destruct (Nat.eqb_spec (length bs) max) as [E|_]; [lia|].
  generalize (run_follows B false false (if tko then o else None) c (S (length bs) :: bs) false Hok ltac:(cbn; lia)).
  cbn [length]. destruct (ref_run (S (length bs)) c B) as [[t1 r1] c1]. cbn [fst snd] in *. subst r1.
  intros (o1 & a1 & -> & H1). rewrite (H1 eq_refl). cbn. auto.
Qed.

End Refinement.

Definition mach := mrun exc_max_depth clear_active_on_catch throw_records_obj_after_format try_keeps_obj.

(* a whole program, started on the fresh record of a thread (no object, empty message) *)
Lemma whole_program : forall p, exits_ok true false p = true -> nesting p <= exc_max_depth ->
  let '(tr, r, st') := mach p st_init in
  let '(tr0, r0, c') := ref_run 0 0 p in
  tr = tr0 /\ depth st' = 0 /\
  r = match r0 with RNormal => MNormal | RRaised k m => MDied (Some k) m | RExit k => MExit k end.
Proof.
  intros p Hok Hb.
  pose proof (machine_refines_structured exc_max_depth try_keeps_obj p true false st_init Hok Hb) as H.
  change (mrun exc_max_depth true true try_keeps_obj) with mach in H. unfold depth in H. cbn [msg bufs st_init length] in H.
  destruct (mach p st_init) as [[tr r] st'], (ref_run 0 0 p) as [[tr0 r0] c'].
  destruct H as (-> & Hd & _ & _ & Hres). repeat split; [exact Hd|]. destruct r0; apply Hres.
Qed.

(* Third repaired defect: the pinned exception_throw stored e->obj BEFORE it formatted the message.
   A Show method of a message argument that throws and handles an exception of its own then left
   ITS object in the record: the outer handler was bound to the inner object, or — with a filter
   naming the thrown kind — did not run at all and the program died. *)
Definition fmt_witness : prog :=
  PTry (PThrow 0 5 (PTry (PThrow 10 7 PSkip) [] PSkip)) [0] (PTick 1).

(* With the object stored first, exception_try must not touch e->obj either: when it clears it, a
   Show method that merely ENTERS a try block wipes the object being raised; a catch-all then binds
   NULL and is skipped.  With the repaired order the machine refines the structured semantics for
   either behaviour of exception_try (Section Refinement, so [refine] and
   [machine_refines_structured], is generic in tko). *)
Definition fmt_witness_quiet : prog :=
  PTry (PThrow 0 5 (PTry PSkip [] PSkip)) [] (PTick 1).

Lemma tuple_next_at : forall pre c post,
  ~ In c pre -> tuple_next (pre ++ c :: post) c = hd_error post.
Proof.
  induction pre as [|x pre IH]; intros c post Hnin; cbn [app tuple_next].
  - now rewrite Nat.eqb_refl.
  - destruct (x =? c) eqn:E.
    + apply Nat.eqb_eq in E. subst. exfalso. apply Hnin. now left.
    + apply IH. intros H. apply Hnin. now right.
Qed.

Lemma foreach_from : forall k post pre c fuel,
  NoDup (pre ++ c :: post) -> length post + 2 <= fuel ->
  foreach_matches fuel (pre ++ c :: post) (Some c) k = Some (existsb (fun f => kind_of f =? kind_of k) (c :: post)).
Proof.
  intros k. induction post as [|x post IH]; intros pre c fuel Hnd Hf;
    (destruct fuel as [|fuel]; cbn [length] in Hf; [lia|]);
    cbn [foreach_matches existsb]; (destruct (kind_of c =? kind_of k); [reflexivity|]);
    (rewrite tuple_next_at by (apply NoDup_remove_2 in Hnd; contradict Hnd; apply in_or_app; now left)).
  - destruct fuel; [lia | reflexivity].
  - replace (pre ++ c :: x :: post) with ((pre ++ [c]) ++ x :: post) in * by now rewrite <- app_assoc.
    apply IH; [exact Hnd | lia].
Qed.

(* the foreach walk of the pinned exception_catch (cursor = current element) never finishes on a filter
   that names an object twice, when that object is not the thrown one *)
Lemma foreach_diverges_on_duplicate : forall fuel,
  foreach_matches fuel [0; 0] (hd_error [0; 0]) 10 = None.
Proof. induction fuel as [|f IH]; [reflexivity | exact IH]. Qed.
