(* FileText.v — the text part of property C20 on FileModel.v: records written by
   print_to(f, 0, "%ld %s\n", k, w) are scanned back identical by scan_from(f, 0, "%ld %s\n", …)
   after reopening the file.  What vfprintf makes of k and w is not modelled here (C14): a record
   is the bytes  [sign] digits SP word NL  with a word free of white space; the theorem is about
   the four vfscanf directives "%ld" " " "%s" "\n" as modelled by scan_rec, for every
   classification of bytes in which white space, digits and signs are disjoint. *)
From Coq Require Import List Arith Bool ZArith Lia.
From CelloV Require Import ListFacts FileModel FileProofs FileRoundTrip.
Import ListNotations.

Section Text.
  Variable B : Type.
  Variable zero : B.
  Variables is_ws is_digit is_sign : B -> bool.
  Variable creatable : nat -> bool.
  Variable close_fails : nat -> bool.
  Variables sp nl : B.

  Hypothesis ws_not_digit : forall b, is_ws b = true -> is_digit b = false.
  Hypothesis digit_not_sign : forall b, is_digit b = true -> is_sign b = false.
  Hypothesis sign_not_ws : forall b, is_sign b = true -> is_ws b = false.
  Hypothesis sp_ws : is_ws sp = true.
  Hypothesis nl_ws : is_ws nl = true.

  Notation sstep := (spec_step B zero is_ws is_digit is_sign creatable close_fails).
  Notation srun := (spec_run B zero is_ws is_digit is_sign creatable close_fails).
  Notation sworld := (sworld B).
  Notation out := (out B).
  Notation scan := (scan_rec B is_ws is_digit is_sign).
  Notation spanB := (span B).

  Record trec := mkR { r_sign : list B; r_digits : list B; r_word : list B }.

  Definition well_formed (r : trec) : Prop :=
    (r_sign r = [] \/ exists s, r_sign r = [s] /\ is_sign s = true) /\
    r_digits r <> [] /\ Forall (fun b => is_digit b = true) (r_digits r) /\
    r_word r <> [] /\ Forall (fun b => is_ws b = false) (r_word r).

  Definition num_of (r : trec) : list B := r_sign r ++ r_digits r.
  Definition text_of (r : trec) : list B := num_of r ++ [sp] ++ r_word r ++ [nl].

  Definition starts_not (p : B -> bool) (l : list B) : Prop :=
    match l with [] => True | b :: _ => p b = false end.

  Lemma span_all : forall p l rest,
    Forall (fun b => p b = true) l -> starts_not p rest -> spanB p (l ++ rest) = (l, rest).
  Proof.
    intros p l rest Hl Hr. induction Hl as [|b l Hb Hl IH]; simpl.
    - destruct rest as [|c rest]; simpl in *; auto. rewrite Hr. auto.
    - rewrite Hb, IH. auto.
  Qed.

  Lemma span_none : forall p l, starts_not p l -> spanB p l = ([], l).
  Proof. intros p l H. apply (span_all p [] l); auto. Qed.

  Lemma digit_not_ws : forall b, is_digit b = true -> is_ws b = false.
  Proof. intros b H. destruct (is_ws b) eqn:E; auto. rewrite (ws_not_digit b E) in H. discriminate. Qed.

  Lemma texts_start_not_ws : forall rs, Forall well_formed rs -> starts_not is_ws (concat (map text_of rs)).
  Proof.
    intros rs [|r rs' (Hs & Hd & Hdd & _) _]; simpl; [exact I|]. unfold text_of, num_of.
    destruct Hs as [-> | (s & -> & Hs)]; simpl.
    - destruct (r_digits r) as [|d dg]; [contradiction|]. simpl. inversion Hdd; subst. apply digit_not_ws; auto.
    - apply sign_not_ws; auto.
  Qed.

  (* one scan_from over one record *)
  Lemma scan_one : forall r rest,
    well_formed r -> starts_not is_ws rest ->
    scan (text_of r ++ rest) = (Some (num_of r, r_word r), length (text_of r), at_end B rest).
  Proof.
    intros [sg ds wd] rest (Hs & Hd & Hdd & Hw & Hww) Hrest. cbn [r_sign r_digits r_word] in *.
    destruct ds as [|d ds]; [contradiction|]. destruct wd as [|c wd]; [contradiction|].
    pose proof (Forall_inv Hdd) as Hd0. pose proof (Forall_inv Hww) as Hc0. simpl in Hd0, Hc0.
    assert (Hnum : spanB is_digit (d :: ds ++ sp :: c :: wd ++ nl :: rest) = (d :: ds, sp :: c :: wd ++ nl :: rest))
      by (apply (span_all is_digit (d :: ds)); auto; apply ws_not_digit, sp_ws).
    assert (Hsp : spanB is_ws (sp :: c :: wd ++ nl :: rest) = ([sp], c :: wd ++ nl :: rest))
      by (apply (span_all is_ws [sp]); auto).
    assert (Hwrd : spanB (fun x => negb (is_ws x)) (c :: wd ++ nl :: rest) = (c :: wd, nl :: rest)).
    { apply (span_all _ (c :: wd)); [|simpl; rewrite nl_ws; auto].
      eapply Forall_impl; [|exact Hww]. intros b Hb. simpl. rewrite Hb. auto. }
    assert (Hnl : spanB is_ws (nl :: rest) = ([nl], rest)) by (apply (span_all is_ws [nl]); auto).
    unfold text_of, num_of. cbn [r_sign r_digits r_word].
    replace (length ((sg ++ d :: ds) ++ [sp] ++ (c :: wd) ++ [nl]))
      with (length sg + length (d :: ds) + 1 + length (c :: wd) + 1)
      by (rewrite !app_length; simpl; lia).
    rewrite <- !app_assoc. unfold scan_rec.
    (* cbv without delta evaluates the lets and matches of scan_rec and leaves span alone *)
    destruct Hs as [-> | (s & -> & Hss)]; cbn [app].
    1: rewrite (span_none is_ws) by (apply digit_not_ws, Hd0); cbv beta iota zeta; rewrite (digit_not_sign d Hd0).
    2: rewrite (span_none is_ws) by (apply sign_not_ws, Hss); cbv beta iota zeta; rewrite Hss.
    all: rewrite Hnum; cbv beta iota zeta; rewrite Hsp; cbv beta iota zeta; rewrite Hwrd, Hnl; reflexivity.
  Qed.

  Notation runs := (runs B zero is_ws is_digit is_sign creatable close_fails).
  Notation open_at := (open_at B).

  Definition printed (t : list B) : out := OkUnit B.
  Definition scanned (r : trec) : out := OkScan B (num_of r) (r_word r).
  Definition nonempty {A} (l : list A) : bool := match l with [] => false | _ => true end.

  Lemma print_runs : forall i p m e,
    m_write m = true -> forall d c,
    runs (open_at i p m (length c) e c) [OPrint B i d] [printed d] (open_at i p m (length (c ++ d)) e (c ++ d)).
  Proof.
    intros i p m e Hw d c. apply runs_step. intros a [Hi Hf].
    destruct (fwrite_end B zero (sw_fs B a) p e m c d Hf Hw) as (fs' & Hf' & E).
    simpl. unfold s_on_open. rewrite Hi. simpl. rewrite Hw, E. simpl.
    eexists. split; [reflexivity|]. split; simpl; [apply fupd_same|auto].
  Qed.

  Lemma scan_runs : forall i p m pos e c r rest,
    m_read m = true -> well_formed r -> starts_not is_ws rest -> skipn pos c = text_of r ++ rest ->
    runs (open_at i p m pos e c) [OScan B i] [scanned r]
         (open_at i p m (pos + length (text_of r)) (e || at_end B rest) c).
  Proof.
    intros i p m pos e c r rest Hr Hwf Hrest Hsk. apply runs_step. intros a [Hi Hf].
    simpl. unfold s_on_open, content. rewrite Hi. simpl. rewrite Hr, Hf, Hsk, (scan_one r rest Hwf Hrest). simpl.
    eexists. split; [reflexivity|]. split; simpl; [apply fupd_same|auto].
  Qed.

  Lemma scans_runs : forall i p m c,
    m_read m = true -> forall rs pos e,
    Forall well_formed rs -> skipn pos c = concat (map text_of rs) ->
    runs (open_at i p m pos e c) (map (fun _ => OScan B i) rs) (map scanned rs)
         (open_at i p m (pos + length (concat (map text_of rs))) (e || nonempty rs) c).
  Proof.
    intros i p m c Hr rs. induction rs as [|r rs IH]; intros pos e Hwf Hsk; simpl in *.
    - rewrite Nat.add_0_r, orb_false_r. apply runs_nil.
    - inversion Hwf as [|? ? Hr0 Hrs]; subst.
      rewrite app_length, Nat.add_assoc.
      replace (e || true) with ((e || at_end B (concat (map text_of rs))) || nonempty rs)
        by (destruct rs; simpl; rewrite ?orb_true_r, ?orb_false_r; reflexivity).
      eapply runs_cons; [apply scan_runs; eauto using texts_start_not_ws|]. apply IH; auto.
      rewrite <- skipn_skipn, Hsk. apply skipn_app_all.
  Qed.

  Lemma scan_end_runs : forall i p m pos e c,
    m_read m = true -> skipn pos c = [] ->
    runs (open_at i p m pos e c) [OScan B i] [ORaise B FFormatError] (fun _ => True).
  Proof.
    intros i p m pos e c Hr Hsk. apply runs_step. intros a [Hi Hf].
    simpl. unfold s_on_open, content. rewrite Hi. simpl. rewrite Hr, Hf, Hsk. simpl. eauto.
  Qed.

  Definition text_history (i p : nat) (mw mr : mode) (rs : list trec) : list (op B) :=
    OOpen B i p mw :: map (OPrint B i) (map text_of rs) ++ [OClose B i; OOpen B i p mr] ++
    map (fun _ => OScan B i) rs ++ [OEof B i; OScan B i].
  Definition text_outcome (rs : list trec) : list out :=
    OkUnit B :: map printed (map text_of rs) ++ [OkUnit B; OkUnit B] ++
    map scanned rs ++ [OkBool B (nonempty rs); ORaise B FFormatError].

  Theorem spec_text_roundtrip : forall i p mw mr rs,
    creatable p = true -> close_fails p = false ->
    trunc_mode mw -> from_start_mode mr -> Forall well_formed rs ->
    runs (fun a => sw_objs B a i = SClosed) (text_history i p mw mr rs) (text_outcome rs) (fun _ => True).
  Proof.
    intros i p mw mr rs Hc Hcf Hmw Hmr Hwf.
    pose proof (m_read_from_start mr Hmr) as Hr.
    eapply runs_cons; [apply open_trunc_runs; auto|].
    eapply runs_app; [apply (appends_runs _ _ _ _ _ _ _ _ _ i p mw false (print_runs i p mw false (m_write_trunc mw Hmw)) _ [])|].
    eapply runs_cons; [apply close_runs, Hcf|]. eapply runs_cons; [apply open_start_runs; auto|].
    eapply runs_app; [apply (scans_runs i p mr _ Hr rs 0 false Hwf eq_refl)|].
    eapply runs_cons; [apply eof_runs|]. apply scan_end_runs; auto. apply skipn_all.
  Qed.

  (* print_to hands File_Format_To pieces of formatted text; whatever their lengths (no bound: a piece may
     be longer than any internal buffer), the file then holds exactly their concatenation: reopened and
     read in ANY chunking it gives the text back, stell = its length *)
  Definition print_history (i p : nat) (mw mr : mode) (ts : list (list B)) (ns : list nat) : list (op B) :=
    OOpen B i p mw :: map (OPrint B i) ts ++ [OTell B i] ++ [OClose B i; OOpen B i p mr] ++
    map (ORead B i) ns ++ [OTell B i; OEof B i; ORead B i 1; OEof B i].
  Definition print_outcome (ts : list (list B)) (ns : list nat) : list out :=
    OkUnit B :: map printed ts ++ [OkNum B (length (concat ts))] ++ [OkUnit B; OkUnit B] ++
    map (got B) (pieces B ns (concat ts)) ++
    [OkNum B (length (concat ts)); OkBool B false; OkRead B 0 []; OkBool B true].
End Text.
