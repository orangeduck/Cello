(* Properties_C09.v — property C09: cmp is a consistent total order and the predicates derive
   from it.  Each statement is followed by Print Assumptions.  The arguments are in CmpProofs.v; a
   statement that is an instance, a projection or a short consequence of its theorems (3, 5, 15-17; 6-10b from
   value_cmp_is_order and value_ok) or a computation on witnesses (13, 18, 19) is proved in place, the others
   by `exact`.
   Reading guide: `value` = the value universe (Int, Float, String, Type, plain struct, Array/List/
   Tuple as element lists, Tree as binding lists); `dom s v` = v is a value of sort s (Float: not
   NaN; sequences: all elements of one sort, whatever the container kinds; Tree: keys of one sort,
   values of one sort); `value_cmp` = the model of cmp (Values.v, tied to the C text by the
   correspondence check and by Generated.v); `value_ord` = the reference order (numeric / byte-wise
   lexicographic / name order, induced lexicographic order on containers); `value_eqv` = "equal
   values". *)
From Coq Require Import List ZArith NArith Bool Reals Lia.
From Flocq Require Import Core IEEE754.BinarySingleNaN.
From CelloV Require Import Generated Values CmpProofs.
Import ListNotations.
Local Open Scope Z_scope.

(* 1. cmp orders values exactly as the reference order does (and never raises on one sort) *)
Theorem cmp_orders_as_reference : forall a s b, dom s a -> dom s b ->
  value_cmp a b = Some (z_of_cmp (value_ord a b)).
Proof. exact CmpProofs.value_cmp_is_order. Qed.
Print Assumptions cmp_orders_as_reference.

(* 2. what the reference order is: Z order, unsigned-byte lexicographic order, induced
      lexicographic order over elements / over (key, value) bindings *)
Theorem reference_order_is : 
  (forall x y, value_ord (VInt x) (VInt y) = (x ?= y)) /\
  (forall x y, value_ord (VStr x) (VStr y) = lex_compare N.compare x y) /\
  (forall x y, value_ord (VType x) (VType y) = lex_compare N.compare x y) /\
  (forall t t' x y, value_ord (VStruct t x) (VStruct t' y) = lex_compare N.compare x y) /\
  (forall k k' xs ys, value_ord (VSeq k xs) (VSeq k' ys) = lex_compare value_ord xs ys) /\
  (forall xs ys, value_ord (VTree xs) (VTree ys) = lex_compare (pair_ord value_ord value_ord) xs ys).
Proof.
  exact (conj (fun _ _ => eq_refl) (conj (fun _ _ => eq_refl) (conj (fun _ _ => eq_refl)
         (conj (fun _ _ _ _ => eq_refl) (conj (fun _ _ _ _ => eq_refl) (fun _ _ => eq_refl)))))).
Qed.
Print Assumptions reference_order_is.

(* 3. Float (NaN excluded): Float_Cmp = sign of the rounded binary64 difference = the order of the
      extended reals: signed zeros equal, denormals ordered, infinities at the ends *)
Theorem float_cmp_is_numeric_order : forall x y : bfloat, is_nan x = false -> is_nan y = false ->
  float_ord x y = Rcompare (fkey x) (fkey y) /\
  float_cmp x y = z_of_cmp (Rcompare (fkey x) (fkey y)) /\
  (is_finite x = true -> fkey x = B2R x).
Proof.
  exact (fun x y Nx Ny =>
    let K := float_ord_fkey x y Nx Ny in
    conj K (conj (eq_trans (float_cmp_correct x y Nx Ny) (f_equal z_of_cmp K)) (fkey_finite x))).
Qed.
Print Assumptions float_cmp_is_numeric_order.

(* 4. lexicographic = equal common prefix, then either the left operand ends first or the first
      differing pair decides *)
Theorem lexicographic_means : forall {A B} (c : A -> B -> comparison) xs ys,
  lex_compare c xs ys = Lt <->
  exists p q xs' ys', xs = p ++ xs' /\ ys = q ++ ys' /\ all2 (fun x y => c x y = Eq) p q /\
    ((xs' = [] /\ ys' <> []) \/ (exists x y xr yr, xs' = x :: xr /\ ys' = y :: yr /\ c x y = Lt)).
Proof. exact @CmpProofs.lex_compare_Lt_spec. Qed.
Print Assumptions lexicographic_means.

(* 5. the order laws of the reference order on every sort *)
Theorem reference_order_total : forall s a, dom s a ->
  value_ord a a = Eq /\
  (forall b, dom s b -> value_ord b a = CompOpp (value_ord a b)) /\
  (forall b c, dom s b -> dom s c -> value_ord a b = Lt -> value_ord b c <> Gt -> value_ord a c = Lt) /\
  (forall b c, dom s b -> dom s c -> value_ord a b = Eq -> value_ord a c = value_ord b c) /\
  (forall b, dom s b -> (value_ord a b = Eq <-> value_eqv a b)).
Proof.
  exact (fun s a Da => match value_ok a s Da with
                       | Build_ok_at _ _ _ _ R An T E Q => conj R (conj An (conj T (conj E Q)))
                       end).
Qed.
Print Assumptions reference_order_total.

(* 6. ... and directly about cmp: cmp(a,a) = 0 *)
Theorem cmp_reflexive : forall s a, dom s a -> value_cmp a a = Some 0.
Proof.
  intros s a Da. rewrite (value_cmp_is_order a s a Da Da), (ok_refl (value_ok a s Da)). reflexivity.
Qed.
Print Assumptions cmp_reflexive.

(* 7. sign(cmp(a,b)) = -sign(cmp(b,a)) (the model returns exactly -1/0/1, so even cmp(b,a) = -cmp(a,b)) *)
Theorem cmp_antisymmetric : forall s a b, dom s a -> dom s b ->
  exists c, value_cmp a b = Some c /\ value_cmp b a = Some (- c).
Proof.
  intros s a b Da Db. exists (z_of_cmp (value_ord a b)).
  rewrite (value_cmp_is_order a s b Da Db), (value_cmp_is_order b s a Db Da), (ok_anti (value_ok a s Da) b Db).
  destruct (value_ord a b); auto.
Qed.
Print Assumptions cmp_antisymmetric.

(* 8. transitivity, with strictness and equality carried along *)
Theorem cmp_transitive : forall s a b c x y, dom s a -> dom s b -> dom s c ->
  value_cmp a b = Some x -> value_cmp b c = Some y -> x <= 0 -> y <= 0 ->
  exists z, value_cmp a c = Some z /\ z <= 0 /\ (x < 0 \/ y < 0 -> z < 0) /\ (x = 0 -> y = 0 -> z = 0).
Proof.
  intros s a b c x y Da Db Dc.
  rewrite (value_cmp_is_order a s b Da Db), (value_cmp_is_order b s c Db Dc), (value_cmp_is_order a s c Da Dc).
  intros [= <-] [= <-] Lx Ly. eexists. split; [reflexivity|].
  pose proof (value_ok a s Da) as Oa.
  destruct (value_ord a b) eqn:Cab; simpl in Lx; try lia.
  - rewrite (ok_eq Oa b c Db Dc Cab). destruct (value_ord b c); simpl in *; lia.
  - rewrite (ok_trans Oa b c Db Dc Cab); [simpl; lia|]. destruct (value_ord b c); simpl in Ly; try lia; discriminate.
Qed.
Print Assumptions cmp_transitive.

(* 9. cmp(a,b) = 0 exactly for equal values *)
Theorem cmp_zero_only_for_equal : forall s a b, dom s a -> dom s b ->
  (value_cmp a b = Some 0 <-> value_eqv a b).
Proof.
  intros s a b Da Db. rewrite (value_cmp_is_order a s b Da Db), <- (ok_eqv (value_ok a s Da) b Db).
  destruct (value_ord a b); simpl; intuition discriminate.
Qed.
Print Assumptions cmp_zero_only_for_equal.

(* 10. eq, neq, lt, gt, le, ge are exactly the corresponding predicates of the order *)
Theorem predicates_derive_from_cmp : forall s a b, dom s a -> dom s b ->
  v_eq a b  = Some (match value_ord a b with Eq => true | _ => false end) /\
  v_neq a b = Some (match value_ord a b with Eq => false | _ => true end) /\
  v_lt a b  = Some (match value_ord a b with Lt => true | _ => false end) /\
  v_gt a b  = Some (match value_ord a b with Gt => true | _ => false end) /\
  v_le a b  = Some (match value_ord a b with Gt => false | _ => true end) /\
  v_ge a b  = Some (match value_ord a b with Lt => false | _ => true end).
Proof.
  intros s a b Da Db. unfold v_le, v_ge, v_neq, v_eq, v_lt, v_gt.
  rewrite (value_cmp_is_order a s b Da Db). simpl. rewrite !pred_val_spec by lia.
  destruct (value_ord a b); repeat split.
Qed.
Print Assumptions predicates_derive_from_cmp.

(* 10b. ... and on ANY operands (also outside the sorts) they are the tests of whatever cmp returns *)
Theorem predicates_are_tests_of_cmp : forall a b c, value_cmp a b = Some c ->
  v_eq a b = Some (c =? 0) /\ v_neq a b = Some (negb (c =? 0)) /\ v_lt a b = Some (c <? 0) /\
  v_gt a b = Some (0 <? c) /\ v_le a b = Some (negb (0 <? c)) /\ v_ge a b = Some (negb (c <? 0)).
Proof.
  intros a b c H. unfold v_le, v_ge, v_neq, v_eq, v_lt, v_gt. rewrite H. simpl.
  rewrite !pred_val_spec by lia. repeat split.
Qed.
Print Assumptions predicates_are_tests_of_cmp.

(* 11. the generic lifting used for every container: element order laws => laws of the
       parallel-iteration comparison with its length tie-break *)
Theorem lex_lift_total_order : forall {A} (D : A -> Prop) (eqv : A -> A -> Prop) (c : A -> A -> comparison) xs,
  Forall (ok_at D eqv c) xs -> ok_at (Forall D) (all2 eqv) (lex_compare c) xs.
Proof. exact @CmpProofs.lex_lift. Qed.
Print Assumptions lex_lift_total_order.

(* 12. the Int_Cmp of the working tree (variant re-read from src/Num.c into Generated.v) is Z order *)
Theorem int_cmp_is_numeric_order : forall a b, int_cmp a b = z_of_cmp (a ?= b).
Proof. exact CmpProofs.int_cmp_correct. Qed.
Print Assumptions int_cmp_is_numeric_order.

(* 13. the pinned Int_Cmp `(int)(a - b)` is not an order on int64 (defect D4, repaired) *)
Theorem int_cmp_old_refuted :
  (exists a b, in_int64 a /\ in_int64 b /\ a <> b /\ int_cmp_trunc a b = 0) /\
  (exists a b, in_int64 a /\ in_int64 b /\ a > b /\ int_cmp_trunc a b < 0) /\
  (exists a b, in_int64 a /\ in_int64 b /\ a > b /\ int_cmp_trunc a b < 0 /\ b < 0).
Proof.
  split; [|split].
  - exists 4294967296, 0. vm_compute. repeat split; discriminate.
  - exists 2147483648, 0. vm_compute. repeat split; discriminate.
  - exists 9223372036854775807, (-9223372036854775808). vm_compute. repeat split; discriminate.
Qed.
Print Assumptions int_cmp_old_refuted.

(* 14. the comparison code of the working tree, re-read on every run: Int_Cmp, Float_Cmp and the six
       predicates are TRANSLATED (tools/cx_translate.py -> Generated.int_cmp_code, float_cmp_code,
       pred_codes) and verified on the order abstraction (three computations each, sound for all operands
       by CmpProofs.arun_sound), whatever equivalent C form they have; the container loops and the
       instance-else-memcmp dispatch of cmp are matched as shapes *)
Theorem model_shapes_match_source :
  code_is_compare false int_cmp_code /\ code_is_compare true float_cmp_code /\
  (exists l, pred_codes = Some l /\
     forall c, map (aeval false c [AOp0; AOp1]) l = map (fun i => Some (AC (b2z (pred_abs i c)))) [0; 1; 2; 3; 4; 5]%nat) /\
  seq_cmp_shape_ok = true /\ tree_cmp_shape_ok = true /\ cmp_dispatch_ok cmp_dispatch_table = true.
Proof. exact CmpProofs.source_shapes. Qed.
Print Assumptions model_shapes_match_source.

(* 15. consequence for keyed containers: every key set into a Tree keyed through the modelled cmp is
       found again (value of the last set under an order-equal key; absent keys reported absent),
       and a Table's eq-lookup gives the same answer.  `tree_of_sets`/`assoc_get` model the sorted
       walk of Tree.c, `eq_get` the eq test of Table_Get; balancing, probing and hashing are C02/C03. *)
Theorem keyed_lookups_find_keys : forall s ins, Forall (fun kv : value * value => dom s (fst kv)) ins ->
  (exists t, tree_of_sets [] ins = Some t /\ forall k, dom s k -> assoc_get t k = Some (spec_get ins k)) /\
  (forall k, dom s k -> eq_get ins k = Some (spec_get ins k)).
Proof. exact (fun s ins KI => conj (tree_finds_keys s ins KI) (fun k => eq_get_spec s ins k KI)). Qed.
Print Assumptions keyed_lookups_find_keys.

(* 16. Tuples hold POINTERS, possibly the same one in several slots.  With the index walk of the
       working tree (Generated.tuple_cmp_self_by_index) cmp(Tuple, sequence) depends on the values in
       the slots only, for EVERY aliasing pattern: it is cmp of the value sequence, to which 1-10 apply *)
Theorem tuple_cmp_depends_on_values_only : forall (items : pitems) k ys,
  operand_cmp (OTup items) (OVal (VSeq k ys)) =
  out_of_option (value_cmp (VSeq KTuple (map snd items)) (VSeq k ys)).
Proof.
  intros items k ys. unfold operand_cmp, self_side, obj_side.
  change tuple_cmp_self_by_index with true. cbv iota.
  simpl value_cmp. apply walk_cmp_lists.
  unfold walk_fuel. simpl. rewrite map_length. nia.
Qed.
Print Assumptions tuple_cmp_depends_on_values_only.

(* 17. as RIGHT operand a Tuple is walked with Tuple_Iter_Next (first slot holding the cursor): with
       pairwise different pointers that walk yields exactly the value sequence ... *)
Theorem alias_free_right_tuple_is_its_values : forall items, NoDup (map fst items) ->
  forall fuel s0, walk_cmp fuel s0 (SIter items (hd_error items)) = walk_cmp fuel s0 (SList (map snd items)).
Proof. exact (fun items ND fuel s0 => iter_walk_alias_free items ND fuel s0 [] items eq_refl). Qed.
Print Assumptions alias_free_right_tuple_is_its_values.

(* 18. ... and with a repeated pointer it does not (open finding F3 `tuple-repeated-pointer` as it shows
       in cmp on the unchanged tree): [1,1,2] against tuple(one,one,two) gives 1, also for the tuple against itself *)
Theorem aliased_right_tuple_refuted :
  let one := VInt 1 in let two := VInt 2 in
  let t : pitems := [(1%N, one); (1%N, one); (2%N, two)] in
  walk_cmp 30 (SList [one; one; two]) (SIter t (hd_error t)) = WRes 1 /\
  walk_cmp 30 (SList (map snd t)) (SIter t (hd_error t)) = WRes 1.
Proof. exact (conj eq_refl eq_refl). Qed.
Print Assumptions aliased_right_tuple_refuted.

(* 19. walking `self` with Tuple_Iter_Next instead of the index is wrong on tuple(one,one,two) *)
Theorem tuple_cmp_iterator_walk_refuted :
  let one := VInt 1 in let two := VInt 2 in
  let t : pitems := [(1%N, one); (1%N, one); (2%N, two)] in
  walk_cmp 30 (SIter t (hd_error t)) (SList [one; one; two]) = WRes (-1) /\
  walk_cmp 30 (SList (map snd t)) (SList [one; one; two]) = WRes 0.
Proof. exact (conj eq_refl eq_refl). Qed.
Print Assumptions tuple_cmp_iterator_walk_refuted.

(* 20. the device behind 12, 3 and 10: an expression that only compares its two operands (and, for doubles,
       tests the sign of their rounded difference strictly) evaluates, on ANY operands whose order is c, to
       what its order abstraction computes for c *)
Theorem translated_code_depends_on_order_only :
  forall (diff_ok : bool) (c : comparison) (A : calg) (x y : cT A),
  c_cmp A x y = Some c -> c_cmp A y x = Some (CompOpp c) -> c_cmp A x x = Some Eq -> c_cmp A y y = Some Eq ->
  (diff_ok = true -> forall o, strict o = true ->
    cop_test o (c_cmp A (c_sub A x y) (c_zero A)) = cop_test o (Some c) /\
    cop_test o (c_cmp A (c_sub A y x) (c_zero A)) = cop_test o (Some (CompOpp c)) /\
    cop_test o (c_cmp A (c_zero A) (c_sub A x y)) = cop_test o (Some (CompOpp c)) /\
    cop_test o (c_cmp A (c_zero A) (c_sub A y x)) = cop_test o (Some c)) ->
  forall p z, arun diff_ok c p = Some z -> crun A p x y = Some z.
Proof. exact CmpProofs.arun_sound. Qed.
Print Assumptions translated_code_depends_on_order_only.

Example dom_inhabited_scalars :
  dom SInt (VInt 4294967296) /\ dom SInt (VInt (-9223372036854775808)) /\
  dom SFloat (VFloat (float_of_bits 0)) /\ dom SFloat (VFloat (float_of_bits 9223372036854775808)) /\      (* 0.0, -0.0 *)
  dom SFloat (VFloat (float_of_bits 1)) /\ dom SFloat (VFloat (float_of_bits 9218868437227405312)) /\       (* min denormal, +inf *)
  dom SStr (VStr [97; 255]%N) /\ dom SType (VType [73; 110; 116]%N) /\ dom (SStruct 1 3) (VStruct 1 [0; 128; 255]%N).
Proof. vm_compute. repeat split. Qed.

Example dom_inhabited_containers :
  dom (SSeq SInt) (VSeq KArray [VInt 1; VInt 4294967297]) /\ dom (SSeq SInt) (VSeq KTuple []) /\
  dom (SSeq (SSeq SStr)) (VSeq KList [VSeq KTuple [VStr [97]%N]; VSeq KArray []]) /\
  dom (STree SInt SStr) (VTree [(VInt 1, VStr [97]%N); (VInt 0, VStr []%N)]).
Proof. vm_compute. repeat split. Qed.

Example alias_free_nonvacuous : NoDup (map fst ([(1%N, VInt 1); (2%N, VInt 1); (3%N, VInt 2)] : pitems)).
Proof. repeat constructor; simpl; intuition discriminate. Qed.

(* the hypotheses of cmp_transitive are satisfiable with strict and non-strict steps *)
Example cmp_transitive_nonvacuous :
  value_cmp (VSeq KArray [VInt 1]) (VSeq KList [VInt 1]) = Some 0 /\
  value_cmp (VSeq KList [VInt 1]) (VSeq KTuple [VInt 1; VInt (-4294967296)]) = Some (-1) /\
  value_cmp (VFloat (float_of_bits 0)) (VFloat (float_of_bits 9223372036854775808)) = Some 0 /\
  value_cmp (VFloat (float_of_bits 9223372036854775809)) (VFloat (float_of_bits 1)) = Some (-1).
Proof. vm_compute. repeat split. Qed.
