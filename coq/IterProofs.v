(* IterProofs.v — proofs about the iteration model (C11): IterModel.v with the rules [repaired].

   Central notion: [wb f u cvs] — the iterable [u] is WELL-BEHAVED with cursor chain [cvs]
   (a list of (cursor, item) pairs): iter_init hands out the first cursor, iter_last the last,
   iter_next / iter_prev move along the chain and hand out Terminal exactly past its ends, and the
   item under each cursor is the recorded one.  Every walk theorem follows from [wb] alone
   ([wb_iterates], [walk_safe]); every container and every view is shown to be [wb] (views: given that
   their underlying iterables are), so the results compose to any nesting depth.

   [wb] is used through two equivalent readings.  One direction at a time ([wb_runs]): the walk in
   direction d runs along the list [cvs] resp. [rev cvs], each cursor stepping to the head of the rest
   ([trail]); loops over a chain (foreach, Filter, Zip's count) are inductions on that list, and Map,
   Filter, Table and Tree are proved in this reading.  By position ([wb_z]): the cursor at
   position z steps to position z + 1 resp. z - 1, positions outside [0, len) being Terminal; Array,
   List, Range, Slice and Zip, whose cursors are computed from a position, are proved in this one.
   Tuple is proved over [wb] as it stands.

   What the walks yield is defined here, before the first lemma that needs it, and the statements of
   Properties_C11.v are written with it: [inorder] (Tree), [box] / [in_box], [range_count], [range_val], [range_elems]
   (Range), [slice_ok], [slice_sel], [norm_arg], [slice_range] (Slice), [zip_rows] (Zip). *)
From Coq Require Import List ZArith Bool Arith Lia.
From CelloV Require Import ListFacts Generated IterModel IterSource.
Import ListNotations.
Local Open Scope Z_scope.

(* the C source of the working tree contains the repaired text of every defect (re-read on every run) *)
Lemma source_rules_repaired : source_rules = repaired.
Proof. reflexivity. Qed.

Lemma source_shapes : source_shapes_ok = true.
Proof. reflexivity. Qed.

Local Notation R := repaired.

Definition cur_at (cvs : list (cur * val)) (i : nat) : option cur := option_map fst (nth_error cvs i).
Definition cur_before (cvs : list (cur * val)) (i : nat) : option cur :=
  match i with O => None | S j => cur_at cvs j end.

Record wb (f : nat) (u : iterable) (cvs : list (cur * val)) : Prop := mkWb {
  wb_init : it_start R f Fwd u = OVal (cur_at cvs 0);
  wb_last : it_start R f Bwd u = OVal (cur_before cvs (length cvs));
  wb_val  : forall i c v, nth_error cvs i = Some (c, v) -> cur_val u c = OVal v;
  wb_next : forall i c v, nth_error cvs i = Some (c, v) -> it_step R f Fwd u c = OVal (cur_at cvs (S i));
  wb_prev : forall i c v, nth_error cvs i = Some (c, v) -> it_step R f Bwd u c = OVal (cur_before cvs i)
}.

Lemma cur_at_some cvs i c : cur_at cvs i = Some c -> exists v, nth_error cvs i = Some (c, v).
Proof.
  unfold cur_at. destruct (nth_error cvs i) as [[c' v]|] eqn:E; simpl; intros H; inversion H; subst; eauto.
Qed.

(* the head cursor of l, or e when l is empty *)
Definition hd_or (l : list (cur * val)) (e : option cur) : option cur :=
  match l with [] => e | cv :: _ => Some (fst cv) end.

(* One direction at a time.  [trail f d u l e]: every cursor of l denotes its item and steps, in direction d,
   to the next cursor of l, the last one to e (Terminal, except for the part of a Tree's chain that lies
   inside a subtree). *)
Fixpoint trail (f : nat) (d : dir) (u : iterable) (l : list (cur * val)) (e : option cur) : Prop :=
  match l with
  | [] => True
  | cv :: r => cur_val u (fst cv) = OVal (snd cv) /\ it_step R f d u (fst cv) = OVal (hd_or r e) /\ trail f d u r e
  end.

(* [run f d u l]: the start in direction d hands out the head of l, and l is a trail that ends in Terminal *)
Definition run (f : nat) (d : dir) (u : iterable) (l : list (cur * val)) : Prop :=
  it_start R f d u = OVal (hd_or l None) /\ trail f d u l None.

Lemma hd_or_app a b e : hd_or (a ++ b) e = hd_or a (hd_or b e).
Proof. now destruct a. Qed.

Lemma trail_app f d u a b e : trail f d u a (hd_or b e) -> trail f d u b e -> trail f d u (a ++ b) e.
Proof.
  induction a as [|cv a IH]; intros Ha Hb; [exact Hb|]. destruct Ha as (Hv & Hs & Ha).
  split; [exact Hv|]. split; [|now apply IH]. rewrite Hs. now destruct a.
Qed.

Lemma hd_or_at l : hd_or l None = cur_at l 0.
Proof. now destruct l. Qed.

Lemma trail_nth f d u l : trail f d u l None <->
  forall i c v, nth_error l i = Some (c, v) ->
    cur_val u c = OVal v /\ it_step R f d u c = OVal (cur_at l (S i)).
Proof.
  induction l as [|cv l IH]; cbn [trail].
  - split; [intros _ [|i] c v E; discriminate | auto].
  - rewrite IH, hd_or_at. split.
    + intros (Hv & Hs & H) [|i] c v E; [injection E as ->; auto | exact (H i c v E)].
    + intros H. destruct cv as [c v]. destruct (H 0%nat c v eq_refl) as [Hv Hs]. split; [exact Hv|]. split; [exact Hs|].
      intros i. exact (H (S i)).
Qed.

Lemma nth_error_rev {A} (l : list A) : forall i j, S (i + j) = length l ->
  nth_error (rev l) j = nth_error l i.
Proof.
  induction l as [|a l IH]; cbn [length rev]; intros i j H; [lia|].
  destruct i as [|i].
  - rewrite nth_error_app2; rewrite rev_length; [|lia]. now replace (j - length l)%nat with 0%nat by lia.
  - rewrite nth_error_app1 by (rewrite rev_length; lia). apply IH. lia.
Qed.

Lemma cur_at_rev l i j : (i + j)%nat = length l -> cur_at (rev l) j = cur_before l i.
Proof.
  intros H. unfold cur_at. destruct i as [|i]; cbn [cur_before].
  - now rewrite (proj2 (nth_error_None _ _)) by (rewrite rev_length; lia).
  - unfold cur_at. apply f_equal, nth_error_rev. lia.
Qed.

Lemma nth_error_rev_inv {A} (l : list A) j x : nth_error (rev l) j = Some x ->
  exists i, S (i + j) = length l /\ nth_error l i = Some x.
Proof.
  intros E. assert (j < length l)%nat by (rewrite <- rev_length; apply nth_error_Some; congruence).
  exists (length l - S j)%nat. split; [lia|]. rewrite <- E. symmetry. apply nth_error_rev. lia.
Qed.

Lemma wb_runs f u cvs : wb f u cvs <-> run f Fwd u cvs /\ run f Bwd u (rev cvs).
Proof.
  unfold run. rewrite !hd_or_at, (cur_at_rev cvs (length cvs) 0) by lia. split.
  - intros [Hi Hl Hv Hn Hp]. split; (split; [assumption|]); apply trail_nth; intros i c v E; [eauto|].
    destruct (nth_error_rev_inv _ _ _ E) as (k & Hk & E'). rewrite (cur_at_rev cvs k (S i)) by lia. eauto.
  - intros [[Hi HF] [Hl HB]]. pose proof (proj1 (trail_nth _ _ _ _) HF) as HF'. pose proof (proj1 (trail_nth _ _ _ _) HB) as HB'.
    constructor; auto; intros i c v E; try apply (HF' i c v E).
    rewrite <- (rev_involutive cvs) in E. destruct (nth_error_rev_inv _ _ _ E) as (k & Hk & E'). rewrite rev_length in Hk.
    rewrite <- (cur_at_rev cvs i (S k)) by lia. apply (HB' _ c v E').
Qed.

(* foreach cut off after [cut] items yields the first [cut] items of the run, and has reached Terminal
   iff the run has at most [cut] items *)
Lemma walk_loop_trail f d u l : trail f d u l None -> forall cut acc,
  walk_loop R f d u cut (hd_or l None) acc =
  (rev acc ++ firstn cut (map snd l), if (length l <=? cut)%nat then WDone else WRunaway).
Proof.
  induction l as [|cv l IH]; intros H [|cut] acc; cbn [walk_loop hd_or]; try (cbn; now rewrite app_nil_r).
  destruct H as (Hv & Hs & H). rewrite Hv, Hs, IH by exact H. cbn [rev map firstn]. now rewrite <- app_assoc.
Qed.

(* a set of cursors that the step never leaves and that never yields Terminal: foreach is cut off, whatever the cut *)
Lemma walk_loop_trapped f d u (P : cur -> Prop) :
  (forall c, P c -> exists v c', cur_val u c = OVal v /\ it_step R f d u c = OVal (Some c') /\ P c') ->
  forall cut c acc, P c -> snd (walk_loop R f d u cut (Some c) acc) = WRunaway.
Proof.
  intros H. induction cut as [|cut IH]; intros c acc Hc; [reflexivity|].
  destruct (H c Hc) as (v & c' & Hv & Hs & Hc'). cbn [walk_loop]. rewrite Hv, Hs. now apply IH.
Qed.

Lemma walk_run f d u l cut : run f d u l ->
  walk R f d cut u = (firstn cut (map snd l), if (length l <=? cut)%nat then WDone else WRunaway).
Proof. intros [Hs H]. unfold walk. rewrite Hs. exact (walk_loop_trail f d u l H cut []). Qed.

(* [iterates f u vs]: foreach with any cut above length vs yields vs forwards and rev vs backwards, and finishes *)
Definition iterates (f : nat) (u : iterable) (vs : list val) : Prop :=
  forall cut, (length vs < cut)%nat ->
    walk R f Fwd cut u = (vs, WDone) /\ walk R f Bwd cut u = (rev vs, WDone).

Lemma wb_iterates f u cvs : wb f u cvs -> iterates f u (map snd cvs).
Proof.
  intros H cut Hc. rewrite map_length in Hc. apply wb_runs in H as [HF HB].
  rewrite (walk_run f Fwd u cvs cut HF), (walk_run f Bwd u (rev cvs) cut HB), map_rev, rev_length.
  now rewrite !firstn_all2, (proj2 (Nat.leb_le _ _)) by (rewrite ?rev_length, ?map_length; lia).
Qed.

Lemma iterates_of f u cvs vs : wb f u cvs -> map snd cvs = vs -> iterates f u vs.
Proof. intros H <-. now apply wb_iterates. Qed.

Theorem walk_safe f u cvs d cut : wb f u cvs ->
  snd (walk R f d cut u) = WDone \/ snd (walk R f d cut u) = WRunaway.
Proof.
  intros H. apply wb_runs in H as [HF HB].
  destruct d; [rewrite (walk_run f Fwd u cvs cut HF) | rewrite (walk_run f Bwd u _ cut HB)]; cbn [snd]; destruct (_ <=? _)%nat; auto.
Qed.

(* case analysis on every comparison the goal tests *)
Ltac zb := repeat match goal with
  | |- context [?a =? ?b] => destruct (Z.eqb_spec a b)
  | |- context [?a <=? ?b] => destruct (Z.leb_spec a b)
  | |- context [?a <? ?b] => destruct (Z.ltb_spec a b)
  end.

Lemma znth_nat {A} (l : list A) (i : nat) : znth l (Z.of_nat i) = nth_error l i.
Proof.
  unfold znth, zlen. rewrite Nat2Z.id. zb; try lia; [reflexivity|]. symmetry. apply nth_error_None. lia.
Qed.

Lemma znth_some {A} (l : list A) z x : znth l z = Some x -> 0 <= z < zlen l /\ nth_error l (Z.to_nat z) = Some x.
Proof. unfold znth. zb; try discriminate. auto. Qed.

Lemma znth_valid {A} (l : list A) z : 0 <= z < zlen l -> exists x, znth l z = Some x.
Proof.
  intros H. unfold znth. zb; try lia. cbn [andb]. destruct (nth_error l (Z.to_nat z)) eqn:E; [eauto|].
  apply nth_error_None in E. unfold zlen in H. lia.
Qed.

Lemma zlen_nonneg {A} (l : list A) : 0 <= zlen l.
Proof. apply Nat2Z.is_nonneg. Qed.

Lemma zlen_map {A B} (g : A -> B) l : zlen (map g l) = zlen l.
Proof. unfold zlen. now rewrite map_length. Qed.

Lemma znth_map {A B} (g : A -> B) l z : znth (map g l) z = option_map g (znth l z).
Proof. unfold znth. rewrite zlen_map. destruct (_ && _); [apply nth_error_map | reflexivity]. Qed.

Lemma seq_nth_error n s i : (i < n)%nat -> nth_error (seq s n) i = Some (s + i)%nat.
Proof. intros H. rewrite (nth_error_nth' _ 0%nat) by now rewrite seq_length. now rewrite seq_nth. Qed.

Lemma znth_seq n z : znth (seq 0 n) z = if (0 <=? z) && (z <? Z.of_nat n) then Some (Z.to_nat z) else None.
Proof.
  unfold znth, zlen. rewrite seq_length. destruct (_ && _) eqn:E; [|reflexivity]. now rewrite seq_nth_error by lia.
Qed.

(* the cursor at position z; every position outside the chain is Terminal *)
Definition zat (cvs : list (cur * val)) (z : Z) : option cur := option_map fst (znth cvs z).

Definition sgn (d : dir) : Z := match d with Fwd => 1 | Bwd => -1 end.

Definition origin (d : dir) (n : Z) : Z := match d with Fwd => 0 | Bwd => n - 1 end.

(* the walk in direction d starts inside the chain iff the chain is not empty *)
Lemma origin_test d n : 0 <= n -> (0 <=? origin d n) && (origin d n <? n) = (0 <? n).
Proof. intros H. destruct d; cbn [origin]; zb; try reflexivity; lia. Qed.

Lemma zat_next cvs i d : zat cvs (Z.of_nat i + sgn d) = match d with Fwd => cur_at cvs (S i) | Bwd => cur_before cvs i end.
Proof.
  unfold zat. destruct d; cbn [sgn].
  - replace (Z.of_nat i + 1) with (Z.of_nat (S i)) by lia. now rewrite znth_nat.
  - destruct i as [|i]; [reflexivity|]. replace (Z.of_nat (S i) + -1) with (Z.of_nat i) by lia. now rewrite znth_nat.
Qed.

Lemma zat_origin cvs d : zat cvs (origin d (zlen cvs)) = match d with Fwd => cur_at cvs 0 | Bwd => cur_before cvs (length cvs) end.
Proof. destruct d; [unfold zat; apply (f_equal (option_map fst) (znth_nat cvs 0)) | apply (zat_next cvs (length cvs) Bwd)]. Qed.

Lemma wb_z f u cvs : wb f u cvs <->
  (forall d, it_start R f d u = OVal (zat cvs (origin d (zlen cvs)))) /\
  (forall z c v, znth cvs z = Some (c, v) ->
     cur_val u c = OVal v /\ forall d, it_step R f d u c = OVal (zat cvs (z + sgn d))).
Proof.
  split.
  - intros [Hi Hl Hv Hn Hp]. split.
    + intros d. rewrite zat_origin. now destruct d.
    + intros z c v E. apply znth_some in E as [Hz E]. split; [eauto|]. intros d.
      rewrite <- (Z2Nat.id z), zat_next by lia. destruct d; eauto.
  - intros [Hs H]. constructor; try (intros i c v E; rewrite <- znth_nat in E; destruct (H _ _ _ E) as [Hv Hd]).
    + now rewrite (Hs Fwd), zat_origin.
    + now rewrite (Hs Bwd), zat_origin.
    + exact Hv.
    + now rewrite (Hd Fwd), zat_next.
    + now rewrite (Hd Bwd), zat_next.
Qed.

(* k steps from position z arrive at position z + k resp. z - k, provided no step starts outside the chain *)
Lemma jump f u cvs d k z : wb f u cvs -> 0 <= k -> (0 < k -> 0 <= z < zlen cvs) ->
  -1 <= z + sgn d * k <= zlen cvs ->
  step_n (it_step R f d u) (Z.to_nat k) (zat cvs z) = OVal (zat cvs (z + sgn d * k)).
Proof.
  intros H Hk. pose proof (proj2 (proj1 (wb_z f u cvs) H)) as Hw. clear H. revert z.
  pattern k. apply natlike_ind; [| |exact Hk]; clear k Hk.
  - intros z _ _. now rewrite Z.mul_0_r, Z.add_0_r.
  - intros k Hk IH z Hz Ht. rewrite Z2Nat.inj_succ by exact Hk. cbn [step_n].
    destruct (znth_valid cvs z ltac:(lia)) as [[c v] E]. unfold zat at 1. rewrite E. cbn [option_map fst].
    destruct (Hw _ _ _ E) as [_ ->]. cbn [bind]. rewrite IH by (destruct d; cbn [sgn] in *; lia).
    do 2 f_equal. lia.
Qed.

(* k steps from the end the walk starts at *)
Lemma reach f u cvs d k : wb f u cvs -> 0 <= k <= zlen cvs ->
  (do c0 <- it_start R f d u; step_n (it_step R f d u) (Z.to_nat k) c0) = OVal (zat cvs (origin d (zlen cvs) + sgn d * k)).
Proof.
  intros H Hk. rewrite (proj1 (proj1 (wb_z f u cvs) H) d). cbn [bind]. apply jump; auto; destruct d; cbn [origin sgn]; lia.
Qed.

Fixpoint chain_from (k : nat) (xs : list val) : list (cur * val) :=
  match xs with [] => [] | v :: r => (CPos (Z.of_nat k), v) :: chain_from (S k) r end.

Lemma chain_from_nth xs : forall k i,
  nth_error (chain_from k xs) i = option_map (fun v => (CPos (Z.of_nat (k + i)), v)) (nth_error xs i).
Proof.
  induction xs; intros k [|i]; simpl; auto.
  - now rewrite Nat.add_0_r.
  - rewrite IHxs. now replace (S k + i)%nat with (k + S i)%nat by lia.
Qed.

Lemma zlen_chain xs : forall k, zlen (chain_from k xs) = zlen xs.
Proof. unfold zlen. induction xs; intros k; cbn [chain_from length]; [reflexivity | now rewrite !Nat2Z.inj_succ, IHxs]. Qed.

Lemma chain_from_snd xs : forall k, map snd (chain_from k xs) = xs.
Proof. induction xs; simpl; intros; f_equal; auto. Qed.

Lemma znth_chain xs z : znth (chain_from 0 xs) z = option_map (fun v => (CPos z, v)) (znth xs z).
Proof.
  unfold znth. rewrite zlen_chain, chain_from_nth. destruct (_ && _) eqn:E; [|reflexivity].
  cbn [Nat.add]. rewrite Z2Nat.id by lia. reflexivity.
Qed.

Lemma zat_chain xs z : zat (chain_from 0 xs) z = if (0 <=? z) && (z <? zlen xs) then Some (CPos z) else None.
Proof.
  unfold zat. rewrite znth_chain. destruct (_ && _) eqn:E.
  - destruct (znth_valid xs z) as [x ->]; [lia | reflexivity].
  - unfold znth. now rewrite E.
Qed.

Lemma list_step_arr d n i : list_step d n i = arr_step R d n i.
Proof. destruct d; cbn; zb; try reflexivity; lia. Qed.

Lemma wb_index f u xs :
  (forall d, it_start R f d u = OVal (arr_start d (zlen xs))) ->
  (forall i, cur_val u (CPos i) = oget (znth xs i)) ->
  (forall d i, it_step R f d u (CPos i) = OVal (arr_step R d (zlen xs) i)) ->
  wb f u (chain_from 0 xs).
Proof.
  intros Hs Hv Hn. pose proof (zlen_nonneg xs). apply wb_z. split.
  - intros d. rewrite Hs, zat_chain, zlen_chain, origin_test by auto. unfold arr_start. zb; try reflexivity; lia.
  - intros z c v E. rewrite znth_chain in E. destruct (znth xs z) as [x|] eqn:Ex; inversion E; subst. split.
    + now rewrite Hv, Ex.
    + intros d. apply znth_some in Ex as [Hz _]. rewrite Hn, zat_chain.
      destruct d; cbn; zb; try reflexivity; lia.
Qed.

Lemma wb_array f xs : wb f (IArray xs) (chain_from 0 xs).
Proof. now apply wb_index. Qed.

Lemma wb_list f xs : wb f (IList xs) (chain_from 0 xs).
Proof. apply wb_index; try reflexivity. intros d i. cbn [it_step]. now rewrite list_step_arr. Qed.

Definition tup_chain (items : list (nat * val)) : list (cur * val) :=
  map (fun p => (CObj (fst p), snd p)) items.

(* the searches of Tuple_Iter_Next/Prev and of the item under a cursor stop at the first occurrence of the
   pointer: with distinct pointers that is the position the cursor came from *)
Lemma tup_nth items : NoDup (map fst items) -> forall i id v, nth_error items i = Some (id, v) ->
  find (fun p => Nat.eqb (fst p) id) items = Some (id, v) /\
  tup_next items id = cur_at (tup_chain items) (S i) /\
  (forall prev, tup_prev_from prev items id =
                match i with O => Some (CObj prev) | S j => cur_at (tup_chain items) j end) /\
  tup_prev items id = cur_before (tup_chain items) i.
Proof.
  induction items as [|[id0 v0] rest IH]; cbn [map fst]; intros Hnd [|i] id v E; try discriminate; cbn [nth_error] in E.
  - injection E as -> ->. cbn. rewrite Nat.eqb_refl. repeat split. now destruct rest as [|[]].
  - apply NoDup_cons_iff in Hnd as [Hn0 Hnd]. destruct (IH Hnd i id v E) as (Hf & Hx & Hp & _).
    assert (Hne : Nat.eqb id0 id = false).
    { apply Nat.eqb_neq. intros ->. apply Hn0. apply nth_error_In in E. exact (in_map fst _ _ E). }
    cbn [find tup_next tup_prev_from tup_prev fst]. rewrite Hne, Hp. repeat split; auto; try intros prev; now destruct i.
Qed.

Theorem wb_tuple f (items : list (nat * val)) : NoDup (map fst items) -> wb f (ITuple items) (tup_chain items).
Proof.
  intros Hnd.
  assert (H : forall i c v, nth_error (tup_chain items) i = Some (c, v) ->
              exists id, c = CObj id /\ nth_error items i = Some (id, v)).
  { intros i c v E. unfold tup_chain in E. rewrite nth_error_map in E.
    destruct (nth_error items i) as [[id w]|]; [|discriminate]. injection E as <- <-. eauto. }
  constructor; try (intros i c v E; destruct (H i c v E) as (id & -> & E');
                    destruct (tup_nth items Hnd i id v E') as (Hf & Hx & _ & Hp); cbn [cur_val it_step]).
  - now destruct items as [|[]].
  - cbn [it_start tup_start tuple_last_guard repaired]. rewrite <- (cur_at_rev _ _ 0) by lia.
    unfold tup_chain. rewrite <- map_rev. now destruct (rev items) as [|[]].
  - now rewrite Hf.
  - now rewrite Hx.
  - now rewrite Hp.
Qed.

Fixpoint tab_chain_from (i : nat) (slots : list (option val)) : list (cur * val) :=
  match slots with
  | [] => []
  | Some k :: r => (CPos (Z.of_nat i), k) :: tab_chain_from (S i) r
  | None :: r => tab_chain_from (S i) r
  end.

Lemma tab_chain_app s t : forall i,
  tab_chain_from i (s ++ t) = tab_chain_from i s ++ tab_chain_from (i + length s) t.
Proof.
  induction s as [|[k|] s IH]; intros i; simpl.
  - now rewrite Nat.add_0_r.
  - rewrite IH. do 3 f_equal. lia.
  - rewrite IH. do 2 f_equal. lia.
Qed.

Lemma tab_chain_length slots : forall i, Z.of_nat (length (tab_chain_from i slots)) = nitems_of slots.
Proof.
  unfold nitems_of, zlen. induction slots as [|[k|] r IH]; intros i; cbn [tab_chain_from filter length]; auto.
  rewrite !Nat2Z.inj_succ. f_equal. apply IH.
Qed.

(* tab_first carries the index of the slot it looks at: i slots have been passed *)
Lemma tab_first_ok slots : forall i, tab_first slots (Z.of_nat i) = hd_or (tab_chain_from i slots) None.
Proof.
  induction slots as [|[k|] r IH]; intros i; simpl; auto.
  replace (Z.of_nat i + 1) with (Z.of_nat (S i)) by lia. apply IH.
Qed.

(* Table_Iter_Next scans to the next occupied slot: from slot k on, the occupied slots in order *)
Lemma tab_fwd f slots : forall post pre k, slots = pre ++ post -> k = length pre ->
  (forall fuel, (length post < fuel)%nat ->
     tab_scan R fuel Fwd slots (Z.of_nat k) = OVal (hd_or (tab_chain_from k post) None)) /\
  trail f Fwd (ITable slots) (tab_chain_from k post) None.
Proof.
  induction post as [|x post IH]; intros pre k E Hk.
  - split; [|exact I]. intros [|fuel] Hf; [now apply Nat.nlt_0_r in Hf|]. cbn [tab_scan table_next_strict repaired].
    rewrite (proj2 (Z.ltb_lt _ _)); [reflexivity|]. subst. unfold zlen. rewrite app_length. cbn. lia.
  - destruct (IH (pre ++ [x]) (S k)) as [Hscan Ht]; [now rewrite <- app_assoc | rewrite app_length; cbn; lia |].
    assert (Hx : znth slots (Z.of_nat k) = Some x) by (subst; now rewrite znth_nat, nth_error_app_len).
    assert (Hl : (S (length post) < S (length slots))%nat) by (subst slots; rewrite app_length; cbn; lia).
    replace (Z.of_nat (S k)) with (Z.of_nat k + 1) in Hscan by lia.
    split.
    + intros [|fuel] Hf; [now apply Nat.nlt_0_r in Hf|]. cbn [tab_scan table_next_strict repaired]. unfold occupied. rewrite Hx.
      rewrite (proj2 (Z.ltb_ge _ _)) by (subst; unfold zlen; rewrite app_length; cbn; lia).
      destruct x; [reflexivity|]. apply Hscan. cbn in Hf. lia.
    + destruct x; [|exact Ht]. repeat split; auto.
      * cbn. now rewrite Hx.
      * cbn [it_step fst]. apply Hscan. lia.
Qed.

(* Table_Iter_Prev scans back to the previous occupied slot: before slot k, the occupied slots in reverse order *)
Lemma tab_bwd f slots : forall pre post, slots = pre ++ post ->
  (forall fuel, (length pre < fuel)%nat ->
     tab_scan R fuel Bwd slots (Z.of_nat (length pre) - 1) = OVal (hd_or (rev (tab_chain_from 0 pre)) None)) /\
  trail f Bwd (ITable slots) (rev (tab_chain_from 0 pre)) None.
Proof.
  induction pre as [|x pre IH] using rev_ind; intros post E.
  - split; [|exact I]. now intros [|fuel] Hf; [now apply Nat.nlt_0_r in Hf|].
  - rewrite <- app_assoc in E. cbn [app] in E. destruct (IH (x :: post) E) as [Hscan Ht].
    assert (Hx : znth slots (Z.of_nat (length pre)) = Some x) by (subst; now rewrite znth_nat, nth_error_app_len).
    assert (Hl : (length pre < S (length slots))%nat) by (subst slots; rewrite app_length; lia).
    rewrite tab_chain_app, rev_app_distr, app_length. cbn [length Nat.add].
    replace (Z.of_nat (length pre + 1) - 1) with (Z.of_nat (length pre)) by lia.
    split.
    + intros [|fuel] Hf; [now apply Nat.nlt_0_r in Hf|]. cbn [tab_scan]. unfold occupied. rewrite Hx, (proj2 (Z.ltb_ge _ _)) by lia.
      destruct x; [reflexivity|]. apply Hscan. lia.
    + destruct x; [|exact Ht]. repeat split; auto.
      * cbn. now rewrite Hx.
      * cbn [it_step fst]. apply Hscan. lia.
Qed.

(* Table_Iter_Last is tab_first over the reversed slots with the index mirrored back; j is tab_first's running index,
   the number of slots of the reversed array already passed, which the induction from the back has to carry *)
Lemma tab_last_ok slots : forall j,
  match tab_first (rev slots) j with Some (CPos k) => Some (CPos (zlen slots - 1 + j - k)) | _ => None end =
  hd_or (rev (tab_chain_from 0 slots)) None.
Proof.
  induction slots as [|x s IH] using rev_ind; intros j; [reflexivity|].
  rewrite rev_app_distr, tab_chain_app, rev_app_distr. unfold zlen. rewrite app_length. cbn [rev app length tab_first].
  destruct x; cbn [tab_chain_from rev app hd_or fst]; [do 2 f_equal; lia|].
  rewrite <- (IH (j + 1)). destruct (tab_first (rev s) (j + 1)) as [[k| | | | | |]|]; try reflexivity. unfold zlen. do 2 f_equal. lia.
Qed.

Theorem wb_table f slots : wb f (ITable slots) (tab_chain_from 0 slots).
Proof.
  apply wb_runs. split; split.
  - cbn [it_start]. unfold tab_start. rewrite <- (tab_chain_length slots 0), (tab_first_ok slots 0 : tab_first slots 0 = _).
    now destruct (tab_chain_from 0 slots).
  - now apply (tab_fwd f slots slots []).
  - cbn [it_start]. unfold tab_start. rewrite <- (tab_chain_length slots 0), <- (rev_length (tab_chain_from 0 slots)).
    pose proof (tab_last_ok slots 0) as E. rewrite Z.add_0_r in E. rewrite E. now destruct (rev (tab_chain_from 0 slots)).
  - apply (tab_bwd f slots slots []). now rewrite app_nil_r.
Qed.

Lemma tab_len slots : it_len R (ITable slots) = OVal (zlen (tab_chain_from 0 slots)).
Proof. cbn [it_len]. unfold zlen. now rewrite tab_chain_length. Qed.

Lemma tab_chain_keys slots k : forall i, In k (map snd (tab_chain_from i slots)) <-> In (Some k) slots.
Proof.
  induction slots as [|[k0|] r IH]; intros i; simpl.
  - tauto.
  - rewrite IH. split; intros [H|H]; auto; left; congruence.
  - rewrite IH. split; [auto|]. intros [H|H]; [discriminate|auto].
Qed.

(* in-order chain (d = Fwd) resp. reverse in-order chain (d = Bwd) of the subtree s sitting at reversed path rp *)
Fixpoint tchain (d : dir) (s : tree) (rp : list tdir) : list (cur * val) :=
  match s with
  | TLeaf => []
  | TNode l k r =>
    match d with
    | Fwd => tchain d l (TL :: rp) ++ (CNode rp, k) :: tchain d r (TR :: rp)
    | Bwd => tchain d r (TR :: rp) ++ (CNode rp, k) :: tchain d l (TL :: rp)
    end
  end.

Lemma tchain_bwd_rev s : forall rp, tchain Bwd s rp = rev (tchain Fwd s rp).
Proof.
  induction s as [|l IHl k r IHr]; intros rp; [reflexivity|]. cbn [tchain].
  rewrite rev_app_distr. cbn [rev]. rewrite <- app_assoc. cbn [app]. now rewrite IHl, IHr.
Qed.

Lemma tchain_leaf d rp : tchain d TLeaf rp = [].
Proof. reflexivity. Qed.

Lemma node_at_cons T x rp : node_at T (x :: rp) = child x (node_at T rp).
Proof.
  unfold node_at. cbn [rev]. generalize (rev rp). intros p. revert T. induction p as [|y p IH]; intros T; [reflexivity|]. apply IH.
Qed.

Lemma tchain_first d s rp e : s <> TLeaf -> hd_or (tchain d s rp) e = Some (CNode (descend (near_of d) s rp)).
Proof.
  revert rp e. induction s as [|l IHl k r IHr]; intros rp e Hne; [congruence|].
  destruct d; cbn [tchain near_of descend]; rewrite hd_or_app.
  - destruct l; [reflexivity|]. now apply IHl.
  - destruct r; [reflexivity|]. now apply IHr.
Qed.

Lemma tree_trail f d T : forall s rp, node_at T rp = s ->
  trail f d (ITree T) (tchain d s rp) (option_map CNode (climb (near_of d) rp)).
Proof.
  induction s as [|l IHl k r IHr]; intros rp Hs; [exact I|].
  assert (Hc : forall x, node_at T (x :: rp) = child x (TNode l k r)) by (intros x; now rewrite node_at_cons, Hs).
  destruct d; cbn [tchain]; (apply trail_app; [|split; [cbn [cur_val fst snd]; now rewrite Hs|split]]).
  - apply (IHl (TL :: rp)), Hc.
  - cbn [it_step fst]. unfold tree_step. rewrite Hs. cbn [near_of opp child]. destruct r; [reflexivity|].
    now rewrite tchain_first.
  - apply (IHr (TR :: rp)), Hc.
  - apply (IHr (TR :: rp)), Hc.
  - cbn [it_step fst]. unfold tree_step. rewrite Hs. cbn [near_of opp child]. destruct l; [reflexivity|].
    now rewrite tchain_first.
  - apply (IHl (TL :: rp)), Hc.
Qed.

Theorem wb_tree f T : wb f (ITree T) (tchain Fwd T []).
Proof.
  assert (H : forall d, run f d (ITree T) (tchain d T [])).
  { intros d. split; [|exact (tree_trail f d T T [] eq_refl)]. cbn [it_start]. unfold tree_start.
    destruct T; [reflexivity|]. now rewrite tchain_first. }
  apply wb_runs. split; [|rewrite <- tchain_bwd_rev]; apply H.
Qed.

Fixpoint inorder (t : tree) : list val :=
  match t with TLeaf => [] | TNode l k r => inorder l ++ k :: inorder r end.

Lemma tchain_snd s : forall rp, map snd (tchain Fwd s rp) = inorder s.
Proof.
  induction s as [|l IHl k r IHr]; intros rp; [reflexivity|]. cbn [tchain inorder].
  rewrite map_app. cbn [map snd]. now rewrite IHl, IHr.
Qed.

Lemma tree_len T : it_len R (ITree T) = OVal (zlen (inorder T)).
Proof.
  cbn [it_len]. unfold zlen. do 2 f_equal. induction T as [|l IHl k r IHr]; [reflexivity|].
  cbn [tree_size inorder]. rewrite app_length. cbn [length]. lia.
Qed.

Definition box : Z := 4611686018427387904.   (* 2^62 *)
Definition in_box (r : rng) : Prop :=
  - box < r_start r < box /\ - box < r_stop r < box /\ - box < r_step r < box /\ r_step r <> 0.

Lemma box_two63 : 1 < box /\ two63 = 2 * box.
Proof. now split. Qed.

Lemma wrap64_id x : - two63 <= x < two63 -> wrap64 x = x.
Proof. intros H. unfold wrap64. rewrite Z.mod_small; lia. Qed.

Lemma div_le_self D a : 0 <= D -> 0 < a -> 0 <= D / a <= D.
Proof.
  intros HD Ha. pose proof (Z.div_pos D a HD Ha). pose proof (Z.div_le_compat_l D 1 a HD) as Hu. rewrite Z.div_1_r in Hu. lia.
Qed.

Lemma abs_if s : Z.abs s = if 0 <? s then s else - s.
Proof. destruct (Z.ltb_spec 0 s) as [H|H]; [apply Z.abs_eq, Z.lt_le_incl, H | apply Z.abs_neq, H]. Qed.

(* the number of items and the i-th item of range(start, stop, step), as the definition says *)
Definition range_count (r : rng) : Z :=
  if r_stop r <=? r_start r then 0 else (r_stop r - 1 - r_start r) / Z.abs (r_step r) + 1.
Definition range_val (r : rng) (i : Z) : Z :=
  (if 0 <? r_step r then r_start r else r_stop r - 1) + r_step r * i.
Definition range_elems (r : rng) : list Z :=
  map (fun i => range_val r (Z.of_nat i)) (seq 0 (Z.to_nat (range_count r))).

(* Euclidean division by |step| *)
Lemma range_count_spec r : r_step r <> 0 ->
  (range_count r = 0 /\ r_stop r <= r_start r) \/
  (0 < range_count r /\ r_start r < r_stop r /\
   Z.abs (r_step r) * (range_count r - 1) <= r_stop r - 1 - r_start r < Z.abs (r_step r) * range_count r).
Proof.
  intros Hn. unfold range_count. destruct (Z.leb_spec (r_stop r) (r_start r)); [now left | right].
  assert (Ha : 0 < Z.abs (r_step r)) by lia.
  pose proof (Z.mul_div_le (r_stop r - 1 - r_start r) _ Ha).
  pose proof (Z.mul_succ_div_gt (r_stop r - 1 - r_start r) _ Ha).
  assert (0 <= (r_stop r - 1 - r_start r) / Z.abs (r_step r)) by (apply Z.div_pos; lia).
  rewrite Z.add_simpl_r. lia.
Qed.

Lemma range_count_nonneg r : 0 <= range_count r.
Proof.
  unfold range_count. destruct (Z.leb_spec (r_stop r) (r_start r)); [lia|].
  pose proof (Z_div_nonneg_nonneg (r_stop r - 1 - r_start r) (Z.abs (r_step r))). lia.
Qed.

Lemma range_count_le r : r_step r <> 0 -> 0 < range_count r -> range_count r <= r_stop r - r_start r.
Proof.
  intros Hn. unfold range_count. destruct (Z.leb_spec (r_stop r) (r_start r)); [lia|].
  pose proof (div_le_self (r_stop r - 1 - r_start r) (Z.abs (r_step r))). lia.
Qed.

Lemma range_val_bounds r i : r_step r <> 0 -> 0 <= i < range_count r ->
  r_start r <= range_val r i < r_stop r.
Proof.
  intros Hn Hi. destruct (range_count_spec r Hn) as [|(_ & _ & H)]; [lia|]. unfold range_val. rewrite abs_if in H.
  destruct (Z.ltb_spec 0 (r_step r)); nia.
Qed.

Lemma range_val_past r i : r_step r <> 0 -> range_count r <= i ->
  if 0 <? r_step r then r_stop r <= range_val r i else range_val r i < r_start r.
Proof.
  intros Hn Hi. unfold range_val. destruct (range_count_spec r Hn) as [[E H]|(_ & _ & H)].
  - rewrite E in Hi. destruct (Z.ltb_spec 0 (r_step r)); nia.
  - rewrite abs_if in H. destruct (Z.ltb_spec 0 (r_step r)); nia.
Qed.

(* the innermost [wrap64] first: its argument is within int64 by [tac] over the hypotheses *)
Ltac unwrap tac :=
  repeat match goal with
  | |- context [wrap64 ?t] =>
    lazymatch t with context [wrap64 _] => fail | _ => rewrite (wrap64_id t) by tac end
  end.

Lemma span_quot D a : 0 <= D < two63 - 1 -> 0 < a -> wrap64 (Z.quot D a + 1) = D / a + 1.
Proof.
  intros HD Ha. pose proof (div_le_self D a). rewrite Z.quot_div_nonneg by lia. apply wrap64_id. lia.
Qed.

Lemma range_len_ok r : in_box r -> range_len R r = range_count r.
Proof.
  intros (Hs & Ht & Hp & Hn). pose proof box_two63.
  unfold range_len, range_count. cbn [range_len_guard repaired andb]. rewrite (proj2 (Z.eqb_neq _ _) Hn), abs_if.
  destruct (Z.leb_spec (r_stop r) (r_start r)); [reflexivity|].
  rewrite (wrap64_id (r_stop r - 1)), (wrap64_id (r_stop r - 1 - r_start r)) by lia.
  destruct (Z.ltb_spec 0 (r_step r)); [|rewrite (wrap64_id (- r_step r)) by lia]; apply span_quot; lia.
Qed.

(* Range_Iter_Init/Next/Prev test the end their cursor moves towards: which comparison that is depends on the sign of the step *)
Lemma sign_tests {T} s (A B : bool) (x y : T) : s <> 0 ->
  (if (0 <? s) && A then x else if (s <? 0) && B then x else y) = if (if 0 <? s then A else B) then x else y.
Proof. intros H. zb; try lia; now destruct A, B. Qed.

Lemma range_far_test r j : r_step r <> 0 -> 0 <= j ->
  (if 0 <? r_step r then r_stop r <=? range_val r j else range_val r j <? r_start r) = negb (j <? range_count r).
Proof.
  intros Hn Hj. destruct (Z.ltb_spec j (range_count r)) as [H|H]; cbn [negb].
  - destruct (range_val_bounds r j Hn (conj Hj H)). destruct (0 <? r_step r); [now apply Z.leb_gt | now apply Z.ltb_ge].
  - pose proof (range_val_past r j Hn H). destruct (0 <? r_step r); [now apply Z.leb_le | now apply Z.ltb_lt].
Qed.

Lemma range_near_test r j : r_step r <> 0 -> j < range_count r ->
  (if 0 <? r_step r then range_val r j <? r_start r else r_stop r <=? range_val r j) = negb (0 <=? j).
Proof.
  intros Hn Hj. destruct (Z.leb_spec 0 j) as [H|H]; cbn [negb].
  - destruct (range_val_bounds r j Hn (conj H Hj)). destruct (0 <? r_step r); [now apply Z.ltb_ge | now apply Z.leb_gt].
  - unfold range_val. destruct (Z.ltb_spec 0 (r_step r)); [apply Z.ltb_lt | apply Z.leb_le]; nia.
Qed.

Lemma range_init_ok r : in_box r ->
  range_init r = if 0 <? range_count r then Some (range_val r 0) else None.
Proof.
  intros (Hs & Ht & Hp & Hn). pose proof box_two63. unfold range_init. rewrite (proj2 (Z.eqb_neq _ _) Hn), sign_tests by auto.
  unwrap lia. replace (if 0 <? r_step r then r_start r else r_stop r - 1) with (range_val r 0) by (unfold range_val; lia).
  rewrite range_far_test by (auto; lia). now destruct (0 <? range_count r).
Qed.

Lemma range_at_ok r i : in_box r -> 0 <= i < range_count r -> range_at r i = range_val r i.
Proof.
  intros (Hs & Ht & _ & Hn) Hi. pose proof box_two63. apply (range_val_bounds r i Hn) in Hi. clear Hn.
  unfold range_at, range_val in *. destruct (0 <? r_step r); now unwrap lia.
Qed.

(* Range_Iter_Last computes the item at len - 1 *)
Lemma range_last_ok r : in_box r ->
  range_last R r = if 0 <? range_count r then Some (range_val r (range_count r - 1)) else None.
Proof.
  intros Hb. unfold range_last. cbn [range_last_aligned repaired]. rewrite (range_len_ok r Hb).
  pose proof Hb as (Hs & Ht & Hp & Hn). pose proof box_two63.
  destruct (range_count_spec r Hn) as [[-> _]|(H0 & H1 & _)]; [reflexivity|]. pose proof (range_count_le r Hn H0).
  rewrite (proj2 (Z.eqb_neq _ 0)), (proj2 (Z.ltb_lt 0 (range_count r))), (wrap64_id (range_count r - 1)) by lia.
  rewrite <- (range_at_ok r (range_count r - 1) Hb) by lia. unfold range_at.
  destruct (Z.ltb_spec 0 (r_step r)); [|rewrite (proj2 (Z.ltb_lt _ 0)) by lia]; reflexivity.
Qed.

Lemma ostart_ok d r : in_box r ->
  ostart R d r = if 0 <? range_count r then Some (range_val r (origin d (range_count r))) else None.
Proof. destruct d; [apply range_init_ok | apply range_last_ok]. Qed.

(* Range_Iter_Next / Range_Iter_Prev from the i-th value: the neighbouring value, Terminal past either end *)
Lemma ostep_ok d r i : in_box r -> 0 <= i < range_count r ->
  ostep d r (range_val r i) =
  if (0 <=? i + sgn d) && (i + sgn d <? range_count r) then Some (range_val r (i + sgn d)) else None.
Proof.
  intros (Hs & Ht & Hp & Hn) Hi. pose proof box_two63. pose proof (range_val_bounds r i Hn Hi) as Hv.
  destruct d; cbn [ostep sgn]; unfold range_next, range_prev; rewrite (proj2 (Z.eqb_neq _ _) Hn), sign_tests by auto; unwrap lia.
  - replace (range_val r i + r_step r) with (range_val r (i + 1)) by (unfold range_val; lia).
    rewrite range_far_test, (proj2 (Z.leb_le 0 (i + 1))) by (auto; lia). now destruct (_ <? _).
  - replace (range_val r i - r_step r) with (range_val r (i + -1)) by (unfold range_val; lia).
    rewrite range_near_test, (proj2 (Z.ltb_lt (i + -1) _)), andb_true_r by (auto; lia). now destruct (_ <=? _).
Qed.

(* Range_Get: get(i) is the i-th item, for 0 <= i < len and for the negative indices -len .. -1;
   everything else raises IndexOutOfBoundsError *)
Lemma range_get_ok r key : in_box r -> - two63 <= key < two63 ->
  range_get R r key =
  let i := if key <? 0 then range_count r + key else key in
  if (0 <=? i) && (i <? range_count r) then OVal (range_val r i) else ORaise EIndex.
Proof.
  intros Hb Hk. pose proof Hb as (Hs & Ht & Hp & Hn). pose proof box_two63.
  pose proof (range_count_nonneg r). pose proof (range_count_le r Hn).
  unfold range_get. cbn [range_get_checked repaired]. rewrite (range_len_ok r Hb), (proj2 (Z.eqb_neq _ _) Hn).
  cbv zeta. destruct (Z.ltb_spec key 0); unwrap lia; (destruct (_ && _) eqn:E; [|reflexivity]);
    now rewrite range_at_ok by (auto; lia).
Qed.

(* Range_Iter_Last as TRANSLATED from the C source:
   tools/genx_iter.py translates the two expressions Range_Iter_Last assigns to i->val (whatever their form) into
   Generated.iter_range_last_pos / _neg, every int64 operation under wrap64.  On the box they are the model's
   first + step*(len-1): so the model follows the source for this leaf by proof, not by text matching. *)

Lemma rem_by_q D a q : 0 < a -> a * q <= D < a * q + a -> 0 <= q -> Z.rem D a = D - a * q.
Proof. intros Ha H Hq. symmetry. apply (Z.rem_unique D a q); nia. Qed.

Lemma quot_by_q D a q : 0 < a -> a * q <= D < a * q + a -> 0 <= q -> Z.quot D a = q.
Proof. intros Ha H Hq. symmetry. apply (Z.quot_unique D a q (D - a * q)); nia. Qed.

(* strips every wrap64, gives every quot / rem of the goal its value for the quotient [q], then lia; this
   also serves a text that computes the last value from the far end with a remainder ((stop-1) - span % step) *)
Ltac int64_exact q :=
  repeat first [ progress unwrap lia | rewrite (rem_by_q _ _ q) by lia | rewrite (quot_by_q _ _ q) by lia ]; lia.

Lemma source_range_last_ok r : in_box r -> 0 < range_count r ->
  (0 < r_step r -> iter_range_last_pos wrap64 (r_start r) (r_stop r) (r_step r) (range_count r) = range_val r (range_count r - 1)) /\
  (r_step r < 0 -> iter_range_last_neg wrap64 (r_start r) (r_stop r) (r_step r) (range_count r) = range_val r (range_count r - 1)).
Proof.
  intros (Hs & Ht & Hp & Hn) Hc. pose proof box_two63.
  destruct (range_count_spec r Hn) as [|(_ & Hlt & Hq)]; [lia|]. rewrite abs_if in Hq.
  pose proof (range_count_le r Hn Hc). clear Hn.
  split; intros Hsg; unfold iter_range_last_pos, iter_range_last_neg, range_val.
  - rewrite (proj2 (Z.ltb_lt _ _) Hsg) in *.
    assert (0 <= r_step r * (range_count r - 1)) by (apply Z.mul_nonneg_nonneg; lia). int64_exact (range_count r - 1).
  - rewrite (proj2 (Z.ltb_ge _ _)) in * by lia.
    assert (0 <= - r_step r * (range_count r - 1)) by (apply Z.mul_nonneg_nonneg; lia). int64_exact (range_count r - 1).
Qed.

Definition range_chain (r : rng) : list (cur * val) :=
  map (fun v => (CInt v, VInt v)) (range_elems r).

Lemma range_elems_length r : length (range_elems r) = Z.to_nat (range_count r).
Proof. unfold range_elems. now rewrite map_length, seq_length. Qed.

Lemma range_elems_nth r i : (i < Z.to_nat (range_count r))%nat ->
  nth_error (range_elems r) i = Some (range_val r (Z.of_nat i)).
Proof.
  intros H. unfold range_elems. rewrite nth_error_map, seq_nth_error by auto. reflexivity.
Qed.

Lemma zlen_range r : zlen (range_elems r) = range_count r.
Proof. unfold zlen. rewrite range_elems_length. apply Z2Nat.id, range_count_nonneg. Qed.

Lemma range_len_elems {A} (g : Z -> A) r : in_box r -> range_len R r = zlen (map g (range_elems r)).
Proof. intros Hb. now rewrite range_len_ok, zlen_map, zlen_range. Qed.

Lemma znth_range r z :
  znth (range_elems r) z = if (0 <=? z) && (z <? range_count r) then Some (range_val r z) else None.
Proof.
  unfold znth. rewrite zlen_range. destruct (_ && _) eqn:E; [|reflexivity].
  rewrite range_elems_nth, Z2Nat.id by lia. reflexivity.
Qed.

Theorem wb_range f r : in_box r -> wb f (IRange r) (range_chain r).
Proof.
  intros Hb. apply wb_z. unfold zat, range_chain. rewrite zlen_map, zlen_range. split.
  - intros d. cbn [it_start]. rewrite ostart_ok, znth_map, znth_range, origin_test by (auto using range_count_nonneg).
    now destruct (0 <? range_count r).
  - intros z c v E. rewrite znth_map, znth_range in E. revert E. zb; intros [= <- <-]. split; [reflexivity|].
    intros d. cbn [it_step]. rewrite ostep_ok by (auto; lia). rewrite znth_map, znth_range. now destruct (_ && _).
Qed.

Lemma range_chain_snd r : map snd (range_chain r) = map VInt (range_elems r).
Proof. unfold range_chain. now rewrite map_map. Qed.

Definition map_chain (g : val -> val) (cvs : list (cur * val)) : list (cur * val) :=
  map (fun cv => (CMap (fst cv) (g (snd cv)), g (snd cv))) cvs.

Lemma map_chain_snd g cvs : map snd (map_chain g cvs) = map g (map snd cvs).
Proof. unfold map_chain. rewrite !map_map. reflexivity. Qed.

Lemma map_wrap_hd f d u l g : trail f d u l None ->
  map_wrap g (cur_val u) (hd_or l None) = OVal (hd_or (map_chain g l) None).
Proof. destruct l as [|cv l]; [reflexivity|]. intros [Hv _]. cbn. now rewrite Hv. Qed.

Lemma run_map f d u l g : run f d u l -> run f d (IMap g u) (map_chain g l).
Proof.
  intros [Hs H]. split.
  - cbn [it_start]. rewrite Hs. now apply (map_wrap_hd f d).
  - clear Hs. induction l as [|cv l IH]; [exact I|]. destruct H as (Hv & Hs & H).
    split; [reflexivity|]. split; [|now apply IH]. cbn [it_step fst]. rewrite Hs. now apply (map_wrap_hd f d).
Qed.

Theorem wb_map f u cvs g : wb f u cvs -> wb f (IMap g u) (map_chain g cvs).
Proof.
  rewrite !wb_runs. intros [HF HB]. split; [|unfold map_chain; rewrite <- map_rev]; now apply run_map.
Qed.

Definition is_some {A} (o : option A) : bool := match o with Some _ => true | None => false end.
(* accepted = the predicate answers with ANY non-NULL object; the chain keeps the element's own cursor and item *)
Definition acc_of (p : val -> option val) (cv : cur * val) : bool := is_some (p (snd cv)).

Lemma filter_rev {A} (P : A -> bool) l : filter P (rev l) = rev (filter P l).
Proof.
  induction l as [|a l IH]; [reflexivity|]. cbn [rev filter]. rewrite filter_app, IH. cbn [filter].
  destruct (P a); [reflexivity | apply app_nil_r].
Qed.

Lemma filter_loop_trail f d u p l : trail f d u l None -> forall k, (length l <= k)%nat ->
  filter_loop (it_step R f d u) (cur_val u) p k (hd_or l None) = OVal (hd_or (filter (acc_of p) l) None).
Proof.
  induction l as [|cv l IH]; intros H [|k] Hk; try reflexivity; [cbn in Hk; lia|].
  destruct H as (Hv & Hs & H). cbn [filter_loop hd_or filter]. rewrite Hv. cbn [bind]. unfold acc_of at 1.
  destruct (p (snd cv)); [reflexivity|]. rewrite Hs. apply IH; [exact H | cbn in Hk; lia].
Qed.

Lemma run_filter f d u l p : run f d u l -> (length l <= f)%nat -> run f d (IFilter p u) (filter (acc_of p) l).
Proof.
  intros [Hs H] Hf. split.
  - cbn [it_start]. rewrite Hs. now apply filter_loop_trail.
  - clear Hs. induction l as [|cv l IH]; [exact I|]. destruct H as (Hv & Hs & H). cbn [length] in Hf.
    specialize (IH H ltac:(lia)). cbn [filter]. destruct (acc_of p cv); [|exact IH].
    split; [exact Hv|]. split; [|exact IH]. cbn [it_step]. rewrite Hs. apply filter_loop_trail; [exact H | lia].
Qed.

Theorem wb_filter f u cvs p : wb f u cvs -> (length cvs <= f)%nat ->
  wb f (IFilter p u) (filter (acc_of p) cvs).
Proof.
  rewrite !wb_runs. intros [HF HB] Hf. split; [|rewrite <- filter_rev]; apply run_filter; rewrite ?rev_length; auto.
Qed.

Lemma filter_chain_snd p cvs : map snd (filter (acc_of p) cvs) = filter (fun v => is_some (p v)) (map snd cvs).
Proof.
  induction cvs as [|cv l IH]; [reflexivity|]. cbn [filter map]. unfold acc_of at 1.
  destruct (p (snd cv)); cbn [is_some map]; now rewrite IH.
Qed.

(* what slice_stack guarantees about the Slice's own range (Slice_Arg clamps start and stop to [0, n]) *)
Definition slice_ok (r : rng) (n : Z) : Prop :=
  in_box r /\ 0 <= r_start r <= n /\ 0 <= r_stop r <= n.

Definition slice_chain (r : rng) (cvs : list (cur * val)) : list (cur * val) :=
  map (fun p => match nth_error cvs (Z.to_nat p) with
                | Some (c, v) => (CSlice c p, v)
                | None => (CPos 0, VInt 0)
                end) (range_elems r).

Lemma slice_chain_length r cvs : length (slice_chain r cvs) = Z.to_nat (range_count r).
Proof. unfold slice_chain. now rewrite map_length, range_elems_length. Qed.

(* the selected positions lie inside the underlying chain *)
Lemma znth_slice r cvs z : slice_ok r (zlen cvs) ->
  znth (slice_chain r cvs) z =
  if (0 <=? z) && (z <? range_count r)
  then option_map (fun cv => (CSlice (fst cv) (range_val r z), snd cv)) (znth cvs (range_val r z))
  else None.
Proof.
  intros ((_ & _ & _ & Hn) & Hs & Ht). unfold slice_chain. rewrite znth_map, znth_range.
  destruct (Z.leb_spec 0 z); destruct (Z.ltb_spec z (range_count r)); try reflexivity. cbn [andb option_map].
  pose proof (range_val_bounds r z Hn ltac:(lia)). destruct (znth_valid cvs (range_val r z) ltac:(lia)) as [[c v] E].
  rewrite E. apply znth_some in E as [_ ->]. reflexivity.
Qed.

Lemma sgn_flip d : sgn (flip d) = - sgn d.
Proof. now destruct d. Qed.

Lemma slice_move f u cvs d s p c v : wb f u cvs -> znth cvs p = Some (c, v) -> s <> 0 ->
  -1 <= p + sgn d * s <= zlen cvs ->
  (if 0 <? s then step_n (it_step R f d u) (Z.to_nat s) (Some c)
   else if s <? 0 then step_n (it_step R f (flip d) u) (Z.to_nat (- s)) (Some c)
   else OVal (Some c)) = OVal (zat cvs (p + sgn d * s)).
Proof.
  intros H E Hs Ht. pose proof (znth_some _ _ _ E) as [Hp _].
  change (Some c) with (option_map fst (Some (c, v))). rewrite <- E. fold (zat cvs p).
  destruct (Z.ltb_spec 0 s); [|rewrite (proj2 (Z.ltb_lt s 0)) by lia];
    rewrite (jump f u cvs) by (rewrite ?sgn_flip; auto; lia); [reflexivity|].
  rewrite sgn_flip. do 2 f_equal. lia.
Qed.

Theorem wb_slice f u cvs r : wb f u cvs -> it_len R u = OVal (zlen cvs) -> slice_ok r (zlen cvs) ->
  wb f (ISlice u r) (slice_chain r cvs).
Proof.
  intros H Hlen Hok. pose proof Hok as (Hb & Hs & Ht). pose proof Hb as (_ & _ & _ & Hn).
  pose proof (range_count_nonneg r) as Hc0.
  assert (Hfin : forall q p, q = p -> (do c <- OVal (zat cvs q); OVal (option_map (fun x => CSlice x p) c)) =
            OVal (option_map fst (option_map (fun cv => (CSlice (fst cv) p, snd cv)) (znth cvs p))))
    by (intros q p ->; unfold zat; now destruct (znth cvs p)).
  apply wb_z. unfold zat, zlen at 1. rewrite slice_chain_length, Z2Nat.id by auto. split.
  - (* Slice_Iter_Init / Slice_Iter_Last: from the nearer end of the input to the first / last selected position *)
    intros d. cbn [it_start slice_bounded repaired]. rewrite ostart_ok, znth_slice, origin_test by auto.
    destruct (Z.ltb_spec 0 (range_count r)) as [Hc|Hc]; [|reflexivity].
    assert (Hv := range_val_bounds r (origin d (range_count r)) Hn ltac:(destruct d; cbn [origin]; lia)).
    unfold range_val in *.
    destruct (Z.ltb_spec 0 (r_step r)); [|rewrite (proj2 (Z.ltb_lt (r_step r) 0)) by lia]; destruct d; cbn [origin] in *;
      rewrite ?Hlen; cbn [bind]; rewrite (reach f u cvs) by (auto; lia); apply Hfin; cbn [origin sgn]; lia.
  - intros z c' v' E. rewrite znth_slice in E by auto. revert E. zb; try discriminate. cbn [andb].
    destruct (znth cvs (range_val r z)) as [[c v]|] eqn:Ep; intros [= <- <-].
    split; [exact (proj1 (proj2 (proj1 (wb_z f u cvs) H) _ _ _ Ep))|].
    intros d. cbn [it_step slice_bounded repaired]. rewrite ostep_ok, znth_slice by (auto; lia).
    destruct (_ && _) eqn:Ej; [|reflexivity].
    rewrite (slice_move f u cvs d (r_step r) _ c v H Ep Hn).
    + apply Hfin. unfold range_val. lia.
    + pose proof (range_val_bounds r (z + sgn d) Hn ltac:(lia)). unfold range_val in *. lia.
Qed.

(* A Slice does not touch its input once its own Range is exhausted.
   For ANY input u (well-behaved or not): when the Slice's Range cursor says Terminal, Slice_Iter_Next/Prev (resp.
   Init/Last) answer Terminal without a single call on the input - no look-ahead beyond the selection.  Together with
   [slice_move] (between two selected positions exactly |step| steps, all inside the chain) this is what the probe
   sections af= / ab= of the correspondence observe. *)
Lemma slice_exhausted_touches_nothing f d u r c rv : ostep d r rv = None ->
  it_step R f d (ISlice u r) (CSlice c rv) = OVal None.
Proof. intros H. cbn [it_step slice_bounded repaired]. now rewrite H. Qed.

Lemma slice_empty_touches_nothing f d u r : ostart R d r = None -> it_start R f d (ISlice u r) = OVal None.
Proof. intros H. cbn [it_start slice_bounded repaired]. now rewrite H. Qed.

Fixpoint mapM {A B} (g : A -> option B) (l : list A) : option (list B) :=
  match l with
  | [] => Some []
  | a :: r => match g a with None => None | Some b => option_map (cons b) (mapM g r) end
  end.

Definition zrow (css : list (list (cur * val))) (j : nat) := mapM (fun l => nth_error l j) css.

Definition zrow_before (css : list (list (cur * val))) (j : nat) :=
  mapM (fun l => match j with O => None | S k => nth_error l k end) css.

Fixpoint minlen {A} (css : list (list A)) : nat :=
  match css with
  | [] => 0
  | l :: r => match r with [] => length l | _ => Nat.min (length l) (minlen r) end
  end.

Definition zip_item (row : list (cur * val)) : cur * val := (CZip (map fst row), VTup (map snd row)).

Definition zip_chain (css : list (list (cur * val))) : list (cur * val) :=
  map (fun j => match zrow css j with Some row => zip_item row | None => (CPos 0, VInt 0) end)
      (seq 0 (minlen css)).

Lemma minlen_cons {A} (l l2 : list A) r : minlen (l :: l2 :: r) = Nat.min (length l) (minlen (l2 :: r)).
Proof. reflexivity. Qed.

Lemma zminlen_cons {A} (l : list A) css :
  Z.of_nat (minlen (l :: css)) = match css with [] => zlen l | _ => Z.min (zlen l) (Z.of_nat (minlen css)) end.
Proof. destruct css; [reflexivity | apply Nat2Z.inj_min]. Qed.

(* the C texts of a minimum (Zip's mlen, Slice_Arg's upper clamp) and of Slice_Arg's lower clamp *)
Lemma min_if n m : (if n <? m then n else m) = Z.min m n.
Proof. destruct (Z.ltb_spec n m); symmetry; [apply Z.min_r, Z.lt_le_incl | apply Z.min_l]; assumption. Qed.

Lemma max_if x : (if x <? 0 then 0 else x) = Z.max 0 x.
Proof. destruct (Z.ltb_spec x 0); symmetry; [apply Z.max_l, Z.lt_le_incl | apply Z.max_r]; assumption. Qed.

Lemma minlen_le {A} (css : list (list A)) l : In l css -> (minlen css <= length l)%nat.
Proof.
  induction css as [|a [|l2 r] IH]; cbn [In]; [easy | now intros [->|[]] |].
  rewrite minlen_cons. intros [->|Hin]; [|specialize (IH Hin)]; lia.
Qed.

(* defaults for [nth], never reached where the index is in range *)
Definition dv : val := VInt 0.
Definition cv0 : cur * val := (CPos 0, dv).

Lemma ltb_min z a b : (z <? Z.min a b) = (z <? a) && (z <? b).
Proof. apply eq_true_iff_eq. rewrite andb_true_iff, !Z.ltb_lt. apply Z.min_glb_lt_iff. Qed.

(* the row at position z: it exists exactly when z is a position of every chain, i.e. below the shortest length *)
Lemma mapM_znth (css : list (list (cur * val))) z : css <> [] ->
  mapM (fun l => znth l z) css =
  if (0 <=? z) && (z <? Z.of_nat (minlen css)) then Some (map (fun l => nth (Z.to_nat z) l cv0) css) else None.
Proof.
  induction css as [|l r IH]; [congruence|]. intros _. cbn [mapM map].
  assert (Hl : znth l z = if (0 <=? z) && (z <? zlen l) then Some (nth (Z.to_nat z) l cv0) else None).
  { unfold znth. destruct ((0 <=? z) && (z <? zlen l)) eqn:E; [|reflexivity]. apply nth_error_nth'. unfold zlen in E. lia. }
  rewrite Hl. unfold zlen. destruct r as [|l2 r]; [cbn [minlen mapM map]; now destruct ((0 <=? z) && (z <? Z.of_nat (length l)))|].
  rewrite minlen_cons, Nat2Z.inj_min, ltb_min, IH by congruence.
  destruct (0 <=? z); [|reflexivity]. destruct (z <? Z.of_nat (length l)); [|reflexivity]. now destruct (z <? _).
Qed.
Lemma mapM_ext {A B} (g h : A -> option B) l : (forall a, g a = h a) -> mapM g l = mapM h l.
Proof. intros E. induction l as [|a l IH]; [reflexivity|]. cbn. now rewrite E, IH. Qed.

Lemma znth_zip css z : css <> [] -> znth (zip_chain css) z = option_map zip_item (mapM (fun l => znth l z) css).
Proof.
  intros Hne. unfold zip_chain. rewrite znth_map, znth_seq, mapM_znth by auto.
  destruct (_ && _) eqn:E; [|reflexivity]. cbn [option_map]. unfold zrow.
  rewrite (mapM_ext _ (fun l => znth l z)) by (intros l; now rewrite <- znth_nat, Z2Nat.id by lia).
  now rewrite mapM_znth, E.
Qed.

Lemma zip_chain_length css : length (zip_chain css) = minlen css.
Proof. unfold zip_chain. now rewrite map_length, seq_length. Qed.

Lemma Forall2_impl {A B} (P Q : A -> B -> Prop) l1 l2 :
  (forall a b, P a b -> Q a b) -> Forall2 P l1 l2 -> Forall2 Q l1 l2.
Proof. intros H. induction 1; constructor; auto. Qed.

(* the loops of Zip_Iter_Next/Prev and of the values Tuple, from the row of position z *)
Lemma zip_steps_ok f d us css z : Forall2 (wb f) us css ->
  forall row acc, mapM (fun l => znth l z) css = Some row ->
    zip_steps (it_step R f d) us (map fst row) acc =
    OVal (option_map (fun row' => CZip (rev acc ++ map fst row')) (mapM (fun l => znth l (z + sgn d)) css)).
Proof.
  induction 1 as [|u l us css Hu _ IH]; intros row acc; cbn [mapM].
  - intros [= <-]. cbn. now rewrite app_nil_r.
  - destruct (znth l z) as [[c v]|] eqn:Es; [|discriminate].
    destruct (mapM (fun l => znth l z) css) as [row'|]; intros [= <-].
    apply wb_z in Hu as [_ Hu]. destruct (Hu z c v Es) as [_ Hs]. cbn [map zip_steps fst]. rewrite Hs. unfold zat.
    destruct (znth l (z + sgn d)) as [cv2|]; [|reflexivity]. cbn [bind option_map].
    rewrite (IH row' _ eq_refl). destruct (mapM _ css); [|reflexivity]. cbn [option_map rev map]. now rewrite <- app_assoc.
Qed.

Lemma zip_vals_ok f us css z : Forall2 (wb f) us css ->
  forall row, mapM (fun l => znth l z) css = Some row -> zip_vals cur_val us (map fst row) = OVal (map snd row).
Proof.
  induction 1 as [|u l us css Hu _ IH]; intros row; cbn [mapM]; [now intros [= <-]|].
  destruct (znth l z) as [[c v]|] eqn:Es; [|discriminate]. destruct (mapM _ css) as [row'|]; intros [= <-].
  apply wb_z in Hu as [_ Hu]. destruct (Hu z c v Es) as [Hv _]. cbn [map zip_vals fst snd]. now rewrite Hv, (IH row' eq_refl).
Qed.

(* the loop of Zip_Iter_Init/Last, each input started at its own target *)
Lemma zip_starts_gen startf (tgt : list (cur * val) -> option (cur * val)) us css :
  Forall2 (fun u l => startf u = OVal (option_map fst (tgt l))) us css ->
  forall acc, zip_starts startf us acc =
    OVal (option_map (fun row' => CZip (rev acc ++ map fst row')) (mapM tgt css)).
Proof.
  induction 1 as [|u l us css Hu _ IH]; intros acc; cbn [zip_starts mapM].
  - cbn. now rewrite app_nil_r.
  - rewrite Hu. destruct (tgt l) as [cv2|]; [|reflexivity]. cbn [bind option_map].
    rewrite IH. destruct (mapM tgt css); [|reflexivity]. cbn [option_map rev map]. now rewrite <- app_assoc.
Qed.

(* Zip_Item_Len: the local item_len of [it_start] on a Zip *)
Definition item_len_of (f : nat) (u : iterable) : outcome Z :=
  if implements_len u then it_len R u
  else do c0 <- it_start R f Fwd u; count_loop (it_step R f Fwd u) f c0 0.

Lemma count_loop_trail f d u l : trail f d u l None -> forall k n, (length l <= k)%nat ->
  count_loop (it_step R f d u) k (hd_or l None) n = OVal (n + zlen l).
Proof.
  induction l as [|cv l IH]; intros H [|k] n Hk; [now cbn; rewrite Z.add_0_r.. | cbn in Hk; lia |].
  destruct H as (_ & Hs & H). cbn [count_loop hd_or]. rewrite Hs. cbn [bind]. rewrite IH by (auto; cbn in Hk; lia).
  f_equal. unfold zlen. cbn [length]. lia.
Qed.

Lemma item_len_ok f u cvs : wb f u cvs -> (length cvs <= f)%nat ->
  (implements_len u = true -> it_len R u = OVal (zlen cvs)) -> item_len_of f u = OVal (zlen cvs).
Proof.
  intros H Hf Hl. unfold item_len_of. destruct (implements_len u); [auto|].
  apply wb_runs in H as [[Hs H] _]. rewrite Hs. cbn [bind]. now rewrite (count_loop_trail f Fwd u cvs H).
Qed.

(* the running minimum of zip_minlen: None before the first input *)
Definition omin (m : option Z) (n : Z) : Z := match m with Some x => Z.min x n | None => n end.

Lemma zip_minlen_ok f us (css : list (list (cur * val))) : Forall2 (fun u l => item_len_of f u = OVal (zlen l)) us css ->
  forall m, zip_minlen (item_len_of f) us m =
    OVal (match css with [] => match m with Some x => x | None => 0 end | _ => omin m (Z.of_nat (minlen css)) end).
Proof.
  induction 1 as [|u l us css Hu _ IH]; intros m; [reflexivity|].
  cbn [zip_minlen]. rewrite Hu. cbn [bind]. rewrite IH, zminlen_cons. f_equal.
  destruct m as [x|]; cbn [omin]; rewrite ?min_if; (destruct css; [reflexivity|]); [symmetry; apply Z.min_assoc | reflexivity].
Qed.

(* Zip_Iter_Last on one input: back from its last position by the surplus over the common length m *)
Lemma zip_last_inputs f m us css : Forall2 (wb f) us css ->
  Forall2 (fun u l => item_len_of f u = OVal (zlen l)) us css -> Forall (fun l => 0 <= m <= zlen l) css ->
  Forall2 (fun u l => (do n <- item_len_of f u; do c0 <- it_start R f Bwd u;
                       step_n (it_step R f Bwd u) (Z.to_nat (n - m)) c0) = OVal (zat l (m - 1))) us css.
Proof.
  induction 1 as [|u l us css H _ IH]; intros Hl Ha; inversion Hl as [|? ? ? ? E]; inversion Ha; subst; constructor; auto.
  rewrite E. cbn [bind]. rewrite (reach f u l) by (auto; lia). do 2 f_equal. cbn [origin sgn]. lia.
Qed.

Theorem wb_zip f us css :
  Forall2 (wb f) us css -> Forall2 (fun u l => item_len_of f u = OVal (zlen l)) us css ->
  wb f (IZip us) (zip_chain css).
Proof.
  intros Hwb Hlen. destruct us as [|u0 us].
  { inversion Hwb. constructor; try reflexivity; intros [|i] c v E; discriminate. }
  assert (Hcne : css <> []) by (inversion Hwb; congruence).
  assert (Hat : forall z, zat (zip_chain css) z =
            option_map (fun row => CZip (rev [] ++ map fst row)) (mapM (fun l => znth l z) css)).
  { intros z. unfold zat. rewrite znth_zip by auto. now destruct (mapM _ css). }
  apply wb_z. split.
  - (* Zip_Iter_Init; Zip_Iter_Last moves every input back to the last common position *)
    intros d. rewrite Hat. cbn [it_start zip_last_aligned repaired]. unfold zlen at 1. rewrite zip_chain_length.
    destruct d; cbn [origin].
    + apply zip_starts_gen. eapply Forall2_impl; [|exact Hwb]. intros u l H. apply wb_z in H as [H _]. apply (H Fwd).
    + fold (item_len_of f). rewrite (zip_minlen_ok f _ css Hlen None). destruct css as [|l0 css']; [congruence|]. cbn [bind omin].
      apply zip_starts_gen, zip_last_inputs; auto. apply Forall_forall. intros l Hin. apply minlen_le in Hin. unfold zlen. lia.
  - intros z c v E. rewrite znth_zip in E by auto. destruct (mapM _ css) as [row|] eqn:Er; inversion E; subst. split.
    + cbn [cur_val]. now rewrite (zip_vals_ok f _ css z Hwb row Er).
    + intros d. rewrite Hat. cbn [it_step]. now apply zip_steps_ok.
Qed.

Lemma zip_chain_vals css j : (j < minlen css)%nat ->
  nth_error (map snd (zip_chain css)) j = Some (VTup (map (fun l => nth j (map snd l) dv) css)).
Proof.
  intros Hj. assert (Hne : css <> []) by (intros ->; cbn in Hj; lia).
  rewrite nth_error_map, <- znth_nat, znth_zip, mapM_znth, (proj2 (Z.ltb_lt _ _)), (proj2 (Z.leb_le 0 _)), Nat2Z.id by (auto; lia).
  cbn [andb option_map zip_item snd]. rewrite map_map. do 2 f_equal. apply map_ext. intros l. symmetry. exact (map_nth snd l cv0 j).
Qed.

(* [lg u vs]: len u is the length of vs, and get u i is the i-th of vs *)
Definition lg (u : iterable) (vs : list val) : Prop :=
  it_len R u = OVal (zlen vs) /\
  forall i, (i < length vs)%nat -> it_get R u (Z.of_nat i) = OVal (nth i vs dv).

Lemma seq_get_nat xs i : (i < length xs)%nat -> seq_get xs (Z.of_nat i) = OVal (nth i xs dv).
Proof.
  intros H. unfold seq_get. rewrite (proj2 (Z.ltb_ge _ _)), znth_nat, (nth_error_nth' xs dv H) by lia. reflexivity.
Qed.

Lemma lg_array xs : lg (IArray xs) xs.
Proof. split; [reflexivity | apply seq_get_nat]. Qed.

Lemma lg_list xs : lg (IList xs) xs.
Proof. split; [reflexivity | apply seq_get_nat]. Qed.

Lemma lg_tuple items : lg (ITuple items) (map snd items).
Proof. split; [cbn [it_len]; now rewrite zlen_map | apply seq_get_nat]. Qed.

Lemma nth_map' {A B} (g : A -> B) l i d d' : (i < length l)%nat -> nth i (map g l) d = g (nth i l d').
Proof. intros H. rewrite (nth_indep _ d (g d')) by now rewrite map_length. apply map_nth. Qed.

Lemma nth_range_map {A} (g : Z -> A) r i d : (i < Z.to_nat (range_count r))%nat ->
  nth i (map g (range_elems r)) d = g (range_val r (Z.of_nat i)).
Proof. intros H. apply nth_error_nth. now rewrite nth_error_map, range_elems_nth. Qed.

Lemma range_get_nat r i : in_box r -> (i < Z.to_nat (range_count r))%nat ->
  range_get R r (Z.of_nat i) = OVal (range_val r (Z.of_nat i)).
Proof.
  intros Hb Hi. pose proof Hb as (Hs & Ht & Hp & Hn). pose proof box_two63. pose proof (range_count_le r Hn).
  rewrite range_get_ok by (auto; lia). cbv zeta.
  now rewrite (proj2 (Z.ltb_ge _ 0)), (proj2 (Z.leb_le 0 _)), (proj2 (Z.ltb_lt _ (range_count r))) by lia.
Qed.

Lemma lg_range r : in_box r -> lg (IRange r) (map VInt (range_elems r)).
Proof.
  intros Hb. split.
  - cbn [it_len]. now rewrite (range_len_elems VInt).
  - intros i Hi. rewrite map_length, range_elems_length in Hi. cbn [it_get]. now rewrite range_get_nat, nth_range_map.
Qed.

Lemma lg_map g u vs : lg u vs -> lg (IMap g u) (map g vs).
Proof.
  intros [Hl Hg]. split.
  - cbn [it_len]. now rewrite Hl, zlen_map.
  - intros i Hi. rewrite map_length in Hi. cbn [it_get]. rewrite Hg by auto. cbn [bind]. now rewrite (nth_map' g _ _ _ dv).
Qed.

(* the items a slice selects: those at the positions its range enumerates *)
Definition slice_sel (r : rng) (vs : list val) : list val :=
  map (fun p => nth (Z.to_nat p) vs dv) (range_elems r).

Lemma lg_slice u vs r : lg u vs -> slice_ok r (zlen vs) -> lg (ISlice u r) (slice_sel r vs).
Proof.
  intros [Hl Hg] (Hb & Hs & Ht). unfold slice_sel. split.
  - cbn [it_len]. f_equal. now apply range_len_elems.
  - intros i Hi. rewrite map_length, range_elems_length in Hi. cbn [it_get]. rewrite range_get_nat, nth_range_map by auto. cbn [bind].
    pose proof (range_val_bounds r (Z.of_nat i) (proj2 (proj2 (proj2 Hb))) ltac:(lia)).
    rewrite <- (Z2Nat.id (range_val r (Z.of_nat i))) at 1 by lia. apply Hg. unfold zlen in *. lia.
Qed.

Lemma slice_chain_snd r cvs : map snd (slice_chain r cvs) = slice_sel r (map snd cvs).
Proof.
  unfold slice_chain, slice_sel. rewrite map_map. apply map_ext. intros p.
  destruct (nth_error cvs (Z.to_nat p)) as [[c v]|] eqn:E; cbn [snd]; symmetry.
  - apply nth_error_nth. now rewrite nth_error_map, E.
  - apply nth_overflow. rewrite map_length. now apply nth_error_None.
Qed.

Lemma slice_chain_le r (cvs : list (cur * val)) : slice_ok r (zlen cvs) -> (length (slice_chain r cvs) <= length cvs)%nat.
Proof.
  intros ((_ & _ & _ & Hn) & Hs & Ht). rewrite slice_chain_length. pose proof (range_count_le r Hn). unfold zlen in *. lia.
Qed.

Lemma slice_len u cvs r : slice_ok r (zlen cvs) -> it_len R (ISlice u r) = OVal (zlen (slice_chain r cvs)).
Proof.
  intros (Hb & _). cbn [it_len]. f_equal. now apply range_len_elems.
Qed.

Definition zip_rows (vss : list (list val)) : list val :=
  map (fun j => VTup (map (fun vs => nth j vs dv) vss)) (seq 0 (minlen vss)).

Lemma zip_len_rest_ok us vss : Forall2 lg us vss ->
  forall m, zip_len_rest (it_len R) us m =
    OVal (match vss with [] => m | _ :: _ => Z.min m (Z.of_nat (minlen vss)) end).
Proof.
  induction 1 as [|u vs us vss [Hu _] _ IH]; intros m; [reflexivity|].
  cbn [zip_len_rest]. rewrite Hu. cbn [bind]. rewrite min_if, IH, zminlen_cons. f_equal.
  destruct vss; [reflexivity | symmetry; apply Z.min_assoc].
Qed.

Lemma zip_gets_ok us vss j : Forall2 lg us vss -> (j < minlen vss)%nat ->
  zip_gets (fun u' => it_get R u' (Z.of_nat j)) us = OVal (map (fun vs => nth j vs dv) vss).
Proof.
  induction 1 as [|u vs us vss [_ Hg] Hrest IH]; intros Hj; [reflexivity|].
  pose proof (minlen_le (vs :: vss) vs (or_introl eq_refl)). cbn [zip_gets map]. rewrite Hg by lia. cbn [bind].
  destruct vss as [|vs2 vss]; [now inversion Hrest|]. rewrite minlen_cons in Hj. now rewrite IH by lia.
Qed.

Lemma lg_zip us vss : Forall2 lg us vss -> lg (IZip us) (zip_rows vss).
Proof.
  intros H. unfold zip_rows. split.
  - unfold zlen. rewrite map_length, seq_length.
    destruct H as [|u vs us vss [Hl _] Hrest]; [reflexivity|]. cbn [it_len]. rewrite Hl. cbn [bind].
    now rewrite (zip_len_rest_ok us vss Hrest), zminlen_cons.
  - intros j Hj. rewrite map_length, seq_length in Hj. cbn [it_get]. rewrite (zip_gets_ok us vss j H Hj). cbn [bind].
    now rewrite (nth_map' _ _ _ _ 0%nat), seq_nth by (rewrite ?seq_length; auto).
Qed.

(* Python's slice clamp on a sequence of length n: a negative argument counts from the end, then into [0, n];
   [slice_range n args] is the Range that slice(I, args) walks, an omitted start / stop / step being 0 / n / 1 *)
Definition norm_arg (n a : Z) : Z := Z.max 0 (Z.min n (if a <? 0 then n + a else a)).

Definition slice_range (n : Z) (args : list (option Z)) : rng :=
  let st a := match a with None => 0 | Some x => norm_arg n x end in
  let sp b := match b with None => n | Some x => norm_arg n x end in
  match args with
  | [] => mkRng 0 n 1
  | [b] => mkRng 0 (sp b) 1
  | [a; b] => mkRng (st a) (sp b) 1
  | a :: b :: c :: _ => mkRng (st a) (sp b) (match c with None => 1 | Some x => x end)
  end.

(* Slice_Arg on a start or stop argument: the Python clamp; an omitted argument is the nearer end *)
Lemma slice_arg_ok part n a : (part <= 1)%nat -> 0 <= n < box ->
  match a with Some x => - box < x < box | None => True end ->
  slice_arg R part n a = match a with Some x => norm_arg n x | None => match part with O => 0 | _ => n end end.
Proof.
  intros Hp Hn Ha. destruct part as [|[|part]]; [| |lia]; (destruct a as [a|]; [|reflexivity]);
    unfold slice_arg, norm_arg; cbn [slice_arg_signed repaired]; cbv zeta; rewrite min_if, max_if, Z.min_comm;
    (destruct (Z.ltb_spec a 0); [rewrite wrap64_id by (pose proof box_two63; lia)|]); reflexivity.
Qed.

Lemma mk_slice_ok u n args : it_len R u = OVal n -> 0 <= n < box -> (length args <= 3)%nat ->
  Forall (fun a => match a with Some x => - box < x < box | None => True end) args ->
  mk_slice R u args = OVal (ISlice u (slice_range n args)).
Proof.
  intros Hl Hn Hlen Hall. unfold mk_slice. rewrite Hl. cbn [bind].
  destruct Hall as [|a ? Ha [|b ? Hb [|c ? Hc [|d ? Hd Hall]]]]; [| | | |cbn [length] in Hlen; lia]; cbn [slice_range];
    rewrite ?slice_arg_ok by auto; reflexivity.
Qed.

Lemma norm_arg_range n a : 0 <= n -> 0 <= norm_arg n a <= n.
Proof. unfold norm_arg. lia. Qed.

Lemma slice_ok_mk n st sp stp : 0 <= n < box -> 0 <= st <= n -> 0 <= sp <= n -> - box < stp < box /\ stp <> 0 ->
  slice_ok (mkRng st sp stp) n.
Proof. intros Hn Hst Hsp [Hb Hz]. unfold slice_ok, in_box. cbn [r_start r_stop r_step]. lia. Qed.

Lemma slice_range_ok n args : 0 <= n < box ->
  match args with
  | _ :: _ :: Some c :: _ => - box < c < box /\ c <> 0
  | _ => True
  end -> slice_ok (slice_range n args) n.
Proof.
  intros Hn Hc. assert (H1 : - box < 1 < box /\ 1 <> 0) by (pose proof box_two63; lia).
  assert (Hst : forall a, 0 <= match a with None => 0 | Some x => norm_arg n x end <= n)
    by (intros [x|]; [apply norm_arg_range|]; lia).
  assert (Hsp : forall a, 0 <= match a with None => n | Some x => norm_arg n x end <= n)
    by (intros [x|]; [apply norm_arg_range|]; lia).
  destruct args as [|a [|b [|[c|] rest]]]; cbn [slice_range]; apply slice_ok_mk; auto;
    first [apply (Hst None) | apply (Hsp None)].
Qed.

Lemma range_count_unit n s : 0 <= n -> Z.abs s = 1 -> range_count (mkRng 0 n s) = n.
Proof.
  intros Hn Hs. unfold range_count. cbn [r_start r_stop r_step]. rewrite Hs, Z.div_1_r. zb; lia.
Qed.

Lemma slice_sel_reverse vs : slice_sel (mkRng 0 (zlen vs) (-1)) vs = rev vs.
Proof.
  assert (Hc : Z.to_nat (range_count (mkRng 0 (zlen vs) (-1))) = length vs)
    by (rewrite range_count_unit by (auto using zlen_nonneg); apply Nat2Z.id).
  unfold slice_sel. apply (nth_ext _ _ dv dv); rewrite map_length, range_elems_length, Hc; [now rewrite rev_length|].
  intros i Hi. rewrite nth_range_map, rev_nth by lia.
  f_equal. unfold range_val, zlen. cbn [r_start r_stop r_step]. change (0 <? -1) with false. lia.
Qed.

(* reverse(I) = slice(I, _, _, -1) *)
Lemma reverse_ok f u cvs : wb f u cvs -> it_len R u = OVal (zlen cvs) -> zlen cvs < box ->
  exists s, mk_reverse R u = OVal s /\ iterates f s (rev (map snd cvs)).
Proof.
  intros H Hl Hn. pose proof box_two63. pose proof (zlen_nonneg cvs).
  assert (Hok : slice_ok (mkRng 0 (zlen cvs) (-1)) (zlen cvs)) by (unfold slice_ok, in_box; cbn; lia).
  exists (ISlice u (mkRng 0 (zlen cvs) (-1))). split.
  - unfold mk_reverse. now rewrite (mk_slice_ok u (zlen cvs)) by (auto; repeat constructor; lia).
  - apply (iterates_of f _ _ _ (wb_slice f u cvs _ H Hl Hok)).
    rewrite slice_chain_snd, <- (zlen_map snd cvs). apply slice_sel_reverse.
Qed.

(* enumerate(I) = zip(range(0, len I), I) *)
Lemma enumerate_ok f u cvs : wb f u cvs -> it_len R u = OVal (zlen cvs) ->
  item_len_of f u = OVal (zlen cvs) -> zlen cvs < box ->
  exists s ch, mk_enumerate R u = OVal s /\ wb f s ch /\ length ch = length cvs /\
    forall j, (j < length cvs)%nat ->
      nth_error (map snd ch) j = Some (VTup [VInt (Z.of_nat j); nth j (map snd cvs) dv]).
Proof.
  intros H Hl Hil Hn. pose proof box_two63. pose proof (zlen_nonneg cvs). set (r := mkRng 0 (zlen cvs) 1).
  assert (Hb : in_box r) by (unfold in_box; cbn; lia).
  assert (Hc : range_count r = zlen cvs) by (apply range_count_unit; auto; lia).
  assert (Hlr : length (range_chain r) = length cvs).
  { unfold range_chain. rewrite map_length, range_elems_length, Hc. apply Nat2Z.id. }
  assert (Hm : minlen [range_chain r; cvs] = length cvs) by (rewrite minlen_cons; cbn [minlen]; lia).
  exists (IZip [IRange r; u]), (zip_chain [range_chain r; cvs]).
  split; [unfold mk_enumerate; now rewrite Hl|]. split; [|split].
  - apply wb_zip; [auto using Forall2, wb_range | constructor; [|now repeat constructor]].
    unfold item_len_of. cbn [implements_len it_len]. f_equal. now apply range_len_elems.
  - now rewrite zip_chain_length.
  - intros j Hj. rewrite zip_chain_vals by lia. cbn [map]. rewrite range_chain_snd, nth_range_map by (rewrite Hc; unfold zlen; lia).
    do 4 f_equal. unfold range_val, r. cbn [r_start r_stop r_step]. change (0 <? 1) with true. lia.
Qed.

(* The pre-repair variants are refuted: one rules record per defect, everything else repaired. *)
Definition pre_D9 : rules := mkRules false true true true true true true true true.
Definition pre_D10 : rules := mkRules true false true true true true true true true.
Definition pre_D11len : rules := mkRules true true false true true true true true true.
Definition pre_D11last : rules := mkRules true true true false true true true true true.
Definition pre_D11get : rules := mkRules true true true true false true true true true.
Definition pre_D12arg : rules := mkRules true true true true true false true true true.
Definition pre_D12walk : rules := mkRules true true true true true true false true true.
Definition pre_F4 : rules := mkRules true true true true true true true false true.
Definition vi (l : list Z) := map VInt l.

Lemma tuple_last_refuted : it_start pre_D10 5 Bwd (ITuple []) = OCrash.
Proof. reflexivity. Qed.

Lemma range_len_refuted :
  range_len pre_D11len (mkRng 0 0 2) = 1 /\ range_len pre_D11len (mkRng 5 0 1) = -5 /\
  fst (walk pre_D11len 5 Fwd 9 (IRange (mkRng 0 0 2))) = [].
Proof. vm_compute. auto. Qed.

Lemma range_last_refuted :
  walk pre_D11last 5 Fwd 9 (IRange (mkRng 0 10 4)) = (vi [0; 4; 8], WDone) /\
  walk pre_D11last 5 Bwd 9 (IRange (mkRng 0 10 4)) = (vi [9; 5; 1], WDone).
Proof. vm_compute. auto. Qed.

Lemma range_get_refuted :
  range_get pre_D11get (mkRng 0 10 1) (-11) = OVal (-1) /\
  range_get pre_D11get (mkRng 0 10 2) 9223372036854775807 = OVal (-2).
Proof. vm_compute. auto. Qed.

Lemma slice_arg_refuted : slice_arg pre_D12arg 0 3 (Some (-100)) = 3.
Proof. vm_compute. reflexivity. Qed.

Lemma slice_walk_refuted :
  walk pre_D12walk 5 Fwd 9 (ISlice (IArray (vi [1; 2; 3; 4; 5; 6])) (mkRng 0 2 1)) = (vi [1; 2; 3; 4; 5; 6], WDone) /\
  snd (walk pre_D12walk 5 Fwd 9 (ISlice (IArray (vi [1; 2; 3; 4; 5; 6])) (mkRng 0 6 4))) = WCrash.
Proof. vm_compute. auto. Qed.

Lemma zip_last_refuted :
  walk pre_F4 5 Bwd 9 (IZip [IArray (vi [1; 2; 3]); IList (vi [7; 8])]) =
  ([VTup (vi [3; 8]); VTup (vi [2; 7])], WDone).
Proof. vm_compute. reflexivity. Qed.

(* pre-repair Array_Iter_Prev (curr < Array_Item(a,0)): the backward walk reads before the array *)
Lemma array_prev_refuted :
  exists xs, snd (walk pre_D9 10 Bwd 10 (IArray xs)) = WCrash.
Proof. exists [VInt 1]. vm_compute. reflexivity. Qed.

(* F3 (open finding): a Tuple holding the same object twice never finishes its forward walk *)
Lemma tuple_repeated_pointer_refuted : forall f cut x y z,
  snd (walk R f Fwd cut (ITuple [(0%nat, x); (1%nat, y); (0%nat, x); (2%nat, z)])) = WRunaway.
Proof.
  intros f cut x y z.
  (* the cursor alternates between the first and the second pointer *)
  apply (walk_loop_trapped f Fwd _ (fun c => c = CObj 0 \/ c = CObj 1)); [|now left].
  intros c [-> | ->]; eexists _, _; (split; [reflexivity|]); (split; [reflexivity|]); auto.
Qed.

(* Open finding range-int64-overflow: outside the box |.| < 2^62 the int64 arithmetic of Range wraps; the
   forward walk of range(0, INT64_MAX, 2^62) never reaches Terminal (so [in_box] cannot simply be dropped) *)
Lemma range_overflow_refuted :
  snd (walk R 5 Fwd 40 (IRange (mkRng 0 9223372036854775807 4611686018427387904))) = WRunaway /\
  range_len R (mkRng (-9223372036854775808) 9223372036854775807 4611686018427387904) = 1.
Proof.
  split; [|vm_compute; reflexivity].
  (* the cursor runs through 0, 2^62, -2^63, -2^62 and is back at 0: no value is at or past stop *)
  apply (walk_loop_trapped 5 Fwd _ (fun c => In c (map CInt [0; box; - two63; - box]))); [|now left].
  intros c [<- | [<- | [<- | [<- | []]]]]; eexists _, _; (split; [reflexivity|]); (split; [vm_compute; reflexivity|]);
    cbn; auto.
Qed.
