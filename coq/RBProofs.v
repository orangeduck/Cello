(* RBProofs.v — proofs about the Tree model (RBTree.v), part 1: CONTENTS AND ORDER.
   Every rotation / recolouring / fix-up step leaves the in-order list unchanged (list
   equations); search-tree order is `sorted (inorder t)`; set / rem / lookup on a sorted tree
   are a_set / a_rem / a_get on its in-order list.  The delete fix-up plugs its argument into a context
   that does not depend on it (ctx_only, rem_fix_ctx); Section Walk carries any property kept by both
   child steps down a descent (descend_inv, max_node_inv, min_node_inv; RBBalance.v instantiates it).
   No statement mentions a colour invariant. *)
From Coq Require Import List Arith Bool Lia Sorted.
From CelloV Require Import RBTree.
Import ListNotations.

(* list equations between in-order lists: associate every ++ to the right *)
Ltac norm := simpl; repeat (rewrite <- app_assoc; simpl).

Lemma rmap_ok : forall (A B : Type) (f : A -> B) x r, rmap f x = Ok r -> exists a, x = Ok a /\ r = f a.
Proof. intros A B f [a| |] r H; [injection H as <-; eauto | discriminate..]. Qed.

Section Contents.
  Variables K V : Type.
  Variable cmp : K -> K -> comparison.
  Variable use_succ : bool -> bool -> bool.
  Hypothesis cmp_eqc : forall a b c, cmp a b = Eq -> cmp a c = cmp b c.
  Hypothesis cmp_anti : forall a b, cmp a b = CompOpp (cmp b a).
  Hypothesis cmp_trans : forall a b c, cmp a b = Lt -> cmp b c = Lt -> cmp a c = Lt.

  Notation tree := (tree K V).
  Notation path := (path K V).
  Notation inorder := (inorder K V).
  Notation plug := (plug K V).
  Notation fill := (fill K V).
  Notation kv := (K * V)%type.

  (* what lies before / after the hole of a path, in in-order *)
  Fixpoint pl (p : path) : list kv :=
    match p with
    | [] => []
    | F _ _ DL _ _ _ _ :: p' => pl p'
    | F _ _ DR _ k v s :: p' => pl p' ++ inorder s ++ [(k, v)]
    end.
  Fixpoint pr (p : path) : list kv :=
    match p with
    | [] => []
    | F _ _ DL _ k v s :: p' => (k, v) :: inorder s ++ pr p'
    | F _ _ DR _ _ _ _ :: p' => pr p'
    end.

  Lemma inorder_plug : forall p t, inorder (plug t p) = pl p ++ inorder t ++ pr p.
  Proof.
    induction p as [|[[] c k v s] p IH]; intros t; simpl; rewrite ?IH; norm; auto using app_nil_r.
  Qed.

  Lemma inorder_plug_eq : forall p t t', inorder t = inorder t' -> inorder (plug t p) = inorder (plug t' p).
  Proof. intros p t t' H. now rewrite !inorder_plug, H. Qed.

  Lemma inorder_blacken : forall t, inorder (blacken K V t) = inorder t.
  Proof. destruct t; reflexivity. Qed.

  Lemma set_fix_inorder : forall p t r, set_fix K V t p = Ok r -> inorder r = pl p ++ inorder t ++ pr p.
  Proof.
    intros p t r. rewrite <- inorder_plug. revert t r.
    (* the red-uncle case continues two frames up: induction on the length of the path *)
    induction p as [p IH] using (induction_ltof1 _ (@length _)); intros t r H.
    destruct p as [|[d [] pk pv s] [|[d2 gc gk gv u] p2]]; cbn [set_fix] in H; try discriminate;
      try (injection H as <-; auto using inorder_blacken).
    destruct (is_red K V u).
    - apply IH in H; [|unfold ltof; simpl; lia]. rewrite H. apply (inorder_plug_eq p2).
      destruct d, d2; simpl; now rewrite inorder_blacken.
    - destruct t as [|tc tl tk tv tr]; [discriminate|].
      destruct d2, d; injection H as <-; apply (inorder_plug_eq p2); norm; reflexivity.
  Qed.

  (* Tree_Rem_Fix treats `node` as opaque.
     The C code runs Tree_Rem_Fix(node) while the node is still in the tree and splices the child in
     afterwards (Tree_Replace); the model puts the child into the focus first.  Both agree because the
     repair only rebuilds the CONTEXT of the focus: for every path there is a path q, computed without
     looking at the focus, such that the result is the focus plugged into q — or the repair crashes for
     every focus.
     ctx_only f p: f plugs its argument into a path that does not depend on the argument and has the
     contents of p, or crashes whatever the argument. *)
  Definition ctx_only (f : tree -> res tree) (p : path) : Prop :=
    (exists q, forall t, f t = Ok (plug t q) /\ inorder (plug t q) = inorder (plug t p)) \/
    (forall t, f t = Crash).

  Lemma ctx_only_same : forall f p p', ctx_only f p ->
    (forall t, inorder (plug t p) = inorder (plug t p')) -> ctx_only f p'.
  Proof.
    intros f p p' [(q & H)|H] E; [left; exists q; intros t; rewrite <- E; apply H | now right].
  Qed.

  (* rest: the path above the parent, into which Tree_Rem_Fix plugs the result of its loop body *)
  Lemma rem_finish_ctx : forall d pc pk pv s rest,
    ctx_only (fun t => rmap (fun r => plug r rest) (rem_finish K V t d pc pk pv s)) (F K V d pc pk pv s :: rest).
  Proof.
    intros d pc pk pv s rest. unfold ctx_only, rem_finish.
    destruct s as [|sc sl sk sv sr]; [right; reflexivity|].
    destruct (negb (cblack pc) && cblack sc && is_black K V sl && is_black K V sr).
    { left. exists (F K V d Black pk pv (T Red sl sk sv sr) :: rest). intros t. split; [reflexivity|].
      apply (inorder_plug_eq rest). now destruct d. }
    (* (4) may rotate the sibling: s' has the contents of the sibling; (5) puts the focus two frames down *)
    set (s' := match sc with Red => _ | Black => _ end).
    assert (Hi : inorder s' = inorder (T sc sl sk sv sr)).
    { subst s'. destruct sc, d; auto;
        [destruct (is_red K V sl && is_black K V sr), sl | destruct (is_red K V sr && is_black K V sl), sr];
        auto; norm; reflexivity. }
    clearbody s'. cbv zeta.
    destruct s' as [|c l k v r], d; try (right; reflexivity);
      [destruct r as [|? a x y b] | destruct l as [|? a x y b]]; try (right; reflexivity); left;
      [exists (F K V DL Black pk pv l :: F K V DL pc k v (T Black a x y b) :: rest)
      |exists (F K V DR Black pk pv r :: F K V DR pc k v (T Black a x y b) :: rest)];
      intros t; (split; [reflexivity|]); apply (inorder_plug_eq rest); simpl in Hi |- *; rewrite <- Hi; norm; reflexivity.
  Qed.

  Lemma rem_fix_ctx : forall p, ctx_only (fun t => rem_fix K V t p) p.
  Proof.
    induction p as [|[d pc pk pv s] p IH]; [left; exists []; auto|].
    cbn [rem_fix]. destruct s as [|[] sl sk sv sr]; [right; reflexivity| |].
    - (* red sibling: a rotation of the parent, then the loop body on the near nephew *)
      destruct d; (eapply ctx_only_same; [apply rem_finish_ctx|]); intros t; apply (inorder_plug_eq p); norm; reflexivity.
    - destruct (cblack pc && is_black K V sl && is_black K V sr); [|apply rem_finish_ctx].
      destruct IH as [(q & H)|H]; [left|now right].
      exists (F K V d Black pk pv (T Red sl sk sv sr) :: q). intros t.
      destruct (H (fill (F K V d Black pk pv (T Red sl sk sv sr)) t)) as [E1 E2]. split; [exact E1|].
      etransitivity; [exact E2|]. apply (inorder_plug_eq p). now destruct d.
  Qed.

  Lemma rem_fix_inorder : forall p t r, rem_fix K V t p = Ok r -> inorder r = pl p ++ inorder t ++ pr p.
  Proof.
    intros p t r H. destruct (rem_fix_ctx p) as [(q & Hq)|Hq]; [|now rewrite Hq in H].
    destruct (Hq t) as [E1 E2]. rewrite E1 in H. injection H as <-. now rewrite E2, inorder_plug.
  Qed.

  Lemma max_node_spec : forall t, t <> E -> exists k v, max_kv K V t = Some (k, v) /\
    forall q, exists c l q', max_node K V t q = (T c l k v E, q') /\
                             pl q' ++ inorder l ++ [(k, v)] = pl q ++ inorder t /\ pr q' = pr q.
  Proof.
    induction t as [|c l _ k v r IH]; intros Hne; [congruence|].
    destruct r as [|rc rl rk rv rr]; [exists k, v; split; [|intros q; exists c, l, q]; auto|].
    destruct IH as (k' & v' & Hk & IH); [discriminate|]. exists k', v'. split; [exact Hk|].
    intros q. destruct (IH (F K V DR c k v l :: q)) as (c' & l' & q' & H1 & H2 & H3).
    exists c', l', q'. split; [exact H1|]. split; [rewrite H2; norm; reflexivity | exact H3].
  Qed.

  Lemma min_node_spec : forall t, t <> E -> exists k v, min_kv K V t = Some (k, v) /\
    forall q, exists c r q', min_node K V t q = (T c E k v r, q') /\
                             (k, v) :: inorder r ++ pr q' = inorder t ++ pr q /\ pl q' = pl q.
  Proof.
    induction t as [|c l IH k v r _]; intros Hne; [congruence|].
    destruct l as [|lc ll lk lv lr]; [exists k, v; split; [|intros q; exists c, r, q]; auto|].
    destruct IH as (k' & v' & Hk & IH); [discriminate|]. exists k', v'. split; [exact Hk|].
    intros q. destruct (IH (F K V DL c k v r :: q)) as (c' & r' & q' & H1 & H2 & H3).
    exists c', r', q'. split; [exact H1|]. split; [rewrite H2; norm; reflexivity | exact H3].
  Qed.

  Lemma rem_splice_inorder : forall nc chld p1 r,
    rem_splice K V nc chld p1 = Ok r -> inorder r = pl p1 ++ inorder chld ++ pr p1.
  Proof.
    intros nc chld p1 r H. rewrite <- inorder_plug. unfold rem_splice in H.
    destruct p1; [apply rmap_ok in H as (r0 & H & ->); rewrite inorder_blacken|];
      (destruct nc; [now injection H as <- | rewrite inorder_plug; now apply rem_fix_inorder]).
  Qed.

  Lemma rem_node_inorder : forall nc nl nk nv nr p1 r,
    rem_node K V (T nc nl nk nv nr) p1 = Ok r -> (nl = E \/ nr = E) ->
    inorder r = pl p1 ++ inorder nl ++ inorder nr ++ pr p1.
  Proof.
    intros nc nl nk nv nr p1 r H Hc. apply rem_splice_inorder in H. rewrite H.
    destruct Hc as [-> | ->]; [destruct nr|]; norm; reflexivity.
  Qed.

  Lemma rem_pred_inorder : forall xc xl xr p r, xl <> E ->
    rem_pred K V xc xl xr p = Ok r -> inorder r = pl p ++ inorder xl ++ inorder xr ++ pr p.
  Proof.
    intros xc xl xr p r Hne H. unfold rem_pred in H.
    destruct (max_node_spec xl Hne) as (k & v & Hk & Hm). rewrite Hk in H.
    destruct (Hm (F K V DL xc k v xr :: p)) as (c & l & q & Hq & E1 & E2). rewrite Hq in H.
    apply rem_node_inorder in H; auto. simpl in E1, E2. rewrite H, E2, (app_assoc (pl p)), <- E1. norm. reflexivity.
  Qed.

  Lemma rem_succ_inorder : forall xc xl xr p r, xr <> E ->
    rem_succ K V xc xl xr p = Ok r -> inorder r = pl p ++ inorder xl ++ inorder xr ++ pr p.
  Proof.
    intros xc xl xr p r Hne H. unfold rem_succ in H.
    destruct (min_node_spec xr Hne) as (k & v & Hk & Hm). rewrite Hk in H.
    destruct (Hm (F K V DR xc k v xl :: p)) as (c & r' & q & Hq & E1 & E2). rewrite Hq in H.
    apply rem_node_inorder in H; auto. simpl in E1, E2. rewrite H, E2, <- E1. norm. reflexivity.
  Qed.

  Lemma rem_at_inorder : forall xc xl xk xv xr p r,
    rem_at K V use_succ (T xc xl xk xv xr) p = Ok r -> inorder r = pl p ++ inorder xl ++ inorder xr ++ pr p.
  Proof.
    intros xc xl xk xv xr p r H. unfold rem_at in H.
    destruct xl as [|lc ll lk lv lr]; [|destruct xr as [|rc rl rk rv rr]]; try (apply rem_node_inorder in H; now auto).
    destruct (donor_is_succ K V use_succ _ _); [apply rem_succ_inorder in H | apply rem_pred_inorder in H]; easy.
  Qed.

  Definition gtk (a b : kv) := cmp (fst a) (fst b) = Gt.
  Definition sorted (l : list kv) := StronglySorted gtk l.       (* strictly DESCENDING keys *)
  Definition all_gt (k : K) (l : list kv) := Forall (fun e => cmp (fst e) k = Gt) l.
  Definition all_lt (k : K) (l : list kv) := Forall (fun e => cmp (fst e) k = Lt) l.

  Notation a_get := (a_get K V cmp).
  Notation a_set := (a_set K V cmp).
  Notation a_rem := (a_rem K V cmp).
  Notation a_set_all := (a_set_all K V cmp).

  Lemma cmp_gt_lt : forall a b, cmp a b = Gt <-> cmp b a = Lt.
  Proof. intros a b. rewrite (cmp_anti a b). destruct (cmp b a); simpl; split; congruence. Qed.

  Lemma all_lt_trans : forall k' k l, cmp k' k = Lt -> all_lt k' l -> all_lt k l.
  Proof. intros k' k l Hc. apply Forall_impl. intros a Ha. eapply cmp_trans; eauto. Qed.

  Lemma all_gt_trans : forall k' k l, cmp k' k = Gt -> all_gt k' l -> all_gt k l.
  Proof.
    intros k' k l Hc. apply Forall_impl. intros a Ha.
    apply cmp_gt_lt in Hc, Ha. apply cmp_gt_lt. eapply cmp_trans; eauto.
  Qed.

  Lemma sorted_mid : forall A k v B, sorted (A ++ (k, v) :: B) -> all_gt k A /\ all_lt k B.
  Proof.
    induction A as [|a A IH]; intros k v B H; apply StronglySorted_inv in H as [H1 H2].
    - split; [constructor|]. eapply Forall_impl; [|exact H2]. intros b. apply cmp_gt_lt.
    - apply IH in H1 as [? ?]. apply Forall_elt in H2. split; [constructor|]; assumption.
  Qed.

  Lemma a_get_app_gt : forall A M k, all_gt k A -> a_get (A ++ M) k = a_get M k.
  Proof. induction 1 as [|[k' v'] A H _ IH]; simpl in *; [|rewrite H]; auto. Qed.
  Lemma a_rem_app_gt : forall A M k, all_gt k A -> a_rem (A ++ M) k = A ++ a_rem M k.
  Proof. induction 1 as [|[k' v'] A H _ IH]; simpl in *; [|rewrite H, IH]; auto. Qed.
  Lemma a_set_app_gt : forall A M k v, all_gt k A -> a_set (A ++ M) k v = A ++ a_set M k v.
  Proof. induction 1 as [|[k' v'] A H _ IH]; simpl in *; [|rewrite H, IH]; auto. Qed.
  Lemma a_get_lt : forall B k, all_lt k B -> a_get B k = None.
  Proof. induction 1 as [|[k' v'] B H _ IH]; simpl in *; [|rewrite H]; auto. Qed.
  Lemma a_rem_lt : forall B k, all_lt k B -> a_rem B k = B.
  Proof. induction 1 as [|[k' v'] B H _ IH]; simpl in *; [|rewrite H, IH]; auto. Qed.
  Lemma a_set_lt : forall B k v, all_lt k B -> a_set B k v = (k, v) :: B.
  Proof. destruct 1 as [|[k' v'] B H _]; simpl in *; [|rewrite H]; auto. Qed.

  Lemma Forall_a_set : forall (P : kv -> Prop) m k v, Forall P m -> P (k, v) -> Forall P (a_set m k v).
  Proof.
    induction 1 as [|[k' v'] m H Hm IH]; intros Hk; simpl; [|destruct (cmp k' k)]; auto.
  Qed.
  Lemma Forall_a_rem : forall (P : kv -> Prop) m k, Forall P m -> Forall P (a_rem m k).
  Proof. induction 1 as [|[k' v'] m H Hm IH]; simpl; [|destruct (cmp k' k)]; auto. Qed.

  Lemma sorted_a_set : forall m k v, sorted m -> sorted (a_set m k v).
  Proof.
    induction 1 as [|[k' v'] m H1 IH H2]; simpl; [repeat constructor|].
    destruct (cmp k' k) eqn:Hc.
    - constructor; [exact H1|]. eapply Forall_impl; [|exact H2]. intros a. unfold gtk. simpl. now rewrite (cmp_eqc _ _ _ Hc).
    - repeat constructor; auto; [now apply cmp_gt_lt|].
      eapply Forall_impl; [|exact H2]. intros a Ha. apply cmp_gt_lt in Ha. apply cmp_gt_lt. eapply cmp_trans; eauto.
    - constructor; auto using Forall_a_set.
  Qed.

  Lemma sorted_a_rem : forall m k, sorted m -> sorted (a_rem m k).
  Proof.
    induction 1 as [|[k' v'] m H1 IH H2]; simpl; [constructor|].
    destruct (cmp k' k); auto; constructor; auto using Forall_a_rem.
  Qed.

  Lemma a_set_all_sorted : forall m acc, sorted (acc ++ m) -> a_set_all acc m = acc ++ m.
  Proof.
    induction m as [|[k v] m IH]; intros acc H; simpl; [now rewrite app_nil_r|].
    pose proof (a_set_app_gt acc [] k v (proj1 (sorted_mid _ _ _ _ H))) as E. rewrite app_nil_r in E.
    rewrite E, IH; rewrite <- app_assoc; auto.
  Qed.

  Lemma lookup_descend : forall t k p,
    lookup K V cmp t k = match fst (descend K V cmp t k p) with T _ _ _ v _ => Some v | E => None end.
  Proof.
    induction t as [|c l IHl k' v r IHr]; intros k p; simpl; auto.
    destruct (cmp k' k); simpl; auto.
  Qed.

  Lemma node_split : forall A c l k v r B,
    A ++ inorder (T c l k v r) ++ B = (A ++ inorder l) ++ (k, v) :: inorder r ++ B.
  Proof. intros. norm. reflexivity. Qed.

  Lemma all_eq_r : forall k' k o l, cmp k' k = Eq ->
    Forall (fun e : kv => cmp (fst e) k' = o) l -> Forall (fun e : kv => cmp (fst e) k = o) l.
  Proof.
    intros k' k o l Hc. apply Forall_impl. intros a <-. now rewrite (cmp_anti _ k), (cmp_anti _ k'), (cmp_eqc _ _ _ Hc).
  Qed.

  (* the place where the search for k stops splits the in-order list around k *)
  Definition around (k : K) (x : tree) (p : path) : Prop :=
    match x with
    | E => all_gt k (pl p) /\ all_lt k (pr p)
    | T _ l k' _ r => cmp k' k = Eq /\ all_gt k (pl p ++ inorder l) /\ all_lt k (inorder r ++ pr p)
    end.

  Lemma descend_spec : forall t k p x p', descend K V cmp t k p = (x, p') ->
    sorted (inorder (plug t p)) -> all_gt k (pl p) -> all_lt k (pr p) ->
    inorder (plug t p) = pl p' ++ inorder x ++ pr p' /\ around k x p'.
  Proof.
    induction t as [|c l IHl k' v r IHr]; intros k p x p' H Hs Hg Hl; simpl in H.
    - injection H as <- <-. split; [apply inorder_plug | now split].
    - pose proof Hs as Hm. rewrite inorder_plug, node_split in Hm. apply sorted_mid in Hm as [Hm1 Hm2].
      destruct (cmp k' k) eqn:Hc.
      + injection H as <- <-. split; [apply inorder_plug | exact (conj Hc (conj (all_eq_r _ _ _ _ Hc Hm1) (all_eq_r _ _ _ _ Hc Hm2)))].
      + apply IHl in H; auto. constructor; [exact Hc|]. eapply all_lt_trans; eauto.
      + apply IHr in H; auto. simpl. rewrite app_assoc. apply Forall_app. split; [eapply all_gt_trans; eauto | now constructor].
  Qed.

  Lemma descend_root : forall t k x p, descend K V cmp t k [] = (x, p) -> sorted (inorder t) ->
    inorder t = pl p ++ inorder x ++ pr p /\ around k x p.
  Proof. intros t k x p H Hs. apply (descend_spec t k []); auto; constructor. Qed.

  Lemma lookup_spec : forall t k, sorted (inorder t) -> lookup K V cmp t k = a_get (inorder t) k.
  Proof.
    intros t k Hs. rewrite (lookup_descend t k []).
    destruct (descend K V cmp t k []) as [x p] eqn:Hd. apply descend_root in Hd as [-> Hx]; auto.
    destruct x as [|c l k' v r]; simpl fst.
    - destruct Hx as [Hg Hl]. rewrite a_get_app_gt by assumption. symmetry. now apply a_get_lt.
    - destruct Hx as (Hc & Hg & Hl). rewrite node_split, a_get_app_gt by assumption. simpl. now rewrite Hc.
  Qed.

  Lemma set_root_spec : forall t k v r added,
    sorted (inorder t) -> set_root K V cmp t k v = Ok (r, added) ->
    inorder r = a_set (inorder t) k v /\
    length (inorder r) = (if added then S (length (inorder t)) else length (inorder t)).
  Proof.
    intros t k v r added Hs H. unfold set_root in H.
    destruct (descend K V cmp t k []) as [x p] eqn:Hd. apply descend_root in Hd as [-> Hx]; auto.
    destruct x as [|c l k' v0 r0].
    - destruct Hx as [Hg Hl]. apply rmap_ok in H as (r1 & Hf & [= -> ->]).
      apply set_fix_inorder in Hf. rewrite Hf. simpl. rewrite a_set_app_gt, a_set_lt by assumption.
      split; auto. rewrite !app_length. simpl. lia.
    - destruct Hx as (Hc & Hg & Hl). injection H as <- <-.
      rewrite inorder_plug, !node_split, a_set_app_gt by assumption. simpl. rewrite Hc.
      split; auto. now rewrite !app_length.
  Qed.

  Lemma rem_spec : forall t k c l k' v r p r',
    sorted (inorder t) -> descend K V cmp t k [] = (T c l k' v r, p) ->
    rem_at K V use_succ (T c l k' v r) p = Ok r' ->
    inorder r' = a_rem (inorder t) k /\ length (inorder r') = pred (length (inorder t)).
  Proof.
    intros t k c l k' v r p r' Hs Hd Hr. apply descend_root in Hd as [-> (Hc & Hg & Hl)]; auto.
    apply rem_at_inorder in Hr. rewrite Hr, node_split, a_rem_app_gt by assumption. simpl.
    rewrite Hc, a_rem_lt, app_assoc by assumption. split; [reflexivity|].
    rewrite !app_length. simpl. rewrite app_length. lia.
  Qed.
End Contents.

(* stated for an order whose Eq is equality of keys, the special case of Section Contents' congruence *)
Section EqIsEquality.
  Variables K V : Type.
  Variable cmp : K -> K -> comparison.
  Hypothesis cmp_eq : forall a b, cmp a b = Eq -> a = b.
  Hypothesis cmp_anti : forall a b, cmp a b = CompOpp (cmp b a).
  Hypothesis cmp_trans : forall a b c, cmp a b = Lt -> cmp b c = Lt -> cmp a c = Lt.
  Notation sorted := (sorted K V cmp).
  Notation a_set_all := (a_set_all K V cmp).

  Lemma sorted_a_set_all : forall kvs m, sorted m -> sorted (a_set_all m kvs).
  Proof.
    induction kvs as [|[k v] r IH]; intros m H; simpl; [exact H|].
    apply IH, sorted_a_set; auto. now intros a b c ->%cmp_eq.
  Qed.
End EqIsEquality.

(* an invariant of positions kept by both steps down is kept by every walk down *)
Section Walk.
  Variables K V : Type.
  Variable P : tree K V -> path K V -> Prop.
  Hypothesis P_child : forall c l k v r p, P (T c l k v r) p ->
    P l (F K V DL c k v r :: p) /\ P r (F K V DR c k v l :: p).

  Lemma descend_inv : forall (cmp : K -> K -> comparison) t k p x p',
    P t p -> descend K V cmp t k p = (x, p') -> P x p'.
  Proof.
    induction t as [|c l IHl k' v r IHr]; intros k p x p' Ht H; simpl in H.
    - now injection H as <- <-.
    - destruct (P_child _ _ _ _ _ _ Ht) as [Pl Pr], (cmp k' k);
        [now injection H as <- <- | exact (IHl _ _ _ _ Pl H) | exact (IHr _ _ _ _ Pr H)].
  Qed.

  Lemma max_node_inv : forall t p x p', P t p -> max_node K V t p = (x, p') -> P x p'.
  Proof.
    induction t as [|c l _ k v r IH]; intros p x p' Ht H; simpl in H.
    - now injection H as <- <-.
    - destruct (P_child _ _ _ _ _ _ Ht), r; [now injection H as <- <- | eauto].
  Qed.

  Lemma min_node_inv : forall t p x p', P t p -> min_node K V t p = (x, p') -> P x p'.
  Proof.
    induction t as [|c l IH k v r _]; intros p x p' Ht H; simpl in H.
    - now injection H as <- <-.
    - destruct (P_child _ _ _ _ _ _ Ht), l; [now injection H as <- <- | eauto].
  Qed.
End Walk.
