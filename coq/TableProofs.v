(* TableProofs.v — the Table model (TableModel.v) refines the association-list finite map
   for EVERY hash function.  Generic slot-array facts come from RobinHoodProofs.v. *)
From Coq Require Import List Arith Bool NArith ZArith Lia Permutation.
From CelloV Require Import Generated RobinHood TableModel RobinHoodProofs.
Import ListNotations.

(* the capacity rule always leaves a free slot: ideal n > n, for the generated prime
   table and load factor *)
Lemma table_ideal_gt : forall n : nat, n < ideal_size table_primes table_load_num table_load_den n.
Proof. apply ideal_size_gt; vm_compute; reflexivity. Qed.

Section Spec.
  Variables K V : Type.
  Variable keq : K -> K -> bool.
  Hypothesis keq_spec : forall a b, keq a b = true <-> a = b.

  Local Notation a_get := (a_get K V keq).
  Local Notation a_rem := (a_rem K V keq).
  Local Notation a_set := (a_set K V keq).

  Lemma keq_reflect a b : reflect (a = b) (keq a b).
  Proof. apply iff_reflect. symmetry. apply keq_spec. Qed.

  Lemma keq_false a b : a <> b -> keq a b = false.
  Proof. intros H. destruct (keq_reflect a b); [contradiction|reflexivity]. Qed.

  Lemma a_get_none (m : amap K V) k : a_get m k = None <-> ~ In k (map fst m).
  Proof.
    induction m as [|[k' v] m IH]; simpl; [tauto|].
    destruct (keq_reflect k' k) as [->|Hne]; [|rewrite IH; clear IH; tauto].
    split; [discriminate|]. intros H. destruct H. auto.
  Qed.

  Lemma a_get_some (m : amap K V) k v : NoDup (map fst m) -> (a_get m k = Some v <-> In (k, v) m).
  Proof.
    induction m as [|[k' v'] m IH]; simpl; intros Hnd; [split; [discriminate|tauto]|].
    inversion Hnd as [|? ? Hnin Hnd']; subst.
    destruct (keq_reflect k' k) as [->|Hne].
    - split; [intros [= ->]; auto|]. intros [H|H]; [congruence|]. destruct Hnin. exact (in_map fst _ _ H).
    - rewrite (IH Hnd'). split; [auto|]. intros [H|H]; [congruence|exact H].
  Qed.

  Lemma a_get_in (m : amap K V) k : NoDup (map fst m) -> (In k (map fst m) <-> a_get m k <> None).
  Proof.
    intros Hnd. destruct (a_get m k) as [v|] eqn:Hg.
    - apply a_get_some in Hg; [|exact Hnd]. split; [discriminate|]. intros _. exact (in_map fst _ _ Hg).
    - apply a_get_none in Hg. tauto.
  Qed.

  Lemma in_a_rem (m : amap K V) k e : In e (a_rem m k) <-> In e m /\ fst e <> k.
  Proof.
    induction m as [|[k' v'] m IH]; simpl; [tauto|].
    destruct (keq_reflect k' k) as [->|Hne]; simpl; rewrite IH; clear IH.
    - split; [tauto|]. intros [[<-|H] Hn]; [destruct Hn; reflexivity|tauto].
    - split; [|tauto]. intros [<-|H]; [auto|tauto].
  Qed.

  Lemma nodup_a_rem (m : amap K V) k : NoDup (map fst m) -> NoDup (map fst (a_rem m k)).
  Proof.
    induction m as [|[k' v'] m IH]; simpl; intros Hnd; [constructor|].
    inversion Hnd as [|? ? Hnin Hnd']; subst.
    destruct (keq k' k); [auto|]. simpl. constructor; [|auto].
    intros Hin. apply Hnin. apply in_map_iff in Hin. destruct Hin as [e [He Hin]].
    apply in_a_rem in Hin. apply in_map_iff. exists e. tauto.
  Qed.

  Lemma nodup_a_set (m : amap K V) k v : NoDup (map fst m) -> NoDup (map fst (a_set m k v)).
  Proof.
    intros Hnd. unfold TableModel.a_set. simpl. constructor; [|apply nodup_a_rem; assumption].
    intros Hin. apply in_map_iff in Hin. destruct Hin as [e [He Hin]]. apply in_a_rem in Hin. tauto.
  Qed.

  Lemma in_a_set (m : amap K V) k v e : In e (a_set m k v) <-> e = (k, v) \/ (In e m /\ fst e <> k).
  Proof. unfold TableModel.a_set. simpl. rewrite in_a_rem. intuition auto. Qed.

  Lemma nodup_fst_nodup (m : list (K * V)) : NoDup (map fst m) -> NoDup m.
  Proof. apply NoDup_map_inv. Qed.

  (* maps with the same bindings answer every operation alike *)
  Lemma same_bindings_perm (m1 m2 : amap K V) : NoDup (map fst m1) -> NoDup (map fst m2) ->
    (forall k, a_get m1 k = a_get m2 k) -> Permutation m1 m2.
  Proof.
    intros H1 H2 Hg. apply NoDup_Permutation; try (apply nodup_fst_nodup; assumption).
    intros [k v]. rewrite <- (a_get_some m1 k v H1), <- (a_get_some m2 k v H2), Hg. tauto.
  Qed.

  Lemma spec_out_same (m1 m2 : amap K V) o : NoDup (map fst m1) -> NoDup (map fst m2) ->
    (forall k, a_get m1 k = a_get m2 k) -> snd (spec_step K V keq m1 o) = snd (spec_step K V keq m2 o).
  Proof.
    intros H1 H2 Hg. pose proof (Permutation_length (same_bindings_perm m1 m2 H1 H2 Hg)) as Hl.
    destruct o; unfold TableModel.spec_step; rewrite ?Hg, ?Hl; try destruct (a_get m2 k); try reflexivity.
    destruct (n =? 0); [reflexivity|]. destruct (n <? length m2); reflexivity.
  Qed.
End Spec.

(* the resize policy read from the source is admissible: whenever a rehash is decided or declined,
   the slot count stays above the item count, for the generated expressions *)
Lemma resize_policy_admissible_proof : forall n : nat,
  n <= table_grow_trigger n /\ n <= table_grow_target n /\ n <= table_shrink_target n.
Proof. intros n. unfold table_grow_trigger, table_grow_target, table_shrink_target. lia. Qed.

Section TP.
  Variables K V : Type.
  Variable keq : K -> K -> bool.
  Variable hash : K -> N.
  Variable swap : nat -> nat -> bool.
  Variable primes : list N.
  Variables num den : N.
  Hypothesis keq_spec : forall a b, keq a b = true <-> a = b.
  (* the repaired rule of Table_Set_Move, `if (j > p)`: Generated.table_swap *)
  Hypothesis swap_strict : forall j p, swap j p = true -> p < j.
  Hypothesis swap_ge : forall j p, swap j p = false -> j <= p.
  (* Table_Ideal_Size always leaves a free slot: table_ideal_gt for the generated data *)
  Hypothesis ideal_gt : forall n, n < ideal_size primes num den n.

  Local Notation entry := (entry K V).
  Local Notation table := (table K V).
  Local Notation slots := (slots K V).
  Local Notation nitems := (nitems K V).
  Local Notation nslots := (nslots K V).
  Local Notation mkT := (mkT K V).
  Local Notation home := (home K hash).
  Local Notation ideal := (ideal primes num den).
  Local Notation t_iter := (t_iter K V).
  Local Notation t_step := (t_step K V keq hash swap primes num den).
  Local Notation set_move := (set_move K V keq hash swap).
  Local Notation resize_more := (resize_more K V keq hash swap primes num den).
  Local Notation resize_less := (resize_less K V keq hash swap primes num den).
  Local Notation set_all := (set_all K V keq hash swap).
  Local Notation t_assign_from := (t_assign_from K V keq hash swap primes num den).
  Local Notation t_empty := (t_empty K V primes num den).
  Local Notation t_run := (t_run K V keq hash swap primes num den).
  Local Notation spec_step := (spec_step K V keq).
  Local Notation spec_run := (spec_run K V keq).
  Local Notation a_get := (a_get K V keq).
  Local Notation a_set := (a_set K V keq).
  Local Notation Holds := (Holds entry).
  Local Notation occupied := (occupied entry).
  Local Notation new_wins := (fun (_ new : entry) => new).

  Lemma swap_le j p : swap j p = true -> p <= j.
  Proof. intros H. apply swap_strict in H. lia. Qed.

  (* home slot of a key in an array of n slots *)
  Definition hmn (n : nat) : K -> nat := fun k => home k n.

  Lemma home_lt k n : 0 < n -> hmn n k < n.
  Proof. apply mod_home_lt. Qed.

  (* the slot array is a well-formed robin-hood array for the current slot count, and
     nitems counts the occupied slots *)
  Definition pre_inv (t : table) : Prop :=
    core K entry fst (hmn (nslots t)) (slots t) /\ nitems t = occupied (slots t).
  (* ... and there is a free slot (or no slot array at all, after resize(t,0)) *)
  Definition t_inv (t : table) : Prop :=
    pre_inv t /\ (nitems t < nslots t \/ nslots t = 0).
  (* abstraction relation: the table holds exactly the bindings of the map *)
  Definition R (t : table) (m : amap K V) : Prop :=
    NoDup (map fst m) /\ forall e, In e (t_iter t) <-> In e m.

  (* pre_inv t is, by conversion, RobinHoodProofs' `counted` of the slot array and nitems; t_inv is its `tbl_inv` *)
  Lemma t_inv_tbl t : t_inv t <-> tbl_inv K entry fst home (slots t) (nitems t).
  Proof. split; intros [Hp [Hr|Hr]]; (split; [exact Hp|auto]). Qed.

  Lemma iter_holds (t : table) e : In e (t_iter t) <-> Holds (slots t) e.
  Proof. apply in_entries. Qed.

  Lemma iter_fresh n c : t_iter (mkT (repeat None n) c) = [].
  Proof. unfold TableModel.t_iter. simpl. induction n as [|n IH]; [reflexivity|exact IH]. Qed.

  Lemma nslots_fresh n c : nslots (mkT (repeat None n) c) = n.
  Proof. apply repeat_length. Qed.

  Lemma pre_inv_fresh n : pre_inv (mkT (repeat None n) 0).
  Proof.
    split; [apply core_repeat|]. simpl. rewrite occupied_repeat. reflexivity.
  Qed.

  Lemma R_fresh n : R (mkT (repeat None n) 0) [].
  Proof. split; [constructor|]. intros e. rewrite iter_fresh. tauto. Qed.

  Lemma iter_nodup t : pre_inv t -> NoDup (map fst (t_iter t)).
  Proof. intros [[_ [_ H]] _]. apply UQ_NoDup, H. Qed.

  Lemma nslots0_iter t : nslots t = 0 -> t_iter t = [].
  Proof.
    unfold TableModel.nslots, TableModel.t_iter. intros H. apply length_zero_iff_nil in H. rewrite H. reflexivity.
  Qed.

  Lemma R_exists t : pre_inv t -> R t (t_iter t).
  Proof. intros H. split; [apply iter_nodup; assumption|tauto]. Qed.

  Lemma R_perm t m : pre_inv t -> R t m -> Permutation (t_iter t) m.
  Proof.
    intros Hi [Hnd Hin]. apply NoDup_Permutation; [| |exact Hin]; apply nodup_fst_nodup; [apply iter_nodup|]; assumption.
  Qed.

  Lemma R_len t m : pre_inv t -> R t m -> nitems t = length m.
  Proof. intros Hi Hr. rewrite (proj2 Hi). exact (Permutation_length (R_perm t m Hi Hr)). Qed.

  Lemma R_nil t m : t_iter t = [] -> R t m -> m = [].
  Proof.
    intros Hnil [_ Hin]. destruct m as [|e m]; [reflexivity|].
    exfalso. specialize (Hin e). rewrite Hnil in Hin. apply Hin. left. reflexivity.
  Qed.

  Lemma R_iter t t' m : (forall e, In e (t_iter t') <-> In e (t_iter t)) -> R t m -> R t' m.
  Proof. intros Hit [Hnd Hin]. split; [exact Hnd|]. intros e. rewrite Hit. apply Hin. Qed.

  Lemma R_set t t1 m k v : R t m ->
    (forall e, In e (t_iter t1) <-> e = (k, v) \/ (In e (t_iter t) /\ fst e <> k)) -> R t1 (a_set m k v).
  Proof.
    intros [Hnd Hin] Hit. split; [apply nodup_a_set; assumption|].
    intros e. rewrite Hit, Hin. symmetry. apply in_a_set. assumption.
  Qed.

  (* the probe of Table_Get / Table_Mem / Table_Rem finds the slot of k iff the map binds k *)
  Lemma find_refines t m k : pre_inv t -> nslots t <> 0 -> R t m ->
    exists r, rh_find K V keq (slots t) (home k (nslots t)) k = Some r /\
      match r with
      | Some i => exists v, RobinHood.at_ entry (slots t) i = Some (home k (nslots t), (k, v)) /\ a_get m k = Some v
      | None => a_get m k = None
      end.
  Proof.
    intros [Hc _] Hnz [Hnd Hin].
    destruct (tbl_find K entry keq fst keq_spec home home_lt (slots t) k Hc Hnz) as [[i|] [Hf Hr]]; eexists; (split; [exact Hf|]).
    - destruct Hr as [[k' v] [Hat Hk]]. simpl in Hk. subst k'. exists v. split; [exact Hat|].
      apply (a_get_some K V keq keq_spec m k v Hnd), Hin, iter_holds. eexists _, _. exact Hat.
    - apply (a_get_none K V keq keq_spec). intros Hk. apply in_map_iff in Hk. destruct Hk as [e [Hk He]].
      apply Hin, iter_holds in He. exact (Hr e He Hk).
  Qed.

  Lemma lookup_refines t m k : t_inv t -> R t m ->
    TableModel.t_lookup K V keq hash t k = Some (match a_get m k with Some v => Some (k, v) | None => None end).
  Proof.
    intros [Hp _] Hr. unfold TableModel.t_lookup.
    destruct (Nat.eqb_spec (nslots t) 0) as [H0|H0].
    - rewrite (R_nil t m (nslots0_iter t H0) Hr). reflexivity.
    - destruct (find_refines t m k Hp H0 Hr) as [[i|] [Hf Hg]]; rewrite Hf.
      + destruct Hg as [v [Hat ->]]. rewrite Hat. reflexivity.
      + rewrite Hg. reflexivity.
  Qed.

  Lemma set_move_spec t k v : pre_inv t -> nitems t < nslots t ->
    exists t1, set_move t k v = Some t1 /\ pre_inv t1 /\ nslots t1 = nslots t /\
      (forall e, In e (t_iter t1) <-> e = (k, v) \/ (In e (t_iter t) /\ fst e <> k)) /\
      nitems t1 <= S (nitems t).
  Proof.
    intros Hp Hload.
    destruct (tbl_insert K entry keq fst swap new_wins keq_spec swap_le swap_ge ltac:(reflexivity) home home_lt
                (slots t) (nitems t) (k, v) swap_strict Hp Hload) as (l' & fresh & newe & Hins & Hp' & Hlen & Hh & Hnew).
    assert (newe = (k, v)) as -> by (destruct Hnew as [H|(_ & _ & _ & H)]; exact H).
    cbn [fst] in Hins. unfold TableModel.set_move, rh_insert, TableModel.nslots, TableModel.tslot. rewrite Hins.
    eexists. split; [reflexivity|]. split; [exact Hp'|split; [exact Hlen|split]].
    - intros e. rewrite !iter_holds. apply Hh.
    - simpl. destruct fresh; lia.
  Qed.

  (* inserting a list of bindings with fresh, pairwise different keys: every insertion is of an absent
     key, so any admissible displacement rule will do *)
  Lemma set_all_fresh : (forall j p, swap j p = true -> p <= j) ->
    forall (kvs : list entry) t, pre_inv t -> NoDup (map fst kvs) ->
    (forall x, In x kvs -> Absent K entry fst (slots t) (fst x)) ->
    occupied (slots t) + length kvs < nslots t ->
    exists t', set_all t kvs = Some t' /\ pre_inv t' /\ nslots t' = nslots t /\
      (forall x, Holds (slots t') x <-> Holds (slots t) x \/ In x kvs) /\
      nitems t' = nitems t + length kvs.
  Proof.
    intros Hle. induction kvs as [|[k v] kvs IH]; intros t [Hc Hn] Hnd Habs Hocc.
    - exists t. simpl. rewrite Nat.add_0_r. unfold pre_inv. tauto.
    - cbn [map fst length TableModel.set_all] in *. inversion Hnd as [|? ? Hnin Hnd']; subst.
      destruct (tbl_insert_absent K entry keq fst swap new_wins keq_spec Hle swap_ge home home_lt
                  (slots t) (nitems t) (k, v) (conj Hc Hn)) as (l' & Hins & [[Hc' Hn'] _] & Hlen & Hh);
        [change (S (nitems t) < nslots t); lia|intros e [a [g Ha]]; exact (Habs _ (or_introl eq_refl) a g e Ha)|].
      cbn [fst] in Hins. unfold TableModel.set_move, rh_insert, TableModel.nslots, TableModel.tslot. rewrite Hins.
      destruct (IH (mkT l' (S (nitems t))) (conj Hc' Hn')) as [t' [Hs [Hp' [Hns [Hh' Hni]]]]]; auto.
      + intros x Hx a g y Ha Hk. assert (Hy : Holds l' y) by (exists a, g; exact Ha).
        apply Hh in Hy. destruct Hy as [[a' [g' Ha']]| ->].
        * exact (Habs x (or_intror Hx) _ _ _ Ha' Hk).
        * apply Hnin. simpl in Hk. rewrite Hk. apply in_map. exact Hx.
      + unfold TableModel.nslots, TableModel.tslot in *. simpl. rewrite <- Hn', Hlen. lia.
      + exists t'. repeat (split; [assumption|]). split; [exact (eq_trans Hns Hlen)|]. split.
        * intros x. rewrite Hh'. simpl. rewrite Hh. split; [intros [[H| ->]|H]|intros [H|[<-|H]]]; auto.
        * rewrite Hni. simpl. lia.
  Qed.

  Lemma set_all_spec : forall (kvs : list entry) t, pre_inv t -> nitems t + length kvs < nslots t ->
    NoDup (map fst kvs) -> (forall e e', In e kvs -> In e' (t_iter t) -> fst e' <> fst e) ->
    exists t', set_all t kvs = Some t' /\ pre_inv t' /\ nslots t' = nslots t /\
      (forall e, In e (t_iter t') <-> In e kvs \/ In e (t_iter t)) /\
      nitems t' <= nitems t + length kvs.
  Proof.
    intros kvs t Hp Hload Hnd Habs.
    destruct (set_all_fresh swap_le kvs t Hp Hnd) as [t' [Hs [Hp' [Hns [Hh Hni]]]]].
    - intros x Hx a g y Ha. apply (Habs x y Hx), iter_holds. exists a, g. exact Ha.
    - rewrite <- (proj2 Hp). exact Hload.
    - exists t'. repeat (split; [assumption|]). split; [|lia].
      intros e. rewrite !iter_holds, Hh. tauto.
  Qed.

  (* both resize functions rehash to n slots or leave the table alone *)
  Lemma rehash_if_spec (b : bool) t n : pre_inv t -> nitems t < n -> (b = false -> nitems t < nslots t) ->
    exists t2, (if b then TableModel.t_rehash K V keq hash swap t n else Some t) = Some t2 /\ t_inv t2 /\
      (forall e, In e (t_iter t2) <-> In e (t_iter t)) /\ nitems t2 = nitems t.
  Proof.
    intros Hp Hn Hb. pose proof Hp as [[_ [_ Huq]] Hni]. destruct b.
    - destruct (tbl_rehash K entry keq fst swap new_wins keq_spec swap_le swap_ge home home_lt (slots t) n Huq)
        as (l' & Hr & [Hc' Ho] & Hlen & Hh); [lia|lia|].
      unfold TableModel.t_rehash, rh_rehash. rewrite Hr. eexists. split; [reflexivity|].
      split; [split; [exact (conj Hc' eq_refl)|left]|split].
      + unfold TableModel.nslots, TableModel.tslot. simpl. lia.
      + intros e. rewrite !iter_holds. apply Hh.
      + simpl. lia.
    - exists t. unfold t_inv. intuition auto.
  Qed.

  Lemma resize_more_spec t : pre_inv t ->
    exists t2, resize_more t = Some t2 /\ t_inv t2 /\
      (forall e, In e (t_iter t2) <-> In e (t_iter t)) /\ nitems t2 = nitems t.
  Proof.
    intros Hp. destruct (resize_policy_admissible_proof (nitems t)) as [Hg1 [Hg2 _]].
    pose proof (ideal_gt (table_grow_trigger (nitems t))). pose proof (ideal_gt (table_grow_target (nitems t))).
    apply rehash_if_spec; [exact Hp|unfold TableModel.ideal; lia|].
    intros Hb. apply Nat.ltb_ge in Hb. unfold TableModel.ideal in Hb. lia.
  Qed.

  Lemma resize_less_spec t : pre_inv t -> nitems t < nslots t ->
    exists t2, resize_less t = Some t2 /\ t_inv t2 /\
      (forall e, In e (t_iter t2) <-> In e (t_iter t)) /\ nitems t2 = nitems t.
  Proof.
    intros Hp Hload. destruct (resize_policy_admissible_proof (nitems t)) as [_ [_ Hg]].
    pose proof (ideal_gt (table_shrink_target (nitems t))).
    apply rehash_if_spec; [exact Hp|unfold TableModel.ideal; lia|auto].
  Qed.

  (* a fresh array sized for the source's count, filled in the source's iteration order *)
  Lemma assign_from_perm : (forall j p, swap j p = true -> p <= j) -> forall src, pre_inv src ->
    exists t', t_assign_from src = Some t' /\ t_inv t' /\
      Permutation (t_iter t') (t_iter src) /\ nitems t' = nitems src.
  Proof.
    intros Hle src Hp. pose proof (iter_nodup src Hp) as Hnd. pose proof (ideal_gt (nitems src)) as Hid.
    assert (Hlen : length (t_iter src) = nitems src) by (rewrite (proj2 Hp); reflexivity).
    destruct (set_all_fresh Hle (t_iter src) (mkT (repeat None (ideal (nitems src))) 0) (pre_inv_fresh _) Hnd)
      as [t' [Hs [Hp' [Hns [Hh Hni]]]]].
    - intros x _. apply Absent_repeat.
    - rewrite nslots_fresh. simpl. rewrite occupied_repeat, Hlen. exact Hid.
    - simpl in Hni. rewrite Hlen in Hni. exists t'. split; [exact Hs|]. split; [|split; [|exact Hni]].
      + split; [exact Hp'|]. left. rewrite Hns, Hni, nslots_fresh. exact Hid.
      + apply NoDup_Permutation; try (apply nodup_fst_nodup, iter_nodup; assumption).
        intros x. rewrite iter_holds, Hh, <- iter_holds, iter_fresh. simpl. tauto.
  Qed.

  Lemma assign_from_refines src m : t_inv src -> R src m ->
    exists t', t_assign_from src = Some t' /\ t_inv t' /\ R t' m.
  Proof.
    intros [Hp _] Hr. destruct (assign_from_perm swap_le src Hp) as [t' [Ha [Hi' [P _]]]].
    exists t'. repeat (split; [assumption|]). apply (R_iter src); [|exact Hr].
    intros e. split; apply Permutation_in; [|symmetry]; exact P.
  Qed.

  Definition step_ok (t : table) (m : amap K V) (o : op K V) : Prop :=
    t_inv (fst (t_step t o)) /\ R (fst (t_step t o)) (fst (spec_step m o)) /\
    snd (t_step t o) = snd (spec_step m o).

  Lemma step_set t m k v : t_inv t -> R t m -> step_ok t m (TSet K V k v).
  Proof.
    intros [Hp Hload] Hr. unfold step_ok, TableModel.t_step.
    set (t0 := if nslots t =? 0 then mkT (repeat None (ideal 0)) 0 else t).
    assert (H0 : pre_inv t0 /\ nitems t0 < nslots t0 /\ t_iter t0 = t_iter t).
    { unfold t0. destruct (Nat.eqb_spec (nslots t) 0) as [Hz|Hz]; [|split; [assumption|split; [lia|reflexivity]]].
      split; [apply pre_inv_fresh|]. rewrite iter_fresh, (nslots0_iter t Hz), nslots_fresh. split; [|reflexivity].
      apply (ideal_gt 0). }
    destruct H0 as [Hp0 [Hl0 Hit0]].
    destruct (set_move_spec t0 k v Hp0 Hl0) as [t1 [Hsm [Hp1 [Hns1 [Hit1 Hni1]]]]].
    destruct (resize_more_spec t1 Hp1) as [t2 [Hrm [Hi2 [Hit2 Hni2]]]].
    rewrite Hsm, Hrm. simpl. split; [exact Hi2|]. split; [|reflexivity].
    rewrite Hit0 in Hit1. exact (R_iter t1 t2 _ Hit2 (R_set t t1 m k v Hr Hit1)).
  Qed.

  Lemma step_lookup t m k : t_inv t -> R t m -> step_ok t m (TGet K V k) /\ step_ok t m (TMem K V k).
  Proof.
    intros Hi Hr. unfold step_ok, TableModel.t_step, TableModel.spec_step.
    rewrite (lookup_refines t m k Hi Hr). destruct (a_get m k); simpl; auto.
  Qed.

  Lemma step_rem t m k : t_inv t -> R t m -> step_ok t m (TRem K V k).
  Proof.
    intros Hi Hr. pose proof (proj1 Hi) as Hp. pose proof Hr as [Hnd Hin].
    unfold step_ok, TableModel.t_step, TableModel.spec_step.
    destruct (Nat.eqb_spec (nslots t) 0) as [Hz|Hz].
    - pose proof (R_nil t m (nslots0_iter t Hz) Hr) as ->. simpl. auto.
    - destruct (find_refines t m k Hp Hz Hr) as [[i|] [Hf Hg]]; rewrite Hf.
      + destruct Hg as [v [Hat Hg]]. rewrite Hg.
        destruct (tbl_delete K entry fst home (slots t) (nitems t) i _ _ (proj1 (t_inv_tbl t) Hi) Hat)
          as (l' & Hd & Hp' & Hroom & _ & Hh).
        unfold rh_delete. rewrite Hd.
        destruct (resize_less_spec (mkT l' (pred (nitems t))) Hp' Hroom) as [t2 [Hrl [Hi2 [Hit2 Hni2]]]].
        rewrite Hrl. simpl. split; [exact Hi2|]. split; [|reflexivity].
        split; [apply nodup_a_rem; assumption|].
        intros e. rewrite Hit2. rewrite (in_a_rem K V keq keq_spec), <- Hin, !iter_holds. apply Hh.
      + rewrite Hg. simpl. auto.
  Qed.

  Lemma step_resize t m n : t_inv t -> R t m -> step_ok t m (TResize K V n).
  Proof.
    intros Hi Hr. pose proof (proj1 Hi) as Hp. unfold step_ok, TableModel.t_step, TableModel.spec_step.
    destruct (Nat.eqb_spec n 0) as [Hz|Hz].
    - simpl. split; [split; [apply (pre_inv_fresh 0)|right; reflexivity]|]. split; [exact (R_fresh 0)|reflexivity].
    - rewrite <- (R_len t m Hp Hr). destruct (Nat.ltb_spec n (nitems t)) as [Hlt|Hge]; [simpl; auto|].
      pose proof (ideal_gt n) as Hid.
      destruct (rehash_if_spec true t (ideal n) Hp) as [t2 [Hrh [Hi2 [Hit2 _]]]];
        [unfold TableModel.ideal; lia|discriminate|].
      rewrite Hrh. simpl. split; [exact Hi2|]. split; [|reflexivity]. exact (R_iter t t2 m Hit2 Hr).
  Qed.

  Lemma step_copy t m : t_inv t -> R t m -> step_ok t m (TSelfCopy K V).
  Proof.
    intros Hi Hr. unfold step_ok, TableModel.t_step, TableModel.spec_step.
    destruct (assign_from_refines t m Hi Hr) as [t' [Ha [Hi' Hr']]]. rewrite Ha. simpl. auto.
  Qed.

  (* every operation keeps the invariant, keeps the abstraction relation with the finite map
     and returns what the finite map returns — in particular never OFuel / OCrash *)
  Theorem step_refines t m o : t_inv t -> R t m -> step_ok t m o.
  Proof.
    intros Hi Hr. destruct o.
    - apply step_set; assumption.
    - apply step_rem; assumption.
    - exact (proj1 (step_lookup t m k Hi Hr)).
    - exact (proj2 (step_lookup t m k Hi Hr)).
    - apply step_resize; assumption.
    - apply step_copy; assumption.
  Qed.

  Definition a_set_all (m : amap K V) (kvs : list entry) : amap K V :=
    fold_left (fun m kv => a_set m (fst kv) (snd kv)) kvs m.

  (* duplicates among the pairs allowed: later pairs win *)
  Lemma set_all_refines : forall (kvs : list entry) t m, pre_inv t -> R t m ->
    nitems t + length kvs < nslots t ->
    exists t', set_all t kvs = Some t' /\ pre_inv t' /\ nslots t' = nslots t /\
      nitems t' <= nitems t + length kvs /\ R t' (a_set_all m kvs).
  Proof.
    induction kvs as [|[k v] r IH]; intros t m Hp Hr Hload.
    - exists t. split; [reflexivity|]. split; [assumption|]. split; [reflexivity|]. split; [lia|assumption].
    - simpl in Hload.
      destruct (set_move_spec t k v Hp ltac:(lia)) as [t1 [Hsm [Hp1 [Hns1 [Hit1 Hni1]]]]].
      destruct (IH t1 (a_set m k v) Hp1 (R_set t t1 m k v Hr Hit1) ltac:(lia)) as [t' [Hsa [Hp' [Hns' [Hni' Hr']]]]].
      exists t'. simpl. rewrite Hsm. repeat (split; [assumption|]). split; [lia|]. split; [lia|exact Hr'].
  Qed.

  Lemma t_new_refines (kvs : list entry) :
    exists t, t_new K V keq hash swap primes num den kvs = Some t /\ t_inv t /\ R t (a_set_all [] kvs).
  Proof.
    unfold TableModel.t_new. pose proof (ideal_gt (length kvs)) as Hid.
    destruct (set_all_refines kvs _ [] (pre_inv_fresh (ideal (length kvs))) (R_fresh _)) as [t' [Hsa [Hp' [Hns' [Hni' Hr']]]]].
    - rewrite nslots_fresh. exact Hid.
    - exists t'. split; [exact Hsa|]. split; [|exact Hr'].
      split; [exact Hp'|]. left. rewrite Hns', nslots_fresh. simpl in Hni'. unfold TableModel.ideal. lia.
  Qed.

  Lemma t_inv_empty : t_inv t_empty.
  Proof.
    split; [apply pre_inv_fresh|]. left. unfold TableModel.t_empty. rewrite nslots_fresh. apply (ideal_gt 0).
  Qed.

  Lemma run_refines : forall ops t m, t_inv t -> R t m ->
    t_inv (t_run ops t) /\ R (t_run ops t) (spec_run ops m).
  Proof.
    induction ops as [|o ops IH]; intros t m Hi Hr; [split; assumption|].
    destruct (step_refines t m o Hi Hr) as [Hi' [Hr' _]]. apply IH; assumption.
  Qed.

  Theorem refines_map ops o :
    let t := t_run ops t_empty in
    let m := spec_run ops [] in
    t_inv t /\ R t m /\ snd (t_step t o) = snd (spec_step m o).
  Proof.
    intros t m. destruct (run_refines ops t_empty [] t_inv_empty (R_fresh _)) as [Hi Hr].
    repeat (split; [assumption|]). apply (step_refines t m o Hi Hr).
  Qed.

  (* termination / fuel adequacy and no undefined behaviour of the model: the table's outcome is
     the finite map's (step_refines with m := t_iter t), and spec_step yields neither OFuel nor OCrash *)
  Lemma step_total t o : t_inv t -> snd (t_step t o) <> OFuel V /\ snd (t_step t o) <> OCrash V.
  Proof.
    intros Hi. destruct (step_refines t (t_iter t) o Hi (R_exists t (proj1 Hi))) as [_ [_ Ho]].
    rewrite Ho. destruct o; unfold TableModel.spec_step;
      repeat match goal with |- context [match ?x with _ => _ end] => destruct x end;
      simpl; split; discriminate.
  Qed.
End TP.

Lemma table_swap_strict j p : table_swap j p = true -> p < j.
Proof. apply Nat.ltb_lt. Qed.

Lemma table_swap_ge j p : table_swap j p = false -> j <= p.
Proof. apply Nat.ltb_ge. Qed.

Lemma table_swap_le j p : table_swap j p = true -> p <= j.
Proof. exact (swap_le table_swap table_swap_strict j p). Qed.

(* the model with everything that is re-extracted from the C source plugged in *)
Definition T_empty (K V : Type) : table K V := t_empty K V table_primes table_load_num table_load_den.
Definition T_step (K V : Type) (keq : K -> K -> bool) (hash : K -> N) : table K V -> op K V -> table K V * out V :=
  t_step K V keq hash table_swap table_primes table_load_num table_load_den.
Definition T_run (K V : Type) (keq : K -> K -> bool) (hash : K -> N) (ops : list (op K V)) : table K V :=
  t_run K V keq hash table_swap table_primes table_load_num table_load_den ops (T_empty K V).

Section Final.
  Variables K V : Type.
  Variable keq : K -> K -> bool.
  Variable hash : K -> N.
  Hypothesis keq_spec : forall a b, keq a b = true <-> a = b.

  Local Notation t_inv := (t_inv K V hash).
  Local Notation R := (R K V).
  Local Notation T_step := (T_step K V keq hash).
  Local Notation T_run := (T_run K V keq hash).
  Local Notation spec_step := (spec_step K V keq).
  Local Notation spec_run := (spec_run K V keq).
  Local Notation a_get := (a_get K V keq).

  Lemma T_step_refines (t : table K V) (m : amap K V) (o : op K V) : t_inv t -> R t m ->
    t_inv (fst (T_step t o)) /\ R (fst (T_step t o)) (fst (spec_step m o)) /\
    snd (T_step t o) = snd (spec_step m o).
  Proof. apply (step_refines K V keq hash table_swap _ _ _ keq_spec table_swap_strict table_swap_ge table_ideal_gt). Qed.

  Lemma T_refines_map (ops : list (op K V)) (o : op K V) :
    let t := T_run ops in
    let m := spec_run ops [] in
    t_inv t /\ R t m /\ snd (T_step t o) = snd (spec_step m o).
  Proof. apply (refines_map K V keq hash table_swap _ _ _ keq_spec table_swap_strict table_swap_ge table_ideal_gt). Qed.

  Lemma T_run_inv (ops : list (op K V)) : t_inv (T_run ops) /\ R (T_run ops) (spec_run ops []).
  Proof.
    apply (run_refines K V keq hash table_swap _ _ _ keq_spec table_swap_strict table_swap_ge table_ideal_gt);
      [apply t_inv_empty, table_ideal_gt|apply R_fresh].
  Qed.

  Lemma T_len_iter (ops : list (op K V)) :
    let t := T_run ops in
    let m := spec_run ops [] in
    t_len K V t = length m /\
    NoDup (map fst (t_iter K V t)) /\
    Permutation (t_iter K V t) m /\
    (forall k, In k (map fst (t_iter K V t)) <-> a_get m k <> None).
  Proof.
    intros t m. destruct (T_run_inv ops) as [[Hp _] Hr]. fold t in Hp, Hr. fold m in Hr.
    pose proof (R_perm K V hash t m Hp Hr) as P.
    split; [apply (R_len K V hash t m Hp Hr)|]. split; [apply (iter_nodup K V hash t Hp)|]. split; [exact P|].
    intros k. rewrite <- (a_get_in K V keq keq_spec m k (proj1 Hr)).
    split; apply Permutation_in, Permutation_map; [|symmetry]; exact P.
  Qed.

  Lemma T_absent_keyerror (ops : list (op K V)) (k : K) :
    let t := T_run ops in
    let m := spec_run ops [] in
    a_get m k = None ->
    T_step t (TGet K V k) = (t, ORaise V KeyError) /\ T_step t (TRem K V k) = (t, ORaise V KeyError).
  Proof.
    intros t m Hg. destruct (T_run_inv ops) as [Hi Hr]. fold t in Hi, Hr. fold m in Hr.
    unfold TableProofs.T_step, TableModel.t_step.
    rewrite (lookup_refines K V keq hash keq_spec t m k Hi Hr), Hg. split; [reflexivity|].
    destruct (Nat.eqb_spec (nslots K V t) 0) as [Hz|Hz]; [reflexivity|].
    destruct (find_refines K V keq hash keq_spec t m k (proj1 Hi) Hz Hr) as [[i|] [Hf Hr']]; rewrite Hf.
    - destruct Hr' as [v [_ Hv]]. congruence.
    - reflexivity.
  Qed.
End Final.

(* two histories, even under two hash functions, that leave the same bindings leave tables that
   answer alike *)
Lemma same_bindings_same_answers (K V : Type) (keq : K -> K -> bool) (hash1 hash2 : K -> N) :
  (forall a b, keq a b = true <-> a = b) ->
  forall (ops1 ops2 : list (op K V)),
  let t1 := T_run K V keq hash1 ops1 in let t2 := T_run K V keq hash2 ops2 in
  let m1 := spec_run K V keq ops1 [] in let m2 := spec_run K V keq ops2 [] in
  (forall k, a_get K V keq m1 k = a_get K V keq m2 k) ->
  (forall o, snd (T_step K V keq hash1 t1 o) = snd (T_step K V keq hash2 t2 o)) /\
  t_len K V t1 = t_len K V t2 /\ Permutation (t_iter K V t1) (t_iter K V t2).
Proof.
  intros keq_spec ops1 ops2 t1 t2 m1 m2 Hg. subst t1 t2 m1 m2.
  destruct (T_run_inv K V keq hash1 keq_spec ops1) as [Hi1 Hr1]. destruct (T_run_inv K V keq hash2 keq_spec ops2) as [Hi2 Hr2].
  destruct (T_len_iter K V keq hash1 keq_spec ops1) as [Hl1 [_ [P1 _]]].
  destruct (T_len_iter K V keq hash2 keq_spec ops2) as [Hl2 [_ [P2 _]]].
  pose proof (same_bindings_perm K V keq keq_spec _ _ (proj1 Hr1) (proj1 Hr2) Hg) as Hp.
  split; [|split].
  - intros o. destruct (T_step_refines K V keq hash1 keq_spec _ _ o Hi1 Hr1) as [_ [_ ->]].
    destruct (T_step_refines K V keq hash2 keq_spec _ _ o Hi2 Hr2) as [_ [_ ->]].
    apply (spec_out_same K V keq keq_spec _ _ o (proj1 Hr1) (proj1 Hr2) Hg).
  - rewrite Hl1, Hl2. apply Permutation_length. exact Hp.
  - rewrite P1, P2. exact Hp.
Qed.

Local Open Scope Z_scope.
(* the witness below is computed with LITERAL sizes (prime table prefix and load factor 9/10 of the
   pinned source), so that it does not move when the tuning of the working tree does *)
Definition pinned_primes : list N := [0; 1; 5; 11; 23; 53]%N.

(* non-vacuity: a reachable table with three keys sharing the LAST slot of five as home (so two
   of them wrapped around to slots 0 and 1), satisfying the invariant and the relation *)
Definition example_ops : list (op Z Z) := [TSet Z Z 4 1; TSet Z Z 9 2; TSet Z Z 14 3; TSet Z Z 3 4].
Definition strict_swap (j p : nat) : bool := (p <? j)%nat.

Lemma T_inv_nonvacuous :
  exists (t : table Z Z) (m : amap Z Z),
    t_inv Z Z Z.to_N t /\ R Z Z t m /\
    slots Z Z t = [Some (4%nat, (9, 2)); Some (4%nat, (14, 3)); None; Some (3%nat, (3, 4)); Some (4%nat, (4, 1))] /\
    m = [(3, 4); (14, 3); (9, 2); (4, 1)].
Proof.
  exists (t_run Z Z Z.eqb Z.to_N strict_swap pinned_primes 9 10 example_ops (t_empty Z Z pinned_primes 9 10)),
         (spec_run Z Z Z.eqb example_ops []).
  destruct (refines_map Z Z Z.eqb Z.to_N strict_swap pinned_primes 9 10 Z.eqb_eq
              (fun j p => proj1 (Nat.ltb_lt p j)) (fun j p => proj1 (Nat.ltb_ge p j))
              (ideal_size_gt pinned_primes 9 10 eq_refl eq_refl eq_refl) example_ops (TSelfCopy Z Z)) as [Hi [Hr _]].
  repeat (split; [assumption|]). split; vm_compute; reflexivity.
Qed.
