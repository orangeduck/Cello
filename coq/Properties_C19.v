(* Properties_C19.v — property C19: every object the API hands out carries its true type and
   allocation class; stack, static and container-embedded objects are never freed or reallocated
   (attempts raise ResourceError or ValueError and change nothing); heap objects deleted once are
   released exactly once.  Statements about the model of Header.v; the case analysis of a step and the arguments
   over histories are in HeaderProofs.v, witnesses and layout arithmetic are proved here. *)
From Coq Require Import Lia.
From CelloV Require Import Generated Header HeaderProofs.

(* the rules of the C text the model's shape relies on are still the ones the generator recognises *)
Theorem c19_rules_ok : hdr_rules_ok = true.
Proof. vm_compute. reflexivity. Qed.
Print Assumptions c19_rules_ok.

(* every producer (new, new_raw, new_root, alloc*, copy, $, static and run-time types, element / key /
   value of every container, iterator and view items, range and zip items, Tuple members), every type:
   type_of gives the declared type, the header's class word is the stated class, the magic number is set *)
Theorem c19_true_type_and_class :
  forall ngc p T K V, valid p T K V = true ->
    let o := m_produce (cfg_src ngc) p T K V in
    m_type_of o = spec_type p T K V /\
    aclass_of_code (o_alloc o) = Some (spec_class p) /\
    o_magic o = true.
Proof. exact (fun ngc p T K V _ => proj1 (HeaderProofs.produce_ok (cfg_src ngc) p T K V)). Qed.
Print Assumptions c19_true_type_and_class.

Example c19_true_type_nonvacuous :
  valid (PGet CTableV) TInt TString TFloat = true /\
  m_type_of (m_produce (cfg_src false) (PGet CTableV) TInt TString TFloat) = TFloat /\
  spec_class (PGet CTableV) = AData.
Proof. repeat split. Qed.

(* the collector's registry only ever receives heap objects *)
Theorem c19_registered_is_heap :
  forall ngc p T K V, valid p T K V = true ->
    o_reg (m_produce (cfg_src ngc) p T K V) <> RNone -> spec_class p = AHeap.
Proof. exact (fun ngc p T K V _ => proj1 (proj2 (HeaderProofs.produce_ok (cfg_src ngc) p T K V))). Qed.
Print Assumptions c19_registered_is_heap.

(* EVERY history of operations (del, del_raw, del_root, dealloc*, destruct, every reallocating member of
   String and Tuple, collector sweeps) on EVERY non-heap object: each step releases nothing, and each
   attempt raises ResourceError/ValueError leaving the object unchanged — except that del/del_root are only
   shown not to release when the collector is compiled in (finding F7, see c19_f7_refuted) *)
Theorem c19_nonheap_histories :
  forall ngc p T K V ops, valid p T K V = true -> spec_class p <> AHeap ->
    history_meets (cfg_src ngc) p T K V ops (m_produce (cfg_src ngc) p T K V).
Proof. exact (fun ngc p T K V ops _ => HeaderProofs.nonheap_histories ngc p T K V ops). Qed.
Print Assumptions c19_nonheap_histories.

Example c19_nonheap_histories_nonvacuous :
  valid PStack TString TInt TInt = true /\ spec_class PStack <> AHeap /\
  spec_demand PStack TString TInt TInt OpResize = DAttempt true /\
  m_op (cfg_src false) OpResize (m_produce (cfg_src false) PStack TString TInt TInt)
    = (m_produce (cfg_src false) PStack TString TInt TInt, ORaise ValueError, nil).
Proof. repeat split. discriminate. Qed.

(* nothing is weakened without the collector ... *)
Theorem c19_full_demand_without_collector : forall q d, weaken (cfg_src true) q d = d.
Proof. intros q d. unfold weaken, f7_cell. reflexivity. Qed.
Print Assumptions c19_full_demand_without_collector.

(* ... and with it only for del and del_root *)
Theorem c19_full_demand_except_del :
  forall q d, q <> OpDel -> q <> OpDelRoot -> weaken (cfg_src false) q d = d.
Proof. intros q d H1 H2. unfold weaken, f7_cell. destruct q; try reflexivity; contradiction. Qed.
Print Assumptions c19_full_demand_except_del.

(* plain reading of the safety half: over any history no event passes the block of a non-heap object, or
   the non-heap buffer of a stack String/Tuple, to free or realloc *)
Theorem c19_nonheap_never_released :
  forall ngc p T K V ops, valid p T K V = true -> spec_class p <> AHeap ->
    forall e, List.In e (events (m_run (cfg_src ngc) ops (m_produce (cfg_src ngc) p T K V))) ->
      is_obj_ev e = false /\ (spec_bufnh p T K V = true -> is_buf_ev e = false).
Proof.
  exact (fun ngc p T K V ops _ Hh =>
           HeaderProofs.nonheap_never_released _ p T K V ops _ Hh (HeaderProofs.nonheap_histories ngc p T K V ops Hh)).
Qed.
Print Assumptions c19_nonheap_never_released.

(* finding F7 (open): with the collector compiled in, del of a non-heap object raises nothing *)
Theorem c19_f7_refuted :
  exists p T K V q, valid p T K V = true /\ spec_class p <> AHeap /\
    let o := m_produce (cfg_src false) p T K V in
    ~ meets o (m_op (cfg_src false) q o) (spec_demand p T K V q).
Proof.
  exists PStack, TInt, TInt, TInt, OpDel. split; [reflexivity|]. split; [discriminate|].
  vm_compute. intros [_ [H _]]. discriminate H.
Qed.
Print Assumptions c19_f7_refuted.

(* defect D22 (repaired): with the pre-repair order in del_by the demand fails for del_raw of an embedded String *)
Theorem c19_d22_refuted :
  exists p T K V q, valid p T K V = true /\ spec_class p <> AHeap /\
    let o := m_produce (cfg_d22 false) p T K V in
    ~ meets o (m_op (cfg_d22 false) q o) (spec_demand p T K V q).
Proof.
  exists (PGet CArray), TString, TInt, TInt, OpDelRaw. split; [reflexivity|]. split; [discriminate|].
  vm_compute. intros [_ [_ H]]. discriminate H.
Qed.
Print Assumptions c19_d22_refuted.

(* heap objects: a matched deletion (new/del, new_root/del_root, new_raw/del_raw, alloc_raw/dealloc_raw,
   run-time type/del_raw, reclamation by a sweep, or del issued while the collector is stopped and carried out by
   the next sweep) followed by ANY number of further sweeps passes the
   block to free exactly once; roots and raw objects are never released by sweeps *)
Theorem c19_heap_released_exactly_once :
  forall ngc p T K V ops n, valid p T K V = true ->
    matched_total (cfg_src ngc) p ops = Some n ->
    frees (m_run (cfg_src ngc) ops (m_produce (cfg_src ngc) p T K V)) = n.
Proof. exact (fun ngc p T K V ops n _ => HeaderProofs.heap_released_exactly_once ngc p T K V ops n). Qed.
Print Assumptions c19_heap_released_exactly_once.

Example c19_heap_once_nonvacuous :
  matched_total (cfg_src false) PNew (OpDel :: OpSweep :: OpSweep :: nil) = Some 1 /\
  matched_total (cfg_src false) PNewRoot (OpSweep :: nil) = Some 0 /\
  matched_total (cfg_src false) PNew (OpDelStopped :: OpSweep :: OpSweep :: nil) = Some 1 /\
  frees (m_run (cfg_src false) (OpDel :: OpSweep :: OpSweep :: nil) (m_produce (cfg_src false) PNew TString TInt TInt)) = 1.
Proof. repeat split. Qed.

(* finding F8 (open): alloc(T) + dealloc(x) releases the block once but the registry keeps the entry; the
   next collection works on the released block *)
Theorem c19_f8_alloc_dealloc_stale_entry :
  forall T, kind_of T <> KType ->
    let c := cfg_src false in
    let o1 := fst (fst (m_op c OpDealloc (m_produce c PAlloc T T T))) in
    snd (m_op c OpDealloc (m_produce c PAlloc T T T)) = cons FreeObj nil /\
    o_reg o1 = RAuto /\
    snd (fst (m_op c OpSweep o1)) = ORaise ValueError.
Proof. intros T H. destruct T; try (exfalso; apply H; reflexivity); vm_compute; repeat split. Qed.
Print Assumptions c19_f8_alloc_dealloc_stale_entry.

(* the shapes of the C size expressions the layout functions mirror are the ones the generator recognises *)
Theorem c19_layout_shapes : hdr_layout_ok = true.
Proof. vm_compute. reflexivity. Qed.
Print Assumptions c19_layout_shapes.

(* size(type) bytes of every object are usable: in each kind of storage the s bytes behind the header lie
   inside the block and end before the next header (the three *_fit theorems).  The bytes themselves are
   exercised by the harness, under AddressSanitizer in the thorough tier. *)
Theorem c19_array_elements_fit :
  forall H w s n i, 0 < w -> i < n ->
    array_head H w s i + H = array_body H w s i /\
    array_body H w s i + s <= array_head H w s (i + 1) /\
    array_head H w s (i + 1) <= array_block H w s n /\
    (forall j, i < j -> array_body H w s i + s <= array_head H w s j).
Proof.
  intros H w s n i Hw Hi. pose proof (round_up_ge w s Hw) as R.
  unfold array_head, array_body, array_block, array_step in *.
  repeat split; nia.
Qed.
Print Assumptions c19_array_elements_fit.

Theorem c19_table_entries_fit :
  forall H w ks vs n i, 0 < w -> i < n ->
    table_khead H w ks vs i + H = table_kbody H w ks vs i /\
    table_kbody H w ks vs i + ks <= table_vhead H w ks vs i /\
    table_vhead H w ks vs i + H = table_vbody H w ks vs i /\
    table_vbody H w ks vs i + vs <= table_step H w ks vs * (i + 1) /\
    table_step H w ks vs * (i + 1) <= table_block H w ks vs n.
Proof.
  intros H w ks vs n i Hw Hi.
  pose proof (round_up_ge w ks Hw) as Rk. pose proof (round_up_ge w vs Hw) as Rv.
  unfold table_khead, table_kbody, table_vhead, table_vbody, table_block, table_step in *.
  repeat split; nia.
Qed.
Print Assumptions c19_table_entries_fit.

Theorem c19_list_tree_plain_fit :
  forall H w s ks vs,
    (plain_body H + s <= plain_block H s) /\
    (list_head w + H = list_body H w /\ list_body H w + s <= list_block H w s) /\
    (tree_khead w + H = tree_kbody H w /\ tree_kbody H w + ks <= tree_vhead H w ks /\
     tree_vhead H w ks + H = tree_vbody H w ks /\ tree_vbody H w ks + vs <= tree_block H w ks vs).
Proof.
  intros. unfold plain_body, plain_block, list_head, list_body, list_block,
    tree_khead, tree_kbody, tree_vhead, tree_vbody, tree_block. lia.
Qed.
Print Assumptions c19_list_tree_plain_fit.

Example c19_layout_nonvacuous :
  (* a 12-byte element type in an Array of 3 slots on a 64-bit debug build: H = 24, w = 8 *)
  array_step 24 8 12 = 40 /\ array_body 24 8 12 1 = 64 /\ array_block 24 8 12 3 = 120.
Proof. repeat split. Qed.

(* Tree nodes site by site: for EVERY key size (multiple of sizeof(var) or not) the place where Tree_Alloc writes
   the value's header is the place Tree_Val reads it, the value fits the block Tree_Alloc requested, and Tree_Rem
   copies exactly the node.  Which size expression each of the four sites uses is read off the source. *)
Theorem c19_tree_sites_agree :
  forall H w ks vs, 0 < w ->
    tree_kbody H w + ks <= tree_site_vhead H w ks /\
    tree_site_vhead H w ks + H = tree_site_vbody H w ks /\
    tree_site_vbody H w ks + vs <= tree_site_block H w ks vs /\
    tree_site_copy_end H w ks vs = tree_site_block H w ks vs.
Proof.
  intros H w ks vs Hw. pose proof (round_up_ge w ks Hw) as R.
  unfold tree_kbody, tree_site_vhead, tree_site_vbody, tree_site_block, tree_site_copy_end, ks_at,
    hdr_tree_alloc_block_kround, hdr_tree_alloc_vhead_kround, hdr_tree_val_kround, hdr_tree_rem_copy_kround.
  repeat split; lia.
Qed.
Print Assumptions c19_tree_sites_agree.

Example c19_tree_sites_rounding_matters :
  (* a 4-byte key on a 64-bit build: a site that rounds and a site that does not are 4 bytes apart *)
  ks_at true 8 4 = 8 /\ ks_at false 8 4 = 4.
Proof. repeat split. Qed.

(* the poison loop of dealloc (what the model calls scribble) covers the whole header and every whole word of
   the body, and writes nothing behind the object; the word count is the expression found in the source *)
Theorem c19_poison_covers_header_and_body :
  forall k w s, 0 < w ->
    hdr_poison_words (k * w) w s = k + Nat.div s w /\
    hdr_poison_words (k * w) w s * w <= k * w + s.
Proof.
  intros k w s Hw.
  assert (E : hdr_poison_words (k * w) w s = k + Nat.div s w).
  { unfold hdr_poison_words. rewrite ?PeanoNat.Nat.div_add_l, ?PeanoNat.Nat.div_mul by lia. reflexivity. }
  split; [exact E|]. rewrite E.
  pose proof (PeanoNat.Nat.mul_div_le s w ltac:(lia)). nia.
Qed.
Print Assumptions c19_poison_covers_header_and_body.
