(* RoundTripProofs.v — proofs about the round-trip model (C15): String_Show / String_Look,
   integers ("%li", the flagged d / i directives, the unsigned u / x / X / o directives), composition
   over sequences with separators for the String source and the File source.  The Float part is
   RoundTripFloat.v. *)
From Coq Require Import List NArith ZArith Bool Lia.
From CelloV Require Import ListFacts RoundTrip.
Import ListNotations.
Local Open Scope N_scope.

(* what the two switch tables must satisfy (checked by vm_compute on the generated tables):
   every escaped byte is non-NUL and its letter decodes back to it; the quote and the backslash
   are among the escaped bytes *)
Definition esc_tables_ok (se le : list (N * N)) : bool :=
  forallb (fun cl => match assoc (snd cl) le with
                     | Some c' => (c' =? fst cl) && negb (fst cl =? 0)
                     | None => false
                     end) se
  && (match assoc c_quote se with Some _ => true | None => false end)
  && (match assoc c_bslash se with Some _ => true | None => false end).

Lemma assoc_in : forall k v l, assoc k l = Some v -> In (k, v) l.
Proof.
  induction l as [|[a b] l IH]; simpl; intros H; [discriminate|].
  destruct (a =? k) eqn:E.
  - apply N.eqb_eq in E. inversion H; subst. now left.
  - right. now apply IH.
Qed.

Lemma esc_tables_char : forall se le c, esc_tables_ok se le = true ->
  match assoc c se with
  | Some l => assoc l le = Some c /\ c <> 0
  | None => c <> c_quote /\ c <> c_bslash
  end.
Proof.
  intros se le c Hok. unfold esc_tables_ok in Hok.
  apply andb_prop in Hok as [Hok Hb]. apply andb_prop in Hok as [Hok Hq].
  destruct (assoc c se) as [l|] eqn:Ha.
  - rewrite forallb_forall in Hok. specialize (Hok (c, l) (assoc_in _ _ _ Ha)). simpl in Hok.
    destruct (assoc l le) as [c'|]; [|discriminate].
    apply andb_prop in Hok as [H1 H2]. apply N.eqb_eq in H1. subst c'.
    split; [reflexivity|]. intros ->. discriminate.
  - split; intros ->; rewrite Ha in *; discriminate.
Qed.

Definition nul_free (s : text) : Prop := Forall (fun c => c <> 0) s.

Lemma push_nonzero : forall acc c, c <> 0 -> push acc c = acc ++ [c].
Proof. intros acc c H. unfold push. apply N.eqb_neq in H. now rewrite H. Qed.

Lemma look_loop_char : forall se le, esc_tables_ok se le = true ->
  forall c r acc n, c <> 0 ->
  look_loop true le (show_char se c ++ r) acc n
  = look_loop true le r (acc ++ [c]) (n + length (show_char se c)).
Proof.
  intros se le Hok c r acc n Hc. pose proof (esc_tables_char se le c Hok) as Ht.
  unfold show_char. destruct (assoc c se) as [l|].
  - destruct Ht as [Hl _]. cbn [app look_loop length].
    change (c_bslash =? c_quote) with false. change (c_bslash =? c_bslash) with true. cbv iota.
    rewrite Hl, push_nonzero by assumption. f_equal. lia.
  - destruct Ht as [Hq Hb]. apply N.eqb_neq in Hq, Hb.
    cbn [app look_loop length]. rewrite Hq, Hb, push_nonzero by assumption. f_equal. lia.
Qed.

Lemma look_loop_show : forall se le, esc_tables_ok se le = true ->
  forall s rest acc n, nul_free s ->
  look_loop true le (flat_map (show_char se) s ++ c_quote :: rest) acc n
  = LDone (acc ++ s) (n + length (flat_map (show_char se) s) + 1).
Proof.
  intros se le Hok s. induction s as [|c s IH]; intros rest acc n Hs.
  - simpl. rewrite app_nil_r. f_equal. lia.
  - inversion Hs as [|? ? Hc Hs']; subst. cbn [flat_map]. rewrite <- app_assoc.
    rewrite look_loop_char, IH by assumption. rewrite <- app_assoc, app_length. f_equal. lia.
Qed.

(* look (show s ++ anything) = s, consuming exactly the characters show wrote *)
Theorem string_roundtrip : forall se le, esc_tables_ok se le = true ->
  forall s rest, nul_free s ->
  look_string true le (show_string se s ++ rest) = LDone s (length (show_string se s)).
Proof.
  intros se le Hok s rest Hs. unfold look_string, show_string.
  cbn [app]. change (c_quote =? c_quote) with true. cbv iota.
  rewrite <- app_assoc. cbn [app length].
  rewrite look_loop_show, app_length by assumption. reflexivity.
Qed.

Lemma show_string_length : forall se s, (length s + 2 <= length (show_string se s))%nat.
Proof.
  intros se s. unfold show_string. simpl. rewrite app_length. simpl.
  assert (length s <= length (flat_map (show_char se) s))%nat; [|lia].
  induction s as [|c s IH]; simpl; [lia|]. rewrite app_length.
  unfold show_char at 1. destruct (assoc c se); simpl; lia.
Qed.

(* case analysis on every comparison of the goal, impossible cases closed as they arise *)
Ltac nb := repeat (match goal with
  | |- context [N.ltb ?a ?b] => destruct (N.ltb_spec a b)
  | |- context [N.leb ?a ?b] => destruct (N.leb_spec a b)
  | |- context [N.eqb ?a ?b] => destruct (N.eqb_spec a b)
  end; cbn [andb orb negb]; cbv beta iota; try lia).

Lemma digit_in_char : forall base upper d, d < base -> base <= 16 ->
  digit_in base (digit_char upper d) = Some d.
Proof.
  intros base upper d Hd Hb. unfold digit_in, digit_val, digit_char.
  destruct (N.ltb_spec d 10); [|destruct upper]; nb; f_equal; lia.
Qed.

Lemma between_spec : forall a b c, (a <=? c) && (c <=? b) = true -> a <= c <= b.
Proof. intros a b c H. apply andb_prop in H. now rewrite !N.leb_le in H. Qed.

Lemma digit_val_range : forall c d, digit_val c = Some d -> 48 <= c <= 57 \/ 97 <= c <= 102 \/ 65 <= c <= 70.
Proof.
  intros c d. unfold digit_val.
  destruct ((48 <=? c) && (c <=? 57)) eqn:E1; [left; now apply between_spec|].
  destruct ((97 <=? c) && (c <=? 102)) eqn:E2; [right; left; now apply between_spec|].
  destruct ((65 <=? c) && (c <=? 70)) eqn:E3; [right; right; now apply between_spec | discriminate].
Qed.

Lemma digit_plain : forall base c, digit_in base c <> None ->
  is_space c = false /\ (c =? c_minus) = false /\ (c =? c_plus) = false /\ (c =? c_x) = false /\ (c =? c_X) = false.
Proof.
  intros base c H. unfold digit_in in H. destruct (digit_val c) as [d|] eqn:E; [|congruence].
  apply digit_val_range in E. unfold is_space, c_minus, c_plus, c_x, c_X. repeat split; nb; reflexivity.
Qed.

Definition all_digits (base : N) (ds : text) : Prop := Forall (fun c => digit_in base c <> None) ds.

Definition stops (base : N) (rest : text) : Prop :=
  match rest with [] => True | c :: _ => digit_in base c = None end.

Lemma scan_digits_stop : forall base rest acc k, stops base rest ->
  scan_digits base rest acc k = (acc, k, rest).
Proof.
  intros base rest acc k H. destruct rest as [|c r]; simpl; [reflexivity|].
  simpl in H. now rewrite H.
Qed.

(* ds is a numeral of n in the base: digits only, and scan_digits, wherever it stands, takes it in whole and
   shifts the value read so far by its length *)
Definition numeral (base : N) (ds : text) (n : N) : Prop :=
  all_digits base ds /\
  forall rest acc k, scan_digits base (ds ++ rest) acc k
                     = scan_digits base rest (acc * base ^ N.of_nat (length ds) + n) (k + length ds).

Lemma numeral_nil : forall base, numeral base [] 0.
Proof.
  intros base. split; [constructor|]. intros rest acc k. cbn [app length]. f_equal; [|lia].
  change (N.of_nat 0) with 0. rewrite N.pow_0_r. lia.
Qed.

Lemma numeral_app : forall base x y m n k, numeral base x m -> numeral base y n ->
  k = m * base ^ N.of_nat (length y) + n -> numeral base (x ++ y) k.
Proof.
  intros base x y m n k [Ax Hx] [Ay Hy] ->. split; [apply Forall_app; now split|]. intros rest acc k.
  rewrite <- app_assoc, Hx, Hy, app_length, Nat2N.inj_add, N.pow_add_r. f_equal; [ring|lia].
Qed.

Lemma numeral_digit : forall base upper d, d < base -> base <= 16 -> numeral base [digit_char upper d] d.
Proof.
  intros base upper d Hd Hb. pose proof (digit_in_char base upper d Hd Hb) as E.
  split; [constructor; [rewrite E; discriminate | constructor]|]. intros rest acc k.
  cbn [app scan_digits length]. rewrite E. change (N.of_nat 1) with 1. rewrite N.pow_1_r. f_equal. lia.
Qed.

Lemma scan_numeral : forall base ds n rest acc k, numeral base ds n -> stops base rest ->
  scan_digits base (ds ++ rest) acc k = (acc * base ^ N.of_nat (length ds) + n, (k + length ds)%nat, rest).
Proof. intros base ds n rest acc k [_ H] Hr. rewrite H. now apply scan_digits_stop. Qed.

Definition head_digit (base : N) (x : text) : Prop :=
  match x with c :: _ => digit_in base c <> None | [] => False end.

Lemma head_digit_app : forall base ds rest, all_digits base ds -> ds <> [] -> head_digit base (ds ++ rest).
Proof. intros base [|c ds] rest H Hne; [congruence|]. now inversion H. Qed.

Definition ubase (b : N) : Prop := b = 8 \/ b = 10 \/ b = 16.

Lemma ubase_bounds : forall b, ubase b -> 2 <= b /\ b <= 16.
Proof. intros b [-> | [-> | ->]]; lia. Qed.

Lemma ubase_10 : ubase 10.
Proof. right; now left. Qed.

Lemma conv_base_ubase : forall c, ubase (conv_base c).
Proof. intros c. unfold conv_base, ubase. destruct ((c =? 120) || (c =? 88)); [|destruct (c =? 111)]; auto. Qed.

Lemma zeros_digits : forall b j, ubase b -> numeral b (repeat c_zero j) 0.
Proof.
  intros b j Hb. destruct (ubase_bounds b Hb). induction j as [|j IH]; [apply numeral_nil|].
  apply (numeral_app b [c_zero] (repeat c_zero j) 0 0); [apply (numeral_digit b false 0); lia | exact IH | lia].
Qed.

Section Digits.
  Variable base : N.
  Variable upper : bool.
  Hypothesis base_lo : 2 <= base.
  Hypothesis base_hi : base <= 16.

  Lemma div_fuel : forall f n, n < 2 ^ N.of_nat (S f) -> n / base < 2 ^ N.of_nat f.
  Proof.
    intros f n H. rewrite Nat2N.inj_succ, N.pow_succ_r' in H.
    apply N.div_lt_upper_bound; [lia|]. nia.
  Qed.

  (* fuel adequacy: with n < 2^f the digits are produced completely *)
  Lemma digits_fuel_numeral : forall f n, n < 2 ^ N.of_nat f -> numeral base (digits_fuel base upper f n) n.
  Proof.
    induction f as [|f IH]; intros n H.
    - assert (n = 0) as -> by (simpl in H; lia). apply numeral_nil.
    - cbn [digits_fuel]. destruct (N.ltb_spec n base); [apply numeral_digit; lia|].
      eapply numeral_app; [apply IH, div_fuel, H | apply numeral_digit; [apply N.mod_lt|]; lia |].
      cbn [length]. change (N.of_nat 1) with 1. rewrite N.pow_1_r, (N.div_mod' n base) at 1. lia.
  Qed.

  Lemma digits_fuel_all : forall f n, n < 2 ^ N.of_nat f -> all_digits base (digits_fuel base upper f n).
  Proof. intros f n H. apply digits_fuel_numeral, H. Qed.

  Lemma log2_fuel : forall n, n < 2 ^ N.of_nat (S (N.to_nat (N.log2 n))).
  Proof.
    intros n. rewrite Nat2N.inj_succ, N2Nat.id.
    destruct (N.eq_dec n 0) as [->|Hn]; [reflexivity|].
    apply N.log2_spec. lia.
  Qed.

  Lemma print_nat_numeral : forall n, numeral base (print_nat base upper n) n.
  Proof. intros n. apply digits_fuel_numeral, log2_fuel. Qed.

  Lemma digits_fuel_head : forall f n, 0 < n -> n < 2 ^ N.of_nat f ->
    exists d0 t, digits_fuel base upper f n = d0 :: t /\ d0 <> c_zero.
  Proof.
    induction f as [|f IH]; intros n Hp H.
    - simpl in H. lia.
    - cbn [digits_fuel]. destruct (N.ltb_spec n base).
      + exists (digit_char upper n), []. split; [reflexivity|].
        unfold digit_char, c_zero. destruct upper; nb.
      + destruct (IH (n / base)) as (d0 & t & E & Hd).
        * apply N.div_str_pos. lia.
        * apply div_fuel, H.
        * rewrite E. exists d0, (t ++ [digit_char upper (n mod base)]). split; [reflexivity|assumption].
  Qed.

  Lemma print_nat_head : forall n, 0 < n -> exists d0 t, print_nat base upper n = d0 :: t /\ d0 <> c_zero.
  Proof. intros n H. apply digits_fuel_head; [assumption|apply log2_fuel]. Qed.

  Lemma print_nat_nonempty : forall n, print_nat base upper n <> [].
  Proof.
    intros n. unfold print_nat. cbn [digits_fuel].
    destruct (n <? base); [discriminate|]. intros E. apply app_eq_nil in E. destruct E; discriminate.
  Qed.
End Digits.

Lemma zeros_print_nat : forall b upper k n, ubase b -> numeral b (repeat c_zero k ++ print_nat b upper n) n.
Proof.
  intros b upper k n Hb. destruct (ubase_bounds b Hb).
  eapply numeral_app; [apply zeros_digits, Hb | now apply print_nat_numeral | lia].
Qed.

Lemma zeros_print_head : forall b upper k n rest, ubase b ->
  head_digit b (repeat c_zero k ++ print_nat b upper n ++ rest).
Proof.
  intros b upper k n rest Hb. rewrite app_assoc. apply head_digit_app; [apply (zeros_print_nat b upper k n Hb)|].
  intros E. apply app_eq_nil in E. now apply (print_nat_nonempty b upper n).
Qed.

Lemma print_nat_zero : forall base upper, 2 <= base -> print_nat base upper 0 = [c_zero].
Proof.
  intros base upper H. unfold print_nat. cbn.
  destruct (N.ltb_spec 0 base); [reflexivity|lia].
Qed.

(* what may follow the text of an integer so that the token ends there (convertible with
   stops_base 10, and used as such below) *)
Definition stops_int (rest : text) : Prop :=
  match rest with
  | [] => True
  | c :: _ => digit_in 10 c = None /\ c <> c_x /\ c <> c_X
  end.

(* what may follow: not a digit of the base, and not x / X (after a lone 0 it would start a hex prefix) *)
Definition stops_base (b : N) (rest : text) : Prop :=
  match rest with
  | [] => True
  | c :: _ => digit_in b c = None /\ c <> c_x /\ c <> c_X
  end.

Lemma stops_base_stops : forall b rest, stops_base b rest -> stops b rest.
Proof. intros b [|c r] H; [exact I|]. simpl in *. tauto. Qed.

Lemma digit_in_8_10 : forall c, digit_in 10 c = None -> digit_in 8 c = None.
Proof.
  intros c. unfold digit_in. destruct (digit_val c) as [d|]; [|reflexivity].
  nb; congruence.
Qed.

Lemma skip_ws_nonspace : forall c r n, is_space c = false -> skip_ws (c :: r) n = (c :: r, n).
Proof. intros c r n H. simpl. now rewrite H. Qed.

Lemma skip_ws_spaces : forall k r n, skip_ws (repeat c_space k ++ r) n = skip_ws r (n + k).
Proof.
  induction k as [|k IH]; intros r n; [simpl; f_equal; lia|].
  cbn [repeat app skip_ws]. replace (is_space c_space) with true by reflexivity.
  rewrite IH. f_equal. lia.
Qed.

Definition sign_text (sg : text) : Prop := sg = [] \/ sg = [c_minus] \/ sg = [c_plus].
Definition sign_neg (sg : text) : bool := match sg with c :: _ => c =? c_minus | [] => false end.

(* the common opening of the integer and the float conversion: white space, optional sign, then a digit *)
Lemma skip_sign : forall base k sg body, sign_text sg -> head_digit base body ->
  skip_ws (repeat c_space k ++ sg ++ body) 0 = (sg ++ body, k) /\
  scan_sign (sg ++ body) k = (sign_neg sg, body, (k + length sg)%nat).
Proof.
  intros base k sg [|c r] Hsg Hb; [destruct Hb|].
  destruct (digit_plain base c Hb) as (Hs & Hm & Hp & _). rewrite skip_ws_spaces.
  destruct Hsg as [-> | [-> | ->]]; cbn [app length sign_neg scan_sign].
  2, 3: rewrite skip_ws_nonspace by reflexivity; cbn; split; repeat f_equal; lia.
  rewrite skip_ws_nonspace, Hm, Hp by assumption. split; repeat f_equal; lia.
Qed.

(* digits, then something that is not x: no 0x prefix is seen *)
Lemma no_hex_prefix : forall b0 b t rest, all_digits b t -> head_digit b (t ++ rest) -> stops_base b rest ->
  has_hex_prefix b0 (t ++ rest) = false.
Proof.
  intros b0 b t rest Hd Hh Hr. destruct t as [|c [|c2 t]]; cbn [app] in *.
  - destruct rest; simpl in *; tauto.
  - destruct rest as [|x [|h r]]; try reflexivity.
    simpl in Hr. destruct Hr as (_ & Hx & HX). apply N.eqb_neq in Hx, HX.
    unfold has_hex_prefix. rewrite Hx, HX. cbn [orb]. rewrite andb_false_r. reflexivity.
  - apply Forall_inv_tail, Forall_inv in Hd. destruct (digit_plain b c2 Hd) as (_ & _ & _ & Hx & HX).
    unfold has_hex_prefix. destruct (t ++ rest); [reflexivity|].
    rewrite Hx, HX. cbn [orb]. rewrite andb_false_r. reflexivity.
Qed.

(* an explicit base: any number of leading zeros *)
Lemma scan_int_body_base : forall b upper k mag rest n2, ubase b -> stops_base b rest ->
  scan_int_body b (repeat c_zero k ++ print_nat b upper mag ++ rest) n2
  = Some (mag, (n2 + k + length (print_nat b upper mag))%nat).
Proof.
  intros b upper k mag rest n2 Hb Hr. pose proof (zeros_print_nat b upper k mag Hb) as Hn.
  pose proof (zeros_print_head b upper k mag rest Hb) as Hh.
  unfold scan_int_body. rewrite app_assoc in Hh |- *. rewrite (no_hex_prefix b b) by (assumption || apply Hn).
  assert (Hb0 : (b =? 0) = false) by (destruct Hb as [-> | [-> | ->]]; reflexivity). rewrite Hb0.
  rewrite (scan_numeral b _ mag) by (assumption || now apply stops_base_stops).
  rewrite app_length, repeat_length.
  destruct (0 + (k + length (print_nat b upper mag)))%nat eqn:E.
  - exfalso. apply (print_nat_nonempty b upper mag). apply length_zero_iff_nil. lia.
  - f_equal. f_equal; lia.
Qed.

(* base detection of %i on decimal text without a leading zero (or the single digit 0) *)
Lemma scan_int_body_dec : forall upper mag rest n2, stops_int rest ->
  scan_int_body 0 (print_nat 10 upper mag ++ rest) n2
  = Some (mag, (n2 + length (print_nat 10 upper mag))%nat).
Proof.
  intros upper mag rest n2 Hr.
  pose proof (zeros_print_nat 10 upper O mag ubase_10) as Hn. pose proof (zeros_print_head 10 upper O mag rest ubase_10) as Hh.
  cbn [repeat app] in *. unfold scan_int_body. rewrite (no_hex_prefix 0 10) by (assumption || apply Hn). cbn [N.eqb].
  destruct (N.eq_dec mag 0) as [->|Hm].
  - rewrite print_nat_zero by lia. cbn [app]. replace (c_zero =? c_zero) with true by reflexivity.
    cbn [scan_digits]. replace (digit_in 8 c_zero) with (Some 0) by reflexivity.
    rewrite scan_digits_stop; [reflexivity|]. destruct rest; [exact I|]. apply digit_in_8_10, Hr.
  - destruct (print_nat_head 10 upper ltac:(lia) ltac:(lia) mag ltac:(lia)) as (d0 & t & E & Hd).
    rewrite E at 1. cbn [app]. apply N.eqb_neq in Hd. rewrite Hd.
    rewrite (scan_numeral 10 _ mag), E by (assumption || now apply stops_base_stops). reflexivity.
Qed.

Lemma repeat_spaces_sign : forall (neg plus space : bool),
  exists ks sg, (if neg then [c_minus] else if plus then [c_plus] else if space then [c_space] else [])
                = repeat c_space ks ++ sg /\ sign_text sg /\ sign_neg sg = neg.
Proof.
  intros [|] plus space; [exists O, [c_minus]; unfold sign_text; auto|].
  destruct plus; [exists O, [c_plus]; unfold sign_text; auto|].
  destruct space; [exists 1%nat, [] | exists O, []]; unfold sign_text; auto.
Qed.

(* printf's layout of sign and padding (flags + space 0, a width): spaces, sign, zeros, then the number *)
Lemma sign_pad_shape : forall (neg plus space zero : bool) k body,
  let sign := if neg then [c_minus] else if plus then [c_plus] else if space then [c_space] else [] in
  exists k1 sg k2,
    (if zero then sign ++ repeat c_zero k ++ body else repeat c_space k ++ sign ++ body)
    = repeat c_space k1 ++ sg ++ repeat c_zero k2 ++ body
    /\ sign_text sg /\ sign_neg sg = neg /\ (zero = false -> k2 = O).
Proof.
  intros neg plus space zero k body sign. subst sign.
  destruct (repeat_spaces_sign neg plus space) as (ks & sg & -> & Hsg & Hneg). destruct zero.
  - exists ks, sg, k. rewrite <- app_assoc. repeat split; auto; discriminate.
  - exists (k + ks)%nat, sg, O. rewrite repeat_app, <- !app_assoc. repeat split; auto.
Qed.

(* z fits the C type the directive names (hh: char, h: short, none: int, l ll j z t q: 64 bits) *)
Definition in_range (sp : nspec) (z : Z) : Prop := (- spec_half sp <= z < spec_half sp)%Z.

Lemma spec_half_bounds : forall sp, (0 < spec_half sp <= two63)%Z.
Proof.
  intros sp. unfold spec_half, two63, two31. destruct (n_long sp); [lia|].
  destruct (n_short sp) as [|[|k]]; lia.
Qed.

Lemma wrap_signed_id : forall half z, (0 < half)%Z -> (- half <= z < half)%Z ->
  wrap_signed (2 * half) half z = z.
Proof.
  intros half z Hh Hz. unfold wrap_signed. destruct (Z.neg_nonneg_cases z).
  - replace (z mod (2 * half))%Z with (z + 2 * half)%Z by (apply (Z.mod_unique_pos _ _ (-1)); lia).
    destruct (Z.ltb_spec (z + 2 * half) half); lia.
  - rewrite Z.mod_small by lia. destruct (Z.ltb_spec z half); lia.
Qed.

Lemma wrap_signed_mod_id : forall half z, (0 < half)%Z -> (- half <= z < half)%Z ->
  wrap_signed (2 * half) half (z mod (2 * half)) = z.
Proof.
  intros half z Hh Hz. rewrite <- (wrap_signed_id half z Hh Hz) at 2.
  unfold wrap_signed. now rewrite Z.mod_mod by lia.
Qed.

Lemma int_arg_signed : forall sp z, conv_signed (n_conv sp) = true -> in_range sp z -> int_arg sp z = z.
Proof.
  intros sp z Hc Hz. unfold int_arg. rewrite Hc. unfold in_range in Hz.
  pose proof (spec_half_bounds sp). apply wrap_signed_id; lia.
Qed.

Lemma conv_signed_facts : forall c, conv_signed c = true ->
  (c = 100 \/ c = 105) /\ conv_is_int c = true /\ conv_base c = 10.
Proof.
  intros c H. unfold conv_signed in H. apply orb_prop in H.
  destruct H as [H|H]; apply N.eqb_eq in H; subst c; repeat split; auto.
Qed.

Definition conv_unsigned (c : byte) : Prop := c = 117 \/ c = 120 \/ c = 88 \/ c = 111.

Lemma conv_unsigned_facts : forall c, conv_unsigned c ->
  conv_signed c = false /\ conv_is_int c = true /\ (c =? 105) = false.
Proof. intros c [-> | [-> | [-> | ->]]]; repeat split. Qed.

(* the text of an integer directive without a base prefix (no '#', or a decimal conversion) *)
Lemma print_int_shape : forall sp z, n_alt sp = false \/ conv_signed (n_conv sp) = true ->
  exists k1 sg k2,
    print_int sp z
    = repeat c_space k1 ++ sg ++ repeat c_zero k2 ++
      print_nat (conv_base (n_conv sp)) (n_conv sp =? 88) (Z.to_N (Z.abs (int_arg sp z)))
    /\ sign_text sg /\ sign_neg sg = conv_signed (n_conv sp) && (int_arg sp z <? 0)%Z
    /\ (n_zero sp = false -> k2 = O).
Proof.
  intros sp z Hpre. unfold print_int, pad. cbv zeta.
  match goal with |- context [if n_alt sp then ?p else []] =>
    assert (Hp : (if n_alt sp then p else []) = []); [|rewrite Hp] end.
  { destruct Hpre as [-> | Hc]; [reflexivity|].
    destruct (conv_signed_facts _ Hc) as ([-> | ->] & _); destruct (n_alt sp); reflexivity. }
  destruct (conv_signed (n_conv sp)); cbn [andb].
  - apply sign_pad_shape.
  - apply (sign_pad_shape false false false).
Qed.

(* that text is scanned as the sign and the magnitude of the argument by a conversion of its base, or by %i
   when it is decimal and not zero-padded (%i takes a leading 0 for octal) *)
Lemma scan_print_int : forall sp conv z rest,
  n_alt sp = false \/ conv_signed (n_conv sp) = true ->
  ((conv =? 105) = false /\ conv_base conv = conv_base (n_conv sp)) \/
  (conv = 105 /\ conv_base (n_conv sp) = 10 /\ n_zero sp = false) ->
  stops_base (conv_base (n_conv sp)) rest ->
  scan_int_text conv (print_int sp z ++ rest)
  = Some (conv_signed (n_conv sp) && (int_arg sp z <? 0)%Z, Z.to_N (Z.abs (int_arg sp z)), length (print_int sp z)).
Proof.
  intros sp conv z rest Hpre Hconv Hr. pose proof (conv_base_ubase (n_conv sp)) as Hb.
  destruct (print_int_shape sp z Hpre) as (k1 & sg & k2 & -> & Hsg & <- & Hk2). rewrite <- !app_assoc.
  pose proof (zeros_print_head _ (n_conv sp =? 88) k2 (Z.to_N (Z.abs (int_arg sp z))) rest Hb) as Hh.
  destruct (skip_sign _ k1 sg _ Hsg Hh) as [E1 E2].
  unfold scan_int_text. rewrite E1, E2, !app_length, !repeat_length.
  destruct Hconv as [[-> ->] | (-> & Hdec & Hz)].
  - rewrite scan_int_body_base by assumption. f_equal. f_equal. lia.
  - rewrite Hdec, (Hk2 Hz) in *. cbn [N.eqb Pos.eqb repeat app]. rewrite scan_int_body_dec by assumption.
    f_equal. f_equal. lia.
Qed.

Lemma store_int_signed : forall signext ssp z,
  conv_signed (n_conv ssp) = true -> in_range ssp z ->
  (n_long ssp = false -> signext = true) ->
  store_int signext ssp (z <? 0)%Z (Z.to_N (Z.abs z)) = z.
Proof.
  intros signext ssp z Hc Hz Hse. unfold in_range in Hz. pose proof (spec_half_bounds ssp) as Hb.
  unfold store_int. rewrite Hc. rewrite Z2N.id by lia.
  set (v64 := if (z <? 0)%Z then _ else _).
  assert (Hv : v64 = z)
    by (subst v64; destruct (Z.ltb_spec z 0), (Z.ltb_spec two63 (Z.abs z)), (Z.ltb_spec (two63 - 1) (Z.abs z));
        unfold two63 in *; lia).
  rewrite Hv. destruct (n_long ssp) eqn:El.
  - change two64 with (2 * two63)%Z. apply wrap_signed_id; unfold two63 in *; lia.
  - rewrite (Hse eq_refl). cbn [andb].
    apply wrap_signed_mod_id; lia.
Qed.

(* Int through a numeric specification: text written by %[+][ ][0][width][l]d or ...i for a value the
   directive can represent is read back by %[l]d (or %[l]i when no zero padding was asked for) into the
   same value, consuming exactly that text *)
Theorem int_dec_roundtrip : forall cf sp ssp z rest,
  conv_signed (n_conv sp) = true ->
  (n_conv ssp = 100 \/ (n_conv ssp = 105 /\ n_zero sp = false)) ->
  in_range sp z -> in_range ssp z ->
  (n_long ssp = false -> int_restore cf ssp = true) ->
  stops_int rest ->
  scan_num cf ssp (print_num sp (VInt z) ++ rest) = Some (VInt z, length (print_num sp (VInt z))).
Proof.
  intros cf sp ssp z rest Hc Hsc Hz Hz' Hse Hr.
  assert (Hsc' : conv_signed (n_conv ssp) = true) by (destruct Hsc as [-> | [-> _]]; reflexivity).
  destruct (conv_signed_facts _ Hc) as (_ & Hi & Hb). destruct (conv_signed_facts _ Hsc') as (_ & Hi' & _).
  unfold print_num, scan_num. rewrite Hi, Hi', scan_print_int; rewrite ?Hb; [| now right | | exact Hr].
  - rewrite (int_arg_signed sp z Hc Hz), Hc. cbn [andb]. rewrite store_int_signed by assumption. reflexivity.
  - destruct Hsc as [-> | [-> Hz0]]; [left; split; reflexivity | right; auto].
Qed.

Definition urange (sp : nspec) (z : Z) : Prop :=
  if n_long sp then (- two63 <= z < two63)%Z else (0 <= z < 2 * spec_half sp)%Z.

Lemma store_unsigned : forall signext ssp sp z,
  conv_unsigned (n_conv sp) -> conv_unsigned (n_conv ssp) -> n_long ssp = n_long sp -> n_short ssp = n_short sp ->
  urange sp z ->
  store_int signext ssp false (Z.to_N (Z.abs (int_arg sp z))) = z.
Proof.
  intros signext ssp sp z Hc Hsc Hlong Hshort Hz.
  destruct (conv_unsigned_facts _ Hc) as (Hs & _). destruct (conv_unsigned_facts _ Hsc) as (Hs' & _).
  assert (Hh : spec_half ssp = spec_half sp) by (unfold spec_half; now rewrite Hlong, Hshort).
  pose proof (spec_half_bounds sp) as Hb.
  unfold store_int, int_arg, urange in *. rewrite Hs', Hs, Hlong, Hh.
  pose proof (Z.mod_pos_bound z (2 * spec_half sp) ltac:(lia)) as H0.
  rewrite Z2N.id, Z.abs_eq by lia.
  destruct (Z.ltb_spec (two64 - 1) (z mod (2 * spec_half sp))); [unfold two64, two63 in *; lia|].
  destruct (n_long sp) eqn:El.
  - assert (Hsh : spec_half sp = two63) by (unfold spec_half; now rewrite El). rewrite Hsh in *.
    apply (wrap_signed_mod_id two63); lia.
  - rewrite Z.mod_mod, andb_false_r by lia. apply Z.mod_small; lia.
Qed.

(* Int through an unsigned directive without '#': %[0][width][l]u / x / X / o, read back by a directive of
   the same base.  With `l` this holds for EVERY int64 (two's complement: -5 is written as 2^64 - 5 and
   read back as -5); without `l` for 0 <= z < 2^32 *)
Theorem int_unsigned_roundtrip : forall cf sp ssp z rest,
  conv_unsigned (n_conv sp) -> conv_unsigned (n_conv ssp) -> conv_base (n_conv ssp) = conv_base (n_conv sp) ->
  n_alt sp = false -> n_long ssp = n_long sp -> n_short ssp = n_short sp -> urange sp z ->
  stops_base (conv_base (n_conv sp)) rest ->
  scan_num cf ssp (print_num sp (VInt z) ++ rest) = Some (VInt z, length (print_num sp (VInt z))).
Proof.
  intros cf sp ssp z rest Hc Hsc Hbase Halt Hlong Hshort Hz Hr.
  destruct (conv_unsigned_facts _ Hc) as (Hs & Hi & _).
  destruct (conv_unsigned_facts _ Hsc) as (_ & Hi' & H105).
  unfold print_num, scan_num. rewrite Hi, Hi', scan_print_int by auto.
  rewrite Hs, (store_unsigned _ ssp sp z Hc Hsc Hlong Hshort Hz). reflexivity.
Qed.

(* an Int written by one numeric directive and read by another: the two classes proved above *)
Definition int_directive_ok (cf : config) (sp ssp : nspec) (z : Z) (after : text) : Prop :=
  (conv_signed (n_conv sp) = true /\
   (n_conv ssp = 100 \/ (n_conv ssp = 105 /\ n_zero sp = false)) /\
   in_range sp z /\ in_range ssp z /\
   (n_long ssp = false -> int_restore cf ssp = true) /\ stops_int after)
  \/
  (conv_unsigned (n_conv sp) /\ conv_unsigned (n_conv ssp) /\
   conv_base (n_conv ssp) = conv_base (n_conv sp) /\ n_alt sp = false /\
   n_long ssp = n_long sp /\ n_short ssp = n_short sp /\
   urange sp z /\ stops_base (conv_base (n_conv sp)) after).

Theorem int_directive_roundtrip : forall cf sp ssp z after, int_directive_ok cf sp ssp z after ->
  scan_num cf ssp (print_num sp (VInt z) ++ after) = Some (VInt z, length (print_num sp (VInt z))).
Proof.
  intros cf sp ssp z after [(H1 & H2 & H3 & H4 & H5 & H6) | (H1 & H2 & H3 & H4 & H5 & H5' & H6 & H7)].
  - now apply int_dec_roundtrip.
  - now apply int_unsigned_roundtrip.
Qed.

(* the String source rescans at the advanced position: past a, what is left is b *)
Lemma skipn_step : forall (a b txt : text) pos, skipn pos txt = a ++ b -> skipn (pos + length a) txt = b.
Proof.
  intros a b txt pos. revert txt. induction pos as [|pos IH]; intros txt E.
  - cbn in *. subst txt. apply skipn_app_all.
  - destruct txt as [|c txt]; [|exact (IH txt E)].
    cbn in E. symmetry in E. apply app_eq_nil in E as [-> ->]. apply skipn_nil.
Qed.

(* the input without its leading white space *)
Definition lws (x : text) : text := fst (skip_ws x 0).

Definition head_nonspace (x : text) : Prop :=
  match x with [] => True | c :: _ => is_space c = false end.

Fixpoint ends_nonspace (t : text) : Prop :=
  match t with
  | [] => True
  | c :: r => match r with [] => is_space c = false | _ => ends_nonspace r end
  end.

(* White space in a literal skips ALL white space of the input, so a run of literal text is matched
   exactly by its own text when it does not end in white space, or when what follows it does not
   start with white space. *)
Definition lit_ok (t after : text) : Prop := ends_nonspace t \/ head_nonspace after.

Lemma skip_ws_fst : forall x n m, fst (skip_ws x n) = fst (skip_ws x m).
Proof.
  induction x as [|c r IH]; intros n m; [reflexivity|]. simpl. destruct (is_space c); [apply IH|reflexivity].
Qed.

Lemma lws_cons_space : forall c r, is_space c = true -> lws (c :: r) = lws r.
Proof. intros c r H. unfold lws. simpl. rewrite H. apply skip_ws_fst. Qed.

Lemma lws_nonspace : forall x, head_nonspace x -> lws x = x.
Proof. intros [|c r] H; [reflexivity|]. unfold lws. simpl in *. now rewrite H. Qed.

Lemma lws_idem : forall x, lws (lws x) = lws x.
Proof.
  induction x as [|c r IH]; [reflexivity|]. destruct (is_space c) eqn:E.
  - rewrite (lws_cons_space c r E). exact IH.
  - rewrite (lws_nonspace (c :: r)) by exact E. apply lws_nonspace. exact E.
Qed.

Lemma lit_ok_tail : forall c r Y, lit_ok (c :: r) Y -> lit_ok r Y.
Proof.
  intros c r Y [H|H]; [|now right]. destruct r as [|d r']; [left; exact I|left; exact H].
Qed.

(* the second conjunct (a text that starts with white space is matched as well once the input has lost its
   leading white space) is what the induction needs after a white-space character of the literal *)
Lemma match_lit_own_text : forall t inp, lit_ok t inp ->
  match_lit t (t ++ inp) = (inp, true) /\
  (match t with c :: _ => is_space c = true | [] => False end -> match_lit t (lws (t ++ inp)) = (inp, true)).
Proof.
  induction t as [|c r IH]; intros inp Hok.
  - split; [reflexivity|intros []].
  - destruct (IH inp (lit_ok_tail c r inp Hok)) as [IH1 IH2].
    cbn [match_lit app]. destruct (is_space c) eqn:Ec.
    + assert (Hcore : match_lit r (lws (r ++ inp)) = (inp, true)).
      { destruct r as [|d r'].
        - cbn [app match_lit]. destruct Hok as [H|H]; [simpl in H; congruence|]. now rewrite lws_nonspace.
        - destruct (is_space d) eqn:Ed.
          + apply IH2. reflexivity.
          + rewrite lws_nonspace by (cbn [app]; exact Ed). exact IH1. }
      split; [|intros _]; change (fst (skip_ws ?x 0)) with (lws x);
        rewrite ?lws_idem, (lws_cons_space c _ Ec); exact Hcore.
    + split; [|intros H; congruence]. rewrite N.eqb_refl. exact IH1.
Qed.

(* the text of a list of pieces, and the condition under which scanning them over that text
   consumes exactly it *)
Definition piece_text (pc : lpiece) : text := match pc with LRun u => u | LPct => [c_pct] end.
Definition pieces_text (ps : list lpiece) : text := flat_map piece_text ps.

Lemma lit_pieces_text : forall t, pieces_text (lit_pieces t) = t.
Proof.
  induction t as [|c r IH]; [reflexivity|]. cbn [lit_pieces].
  destruct (N.eqb_spec c c_pct) as [->|Hc].
  - unfold pieces_text in *. cbn [flat_map piece_text app]. now rewrite IH.
  - unfold pieces_text in *. destruct (lit_pieces r) as [|[u|] ps]; cbn [flat_map piece_text app] in *; now rewrite <- IH.
Qed.

Fixpoint pieces_ok (ps : list lpiece) (after : text) : Prop :=
  match ps with
  | [] => True
  | LRun u :: r => lit_ok u (pieces_text r ++ after) /\ pieces_ok r after
  | LPct :: r => pieces_ok r after
  end.

Lemma scan_piece_own : forall cf pc r after, cf_pct_measure cf = true -> pieces_ok (pc :: r) after ->
  scan_piece cf pc (piece_text pc ++ pieces_text r ++ after)
  = Some (pieces_text r ++ after, length (piece_text pc)).
Proof.
  intros cf pc r after Hpct H. destruct pc as [u|]; cbn [scan_piece piece_text].
  - rewrite (proj1 (match_lit_own_text u _ (proj1 H))). f_equal. f_equal.
    destruct (cf_lit_measure cf); cbn [andb]; [rewrite app_length; lia | reflexivity].
  - cbn [app skip_ws]. replace (is_space c_pct) with false by reflexivity. cbn [fst].
    rewrite N.eqb_refl, Hpct. f_equal. f_equal. cbn [length]. lia.
Qed.

Lemma pieces_ok_tail : forall pc r after, pieces_ok (pc :: r) after -> pieces_ok r after.
Proof. intros [u|] r after H; [exact (proj2 H) | exact H]. Qed.

(* On their own text the two sources agree: both advance by its length, and the stream of the File source,
   which stood at `skipn pos txt`, then stands where the String source will scan again. *)
Lemma scan_lit_own : forall cf ps after, cf_pct_measure cf = true -> pieces_ok ps after ->
  forall txt pos, skipn pos txt = pieces_text ps ++ after ->
  scan_lit_str cf txt pos ps = Some (pos + length (pieces_text ps))%nat /\
  forall fpos, scan_lit_file cf (skipn pos txt) fpos ps
               = Some (skipn (pos + length (pieces_text ps)) txt, (fpos + length (pieces_text ps))%nat).
Proof.
  intros cf ps after Hpct. induction ps as [|pc r IH]; intros Hok txt pos E.
  - cbn. split; [|intros fpos]; repeat f_equal; lia.
  - change (pieces_text (pc :: r)) with (piece_text pc ++ pieces_text r) in *. rewrite <- app_assoc in E.
    destruct (IH (pieces_ok_tail _ _ _ Hok) txt _ (skipn_step _ _ _ _ E)) as [IHs IHf].
    rewrite app_length, !Nat.add_assoc. cbn [scan_lit_str scan_lit_file].
    rewrite E, (scan_piece_own cf pc r after Hpct Hok). split; [exact IHs|]. intros fpos.
    rewrite <- (skipn_step _ _ _ _ E), Nat.add_assoc. apply IHf.
Qed.

Lemma scan_lit_str_own : forall cf ps after, cf_pct_measure cf = true -> pieces_ok ps after ->
  forall pre, scan_lit_str cf (pre ++ pieces_text ps ++ after) (length pre) ps
              = Some (length pre + length (pieces_text ps))%nat.
Proof. intros cf ps after Hpct Hok pre. apply (scan_lit_own cf ps after Hpct Hok), skipn_app_all. Qed.

Lemma scan_lit_file_own : forall cf ps after, cf_pct_measure cf = true -> pieces_ok ps after ->
  forall pos, scan_lit_file cf (pieces_text ps ++ after) pos ps
              = Some (after, (pos + length (pieces_text ps))%nat).
Proof.
  intros cf ps after Hpct Hok pos.
  destruct (scan_lit_own cf ps after Hpct Hok (pieces_text ps ++ after) 0 eq_refl) as [_ H].
  cbn [Nat.add] in H. rewrite skipn_app_all in H. apply H.
Qed.

Lemma lit_pieces_run : forall t u ps, lit_pieces t = LRun u :: ps -> u <> [].
Proof.
  intros [|c r] u ps H; [discriminate|]. cbn [lit_pieces] in H. destruct (c =? c_pct); [discriminate|].
  destruct (lit_pieces r) as [|[u'|] ps']; inversion H; discriminate.
Qed.

(* a readable sufficient condition for pieces_ok: the literal as a whole does not end in white space,
   or what follows it does not start with white space *)
Lemma lit_pieces_ok : forall t X, lit_ok t X -> pieces_ok (lit_pieces t) X.
Proof.
  induction t as [|c r IH]; intros X Hok; [exact I|].
  pose proof (IH X (lit_ok_tail c r X Hok)) as IHr.
  cbn [lit_pieces]. destruct (N.eqb_spec c c_pct) as [->|Hc]; [exact IHr|].
  destruct (lit_pieces r) as [|[u|] ps] eqn:E; cbn [pieces_ok] in *.
  - (* r = [] : the single character run *)
    apply (f_equal pieces_text) in E. rewrite lit_pieces_text in E. subst r. split; [exact Hok|exact I].
  - (* c joins the run u, which is not empty *)
    destruct IHr as [[Hu|Hu] Hps]; (split; [|exact Hps]); [left | now right].
    destruct u; [now apply lit_pieces_run in E | exact Hu].
  - split; [right; reflexivity | exact IHr].
Qed.

Fixpoint lits_simple (cf : config) (its : list pitem) (rest : text) : Prop :=
  match its with
  | [] => True
  | PLit t :: r => lit_ok t (print_items cf r ++ rest) /\ lits_simple cf r rest
  | _ :: r => lits_simple cf r rest
  end.

(* every literal of the sequence is matched by its own text, given what is written after it *)
Fixpoint lits_ok (cf : config) (its : list pitem) (rest : text) : Prop :=
  match its with
  | [] => True
  | PLit t :: r => pieces_ok (lit_pieces t) (print_items cf r ++ rest) /\ lits_ok cf r rest
  | _ :: r => lits_ok cf r rest
  end.

Lemma lits_simple_ok : forall cf its rest, lits_simple cf its rest -> lits_ok cf its rest.
Proof.
  intros cf its rest. induction its as [|it its IH]; intros H; [exact I|].
  destruct it as [t | v | sp v]; cbn [lits_simple lits_ok] in *; auto.
  destruct H as [Ht H]. split; [now apply lit_pieces_ok | auto].
Qed.

Lemma lits_ok_tail : forall cf it its rest, lits_ok cf (it :: its) rest -> lits_ok cf its rest.
Proof. intros cf [t | v | sp v] its rest H; [exact (proj2 H) | exact H | exact H]. Qed.

(* the reading counterpart of a written item *)
Definition sitem_of (it : pitem) : sitem :=
  match it with
  | PLit t => SLit t
  | PShow v => SLook (ty_of v)
  | PNum sp _ => SNum sp
  end.

(* one conversion applied to the remaining input (None for a literal: seq_reads asks only the other two) *)
Definition conv_reads (cf : config) (si : sitem) (inp : text) : option (value * nat) :=
  match si with
  | SLit _ => None
  | SLook ty => look_value cf ty inp
  | SNum sp => scan_num cf sp inp
  end.

(* seq_reads cf its rest sits vs: every non-literal item of `its`, read by the corresponding element
   of `sits` from its own text followed by everything written after it (and then `rest`), yields
   the corresponding element of vs and consumes exactly its own text *)
Inductive seq_reads (cf : config) : list pitem -> text -> list sitem -> list value -> Prop :=
| sr_nil : forall rest, seq_reads cf [] rest [] []
| sr_lit : forall t its rest sits vs,
    seq_reads cf its rest sits vs -> seq_reads cf (PLit t :: its) rest (SLit t :: sits) vs
| sr_val : forall it si its rest sits v vs,
    conv_reads cf si (print_item cf it ++ print_items cf its ++ rest) = Some (v, length (print_item cf it)) ->
    seq_reads cf its rest sits vs ->
    seq_reads cf (it :: its) rest (si :: sits) (v :: vs).

(* scan_lit_own for a whole sequence: both sources read the values back from the written text and advance by its length *)
Lemma scan_seq_own : forall cf its rest sits vs, cf_pct_measure cf = true ->
  seq_reads cf its rest sits vs -> lits_ok cf its rest ->
  forall txt pos acc, skipn pos txt = print_items cf its ++ rest ->
  scan_str cf txt pos sits acc = SOk (acc ++ vs) (pos + length (print_items cf its)) /\
  forall fpos, scan_file cf (skipn pos txt) fpos sits acc = SOk (acc ++ vs) (fpos + length (print_items cf its)).
Proof.
  intros cf its rest sits vs Hpct H.
  induction H as [rest | t its rest sits vs H IH | it si its rest sits v vs Hc H IH]; intros Hl txt pos acc E.
  - cbn. rewrite app_nil_r. split; [|intros fpos]; f_equal; lia.
  - change (print_items cf (PLit t :: its)) with (t ++ print_items cf its) in *. rewrite <- app_assoc in E.
    destruct (scan_lit_own cf _ _ Hpct (proj1 Hl) txt pos) as [Ls Lf]; [now rewrite lit_pieces_text|].
    rewrite lit_pieces_text in Ls, Lf.
    destruct (IH (proj2 Hl) txt _ acc (skipn_step _ _ _ _ E)) as [IHs IHf].
    rewrite app_length, Nat.add_assoc. cbn [scan_str scan_file]. rewrite Ls. split; [exact IHs|]. intros fpos.
    rewrite Lf, Nat.add_assoc. apply IHf.
  - change (print_items cf (it :: its)) with (print_item cf it ++ print_items cf its) in *.
    rewrite <- app_assoc in E. apply lits_ok_tail in Hl.
    destruct (IH Hl txt _ (acc ++ [v]) (skipn_step _ _ _ _ E)) as [IHs IHf]. rewrite <- app_assoc in IHs, IHf.
    destruct si as [t | ty | sp]; [discriminate Hc | |]; cbn [scan_str scan_file]; cbn [conv_reads] in Hc;
      rewrite E, Hc, app_length, Nat.add_assoc; (split; [exact IHs|]); intros fpos;
      rewrite skipn_app_all, <- (skipn_step _ _ _ _ E), Nat.add_assoc; apply IHf.
Qed.

(* C15 for one written sequence: what print_to_with leaves in the sink, followed by any rest, is read back
   by scan_from_with into vs and the position returned is the one print_to_with returned; String sink and
   source at any start position, and File (the stream stands just after the bytes written before) *)
Definition roundtrips (cf : config) (its : list pitem) (rest : text) (sits : list sitem) (vs : list value) : Prop :=
  (forall pre, scan_str cf (fst (print_to_string cf pre (length pre) its) ++ rest) (length pre) sits []
               = SOk vs (snd (print_to_string cf pre (length pre) its))) /\
  (forall old, scan_file cf (skipn (length old) (fst (print_to_file cf old (length old) its) ++ rest))
                 (length old) sits []
               = SOk vs (snd (print_to_file cf old (length old) its))).

Theorem seq_reads_roundtrips : forall cf its rest sits vs, cf_pct_measure cf = true ->
  seq_reads cf its rest sits vs -> lits_ok cf its rest -> roundtrips cf its rest sits vs.
Proof.
  intros cf its rest sits vs Hpct H Hl. unfold roundtrips, print_to_string, print_to_file. cbn [fst snd]. split.
  - intros pre. rewrite firstn_all, <- app_assoc. apply (scan_seq_own cf its rest sits vs Hpct H Hl), skipn_app_all.
  - intros old. rewrite <- app_assoc. apply (scan_seq_own cf its rest sits vs Hpct H Hl), skipn_app_all.
Qed.

(* what the proofs need from the C text (Generated.v) *)
Record config_ok (cf : config) : Prop := {
  ok_tables : esc_tables_ok (cf_show_esc cf) (cf_look_esc cf) = true;
  ok_cont : cf_look_cont cf = true;
  ok_pct : cf_pct_measure cf = true }.

Definition int64 (z : Z) : Prop := (- two63 <= z < two63)%Z.

(* values that show/look handle exactly: NUL-free Strings (a C string cannot hold a NUL) and Ints *)
Definition showable (v : value) : Prop :=
  match v with VStr s => nul_free s | VInt z => int64 z | VFloat _ => False end.

(* the text after a value must not continue its token (a String ends at its closing quote) *)
Definition ends_token (v : value) (after : text) : Prop :=
  match v with VInt _ => stops_int after | _ => True end.

(* Int: Int_Show / Int_Look are the directive "%li" on both sides; String: string_roundtrip *)
Lemma show_value_reads : forall cf v after, config_ok cf -> showable v -> ends_token v after ->
  look_value cf (ty_of v) (show_value cf v ++ after) = Some (v, length (show_value cf v)).
Proof.
  intros cf v after [Ht Hc _] Hv He. destruct v as [z | b | s]; [| destruct Hv |]; cbn [ty_of look_value show_value].
  - apply (int_dec_roundtrip cf spec_li spec_li); try assumption; [reflexivity | right; split; reflexivity | discriminate].
  - rewrite Hc, string_roundtrip by assumption. reflexivity.
Qed.

Fixpoint show_seq_ok (cf : config) (its : list pitem) (rest : text) : Prop :=
  match its with
  | [] => True
  | PLit _ :: r => show_seq_ok cf r rest
  | PShow v :: r => showable v /\ ends_token v (print_items cf r ++ rest) /\ show_seq_ok cf r rest
  | PNum _ _ :: _ => False
  end.

Definition values_of (its : list pitem) : list value :=
  flat_map (fun it => match it with PLit _ => [] | PShow v => [v] | PNum _ v => [v] end) its.

Lemma show_seq_reads : forall cf its rest, config_ok cf -> show_seq_ok cf its rest ->
  seq_reads cf its rest (map sitem_of its) (values_of its).
Proof.
  intros cf its rest Hcf. induction its as [|it its IH]; intros H; [constructor|].
  destruct it as [t | v | sp v]; cbn [show_seq_ok] in H; [|destruct H as (Hv & He & H)|destruct H].
  - constructor. now apply IH.
  - constructor; [now apply show_value_reads | now apply IH].
Qed.

(* C15 for sequences of Strings and Ints written with %$ and separated by literal text *)
Theorem show_seq_roundtrip : forall cf, config_ok cf -> forall its rest,
  show_seq_ok cf its rest -> lits_ok cf its rest -> roundtrips cf its rest (map sitem_of its) (values_of its).
Proof. intros cf Hcf its rest H. apply seq_reads_roundtrips; [apply Hcf | now apply show_seq_reads]. Qed.

(* the reader's table that undoes a writer's table *)
Definition invert_table (se : list (N * N)) : list (N * N) := map (fun cl => (snd cl, fst cl)) se.

(* admissible writer tables: distinct letters (injective), no NUL among the escaped bytes, the quote and
   the backslash are escaped *)
Definition show_table_ok (se : list (N * N)) : Prop :=
  NoDup (map snd se) /\ Forall (fun cl => fst cl <> 0) se /\
  assoc c_quote se <> None /\ assoc c_bslash se <> None.

Lemma assoc_invert : forall se c l, NoDup (map snd se) -> In (c, l) se -> assoc l (invert_table se) = Some c.
Proof.
  induction se as [|[a b] r IH]; intros c l Hnd Hin; [destruct Hin|].
  cbn [invert_table map fst snd assoc]. cbn [map snd] in Hnd. inversion Hnd as [|? ? Hnotin Hnd']; subst.
  destruct (N.eqb_spec b l) as [->|Hne].
  - destruct Hin as [E|Hin]; [inversion E; reflexivity|].
    exfalso. apply Hnotin. change l with (snd (c, l)). now apply in_map.
  - destruct Hin as [E|Hin]; [inversion E; congruence|]. now apply IH.
Qed.

Lemma show_table_ok_tables : forall se, show_table_ok se -> esc_tables_ok se (invert_table se) = true.
Proof.
  intros se (Hnd & Hnz & Hq & Hb). unfold esc_tables_ok.
  apply andb_true_intro. split; [apply andb_true_intro; split|].
  - apply forallb_forall. intros [c l] Hin. cbn [fst snd].
    rewrite (assoc_invert se c l Hnd Hin). rewrite N.eqb_refl. cbn [andb].
    rewrite Forall_forall in Hnz. specialize (Hnz (c, l) Hin). cbn [fst] in Hnz.
    apply N.eqb_neq in Hnz. now rewrite Hnz.
  - destruct (assoc c_quote se); [reflexivity|congruence].
  - destruct (assoc c_bslash se); [reflexivity|congruence].
Qed.

(* String round trip for EVERY admissible escape table, read back with the inverse table *)
Theorem string_roundtrip_any_table : forall se, show_table_ok se ->
  forall s rest, nul_free s ->
  look_string true (invert_table se) (show_string se s ++ rest) = LDone s (length (show_string se s)).
Proof. intros se H s rest Hs. apply string_roundtrip; [now apply show_table_ok_tables | assumption]. Qed.
