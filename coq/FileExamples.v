(* FileExamples.v — concrete runs of FileModel.v: the `with` variant of D19 (File_Close without its closed test),
   the D19 and D22 histories on the repaired File_Close, and histories that inhabit the hypotheses of the theorems
   of Properties_C20.v.  xrun's two flags are fixed_close and fixed_clear of FileModel.v. *)
From Coq Require Import List Arith Bool ZArith Lia ZifyBool.
From CelloV Require Import FileModel FileProofs FileRoundTrip.
Import ListNotations.

Definition xws (b : nat) : bool := (b =? 32) || (b =? 10).
Definition xdigit (b : nat) : bool := (48 <=? b) && (b <=? 57).
Definition xsign (b : nat) : bool := (b =? 45) || (b =? 43).
Definition xcreat (p : nat) : bool := (p <? 3) || (p =? 4).
Definition xfull (p : nat) : bool := p =? 4.
Definition xfs0 : fsys nat := fun p => if p =? 4 then Some [] else None.
Definition xobjs0 : nat -> fobj := fun i => if (i =? 2) || (i =? 3) then FObj None else FDead.
Definition xrun (tests_closed clears_always : bool) :=
  run nat 0 xws xdigit xsign xcreat xfull tests_closed clears_always (w_init nat xfs0 xobjs0).

Lemma xobjs0_free : forall i h, xobjs0 i <> FObj (Some h).
Proof. intros i h. unfold xobjs0. destruct ((i =? 2) || (i =? 3)); discriminate. Qed.

(* D19: File_Close without the closed test hands NULL to fclose when the File is closed already: after a
   second sclose (Properties_C20.file_close_without_closed_test_refuted), or at the end of a with block
   whose body closed the File *)
Lemma d19_with_refuted :
  exists ops, In (OCrash nat) (snd (xrun false true ops)).
Proof. exists [OWith nat 2; OOpen nat 2 0 MW; OClose nat 2; OExit nat]. vm_compute. auto 6. Qed.

(* both D19 histories, and the D22 history (File_Close that keeps the handle when fclose fails: del closes the
   stream a second time, Properties_C20.file_close_keeping_handle_on_error_refuted), on the repaired File_Close *)
Example d19_repaired :
  snd (xrun true true [ONew nat 0; OClose nat 0; OWith nat 2; OOpen nat 2 0 MW; OClose nat 2; OExit nat])
  = [OkUnit nat; ORaise nat FIOError; OkUnit nat; OkUnit nat; OkUnit nat; ORaise nat FIOError].
Proof. vm_compute. reflexivity. Qed.

Example d22_repaired :
  let r := xrun true true [ONewOpen nat 0 4 MW; OWrite nat 0 [7]; OClose nat 0; OTell nat 0; ODel nat 0] in
  snd r = [OkUnit nat; OkWrite nat 1; ORaise nat FIOError; ORaise nat FIOError; OkUnit nat] /\
  w_trace nat (fst r) = [EvClose 0; EvOpen 0].
Proof. vm_compute. split; reflexivity. Qed.

(* non-vacuity: a closed File exists, and the operations meant by `uses` *)
Example closed_file_exists :
  w_objs nat (w_init nat xfs0 xobjs0) 2 = FObj None /\ uses nat (ORead nat 2 5) 2 /\ uses nat (OClose nat 2) 2.
Proof. vm_compute. auto. Qed.

(* non-vacuity of the ledger theorem: a history in which three streams are opened, one File is
   re-opened while open, one is closed by del and one by a with block; all three closed once *)
Example ledger_example :
  let r := xrun true true [ONewOpen nat 0 0 MW; OOpen nat 0 1 MWp; OWith nat 0; OOpen nat 2 0 MR; OExit nat;
                           ONewOpen nat 1 3 MW; OClose nat 2; ODel nat 0] in
  w_trace nat (fst r) = [EvClose 2; EvClose 1; EvOpen 2; EvOpen 1; EvClose 0; EvOpen 0] /\
  snd r = [OkUnit nat; OkUnit nat; OkUnit nat; OkUnit nat; OkUnit nat; ORaise nat FIOError; OkUnit nat; OkUnit nat].
Proof. vm_compute. split; reflexivity. Qed.

(* non-vacuity of the round trip: chunks with an empty one, written "w+", read back "r" after a
   prefix history that used the File before *)
Example roundtrip_example :
  let pre := [ONewOpen nat 0 1 MW; OWrite nat 0 [9; 9]; OClose nat 0] in
  let w := fst (xrun true true pre) in
  w_objs nat w 0 = FObj None /\
  snd (run nat 0 xws xdigit xsign xcreat xfull true true w
         (reopen_history nat 0 1 MWp MR [[1; 0]; []; [0; 2; 3]] [1; 0; 3; 1]))
  = [OkUnit nat; OkWrite nat 1; OkWrite nat 0; OkWrite nat 1; OkNum nat 5; OkUnit nat; OkUnit nat;
     OkRead nat 1 [1]; OkRead nat 0 []; OkRead nat 1 [0; 0; 2]; OkRead nat 1 [3];
     OkNum nat 5; OkBool nat false; OkRead nat 0 []; OkBool nat true].
Proof. vm_compute. split; reflexivity. Qed.

Example seek_example :
  let w := fst (xrun true true []) in
  back_to_start 3 (-3)%Z SeekEnd /\
  snd (run nat 0 xws xdigit xsign xcreat xfull true true w
         (seek_history nat 3 2 (-3)%Z SeekEnd [[5]; [6; 7]] [2; 1]))
  = [OkUnit nat; OkWrite nat 1; OkWrite nat 1; OkNum nat 3; OkUnit nat;
     OkRead nat 1 [5; 6]; OkRead nat 1 [7];
     OkNum nat 3; OkBool nat false; OkRead nat 0 []; OkBool nat true].
Proof. split; [right; right; auto|vm_compute; reflexivity]. Qed.

(* non-vacuity of the text round trip: ASCII classes are disjoint, and two records survive *)
From CelloV Require Import FileText.

Lemma x_ws_not_digit : forall b, xws b = true -> xdigit b = false.
Proof. unfold xws, xdigit. lia. Qed.
Lemma x_digit_not_sign : forall b, xdigit b = true -> xsign b = false.
Proof. unfold xdigit, xsign. lia. Qed.
Lemma x_sign_not_ws : forall b, xsign b = true -> xws b = false.
Proof. unfold xsign, xws. lia. Qed.

Definition xrec1 : trec nat := mkR nat [45] [55] [119; 111].               (* -7 wo *)
Definition xrec2 : trec nat := mkR nat [] [49; 50] [104; 101; 108; 108; 111].   (* 12 hello *)

Example text_example :
  well_formed nat xws xdigit xsign xrec1 /\ well_formed nat xws xdigit xsign xrec2 /\
  snd (xrun true true (text_history nat 32 10 2 1 MW MR [xrec1; xrec2]))
  = [OkUnit nat; OkUnit nat; OkUnit nat; OkUnit nat; OkUnit nat;
     OkScan nat [45; 55] [119; 111]; OkScan nat [49; 50] [104; 101; 108; 108; 111];
     OkBool nat true; ORaise nat FFormatError].
Proof.
  split; [|split].
  - repeat apply conj; try discriminate; [right; exists 45; split; reflexivity | repeat constructor ..].
  - repeat apply conj; try discriminate; [left; reflexivity | repeat constructor ..].
  - vm_compute. reflexivity.
Qed.

(* non-vacuity of the seek theorem: SEEK_END -4 in a 6-byte file, read 3 *)
Example seek_anywhere_example :
  let w := fst (xrun true true [ONewOpen nat 1 2 MWp; OWrite nat 1 [10; 11; 12; 13; 14; 15]; OSeek nat 1 1%Z SeekSet]) in
  w_objs nat w 1 = FObj (Some 0) /\
  m_read (s_mode (f_st (w_files nat w 0))) = true /\
  seek_target 6 (s_pos (f_st (w_files nat w 0))) (-4)%Z SeekEnd = Some (Z.of_nat 2) /\
  snd (run nat 0 xws xdigit xsign xcreat xfull true true w
         [OSeek nat 1 (-4)%Z SeekEnd; OTell nat 1; OEof nat 1; ORead nat 1 3; OTell nat 1])
  = [OkUnit nat; OkNum nat 2; OkBool nat false; OkRead nat 1 [12; 13; 14]; OkNum nat 5].
Proof. vm_compute. repeat split; reflexivity. Qed.

(* non-vacuity of the frame theorem: File 2 stays open at position 2 while File 0 is opened, written, deleted *)
Example frame_example :
  let w := fst (xrun true true [OOpen nat 2 0 MWp; OWrite nat 2 [1; 2]]) in
  target nat (w_stack nat w) (ONewOpen nat 0 1 MW) <> Some 2 /\
  abs_obj nat w (w_objs nat w 2) = SOpen (mkS 0 2 false MWp) /\
  let w' := fst (run nat 0 xws xdigit xsign xcreat xfull true true w [ONewOpen nat 0 1 MW; OWrite nat 0 [5]; ODel nat 0]) in
  abs_obj nat w' (w_objs nat w' 2) = SOpen (mkS 0 2 false MWp).
Proof. split; [simpl; discriminate|]. vm_compute. split; reflexivity. Qed.

(* non-vacuity of the Format-sink theorem: one piece of 300 bytes (longer than a 256-byte buffer), an empty
   piece and a short one, read back in chunks 256 + 0 + 47 *)
Example print_read_example :
  let w := fst (xrun true true [ONew nat 0]) in
  let ts := [repeat 7 300; []; [60; 62; 10]] in
  w_objs nat w 0 = FObj None /\ list_sum [256; 0; 47] = length (concat ts) /\
  snd (run nat 0 xws xdigit xsign xcreat xfull true true w (print_history nat 0 1 MW MR ts [256; 0; 47]))
  = [OkUnit nat; OkUnit nat; OkUnit nat; OkUnit nat; OkNum nat 303; OkUnit nat; OkUnit nat;
     OkRead nat 1 (repeat 7 256); OkRead nat 0 []; OkRead nat 1 (repeat 7 44 ++ [60; 62; 10]);
     OkNum nat 303; OkBool nat false; OkRead nat 0 []; OkBool nat true].
Proof.
  (* the cast lets the VM compare the two sides as they are: vm_compute would first read both back, 256-byte chunks and all *)
  cbv zeta. repeat apply conj; lazymatch goal with |- ?l = ?r => exact (eq_refl r <: l = r) end.
Qed.
