(* RoundTripFloat.v — the Float clause of C15: text written by "%.pf" for a finite double, read back
   by "%lf", gives a double within 10^-p of the original.
   Everything is integer arithmetic: a double m * 2^e (e >= emin) and a decimal text N / 10^p are
   compared after scaling by 10^p * 2^-emin. *)
From Coq Require Import List NArith ZArith Bool Lia.
From CelloV Require Import RoundTrip RoundTripProofs.
Import ListNotations.
Local Open Scope Z_scope.

Lemma rne_div_cases : forall a b : N, (0 < b)%N ->
  let q := (a / b)%N in let r := (a mod b)%N in
  (rne_div a b = q /\ (2 * r <= b)%N) \/ (rne_div a b = (q + 1)%N /\ (b <= 2 * r)%N).
Proof.
  intros a b Hb q r. unfold rne_div. fold q r.
  destruct (N.ltb_spec (2 * r) b); [left; split; [reflexivity|lia]|].
  destruct (N.ltb_spec b (2 * r)); [right; split; [reflexivity|lia]|].
  destruct (N.even q); [left|right]; split; try reflexivity; lia.
Qed.

Lemma rne_div_half : forall a b : N, (0 < b)%N ->
  2 * Z.abs (Z.of_N (rne_div a b) * Z.of_N b - Z.of_N a) <= Z.of_N b.
Proof.
  intros a b Hb.
  pose proof (N.div_mod' a b) as Hdm. pose proof (N.mod_lt a b ltac:(lia)) as Hr.
  destruct (rne_div_cases a b Hb) as [[-> H]|[-> H]];
    set (q := (a / b)%N) in *; set (r := (a mod b)%N) in *; clearbody q r; nia.
Qed.

(* within half a unit, hence a nearest integer to a / b; stated with both sides multiplied by s *)
Lemma rne_div_nearest : forall (a b : N) (k s : Z), (0 < b)%N -> 0 < s ->
  Z.abs (Z.of_N (rne_div a b) * (Z.of_N b * s) - Z.of_N a * s) <= Z.abs (k * (Z.of_N b * s) - Z.of_N a * s).
Proof.
  intros a b k s Hb Hs. pose proof (rne_div_half a b Hb).
  replace (_ * (Z.of_N b * s) - Z.of_N a * s) with ((Z.of_N (rne_div a b) * Z.of_N b - Z.of_N a) * s) by ring.
  replace (k * (Z.of_N b * s) - Z.of_N a * s) with ((k * Z.of_N b - Z.of_N a) * s) by ring.
  rewrite !Z.abs_mul, (Z.abs_eq s) by lia. apply Z.mul_le_mono_nonneg_r; [lia|].
  destruct (Z.lt_total k (Z.of_N (rne_div a b))) as [|[->|]]; nia.
Qed.

Lemma rne_div_upper : forall (a b c : N), (0 < b)%N -> (a <= c * b)%N -> (rne_div a b <= c)%N.
Proof. intros a b c Hb H. pose proof (rne_div_half a b Hb). nia. Qed.

Lemma pow2_Z : forall e, 0 <= e -> Z.of_N (pow2 e) = 2 ^ e.
Proof.
  intros e He. unfold pow2. rewrite N2Z.inj_pow. rewrite Z2N.id by assumption. reflexivity.
Qed.

Lemma pow2_pos : forall e, (0 < pow2 e)%N.
Proof. intros e. unfold pow2. apply N.neq_0_lt_0. apply N.pow_nonzero. discriminate. Qed.

Lemma Zpow2_pos : forall e, 0 <= e -> 0 < 2 ^ e.
Proof. intros. apply Z.pow_pos_nonneg; lia. Qed.

Lemma Zpow2_mul : forall a b c, 0 <= a -> 0 <= b -> a + b = c -> 2 ^ a * 2 ^ b = 2 ^ c.
Proof. intros a b c Ha Hb <-. symmetry. apply Z.pow_add_r; assumption. Qed.

Lemma log2_bounds : forall n : N, (0 < n)%N ->
  2 ^ Z.of_N (N.log2 n) <= Z.of_N n < 2 ^ (Z.of_N (N.log2 n) + 1).
Proof.
  intros n Hn. destruct (N.log2_spec n Hn) as [H1 H2].
  split.
  - apply N2Z.inj_le in H1. rewrite N2Z.inj_pow in H1. exact H1.
  - apply N2Z.inj_lt in H2. rewrite N2Z.inj_pow, N2Z.inj_succ in H2. exact H2.
Qed.

(* ratio_ge_pow2 p q e says p / q >= 2^e; both sides multiplied by 2^s, any s that makes the exponents nonnegative *)
Lemma ratio_ge_pow2_spec : forall (p q : N) e s, 0 <= s -> 0 <= e + s ->
  ratio_ge_pow2 p q e = true <-> Z.of_N q * 2 ^ (e + s) <= Z.of_N p * 2 ^ s.
Proof.
  intros p q e s Hs Hes. unfold ratio_ge_pow2.
  destruct (Z.leb_spec 0 e); rewrite N.leb_le, N2Z.inj_le, N2Z.inj_mul, pow2_Z by lia.
  - rewrite <- (Zpow2_mul e s (e + s)), Z.mul_assoc by lia. apply Z.mul_le_mono_pos_r, Zpow2_pos, Hs.
  - rewrite <- (Zpow2_mul (- e) (e + s) s), Z.mul_assoc by lia. apply Z.mul_le_mono_pos_r, Zpow2_pos, Hes.
Qed.

(* p / q < 2^e <= 2^e' *)
Lemma ratio_lt_pow2 : forall (p q : N) e e' s, ratio_ge_pow2 p q e = false -> e <= e' -> 0 <= s -> 0 <= e' + s ->
  Z.of_N p * 2 ^ s < Z.of_N q * 2 ^ (e' + s).
Proof.
  intros p q e e' s H Hle Hs Hes. apply Bool.not_true_iff_false in H.
  rewrite (ratio_ge_pow2_spec p q e (s + (e' - e))) in H by lia.
  replace (e + (s + (e' - e))) with (e' + s) in H by lia.
  assert (Z.of_N p * 2 ^ s <= Z.of_N p * 2 ^ (s + (e' - e)))
    by (apply Z.mul_le_mono_nonneg_l; [lia | apply Z.pow_le_mono_r; lia]).
  lia.
Qed.

Lemma mul_lt_le : forall a b c d, 0 <= a < c -> 0 < b <= d -> a * b < c * d.
Proof.
  intros a b c d Ha Hb. apply Z.lt_le_trans with (c * b).
  - apply Z.mul_lt_mono_pos_r; lia.
  - apply Z.mul_le_mono_nonneg_l; lia.
Qed.

(* 2^l <= p / q < 2^(l+1) for l = floor_log2_ratio p q: the difference of the two logarithms is l or l + 1 *)
Lemma floor_log2_ratio_spec : forall p q : N, (0 < p)%N -> (0 < q)%N ->
  ratio_ge_pow2 p q (floor_log2_ratio p q) = true /\ ratio_ge_pow2 p q (floor_log2_ratio p q + 1) = false.
Proof.
  intros p q Hp Hq. unfold floor_log2_ratio.
  destruct (log2_bounds p Hp) as [Hp1 Hp2]. destruct (log2_bounds q Hq) as [Hq1 Hq2].
  set (lp := Z.of_N (N.log2 p)) in *. set (lq := Z.of_N (N.log2 q)) in *.
  pose proof (Zpow2_pos lp ltac:(lia)). pose proof (Zpow2_pos lq ltac:(lia)).
  destruct (ratio_ge_pow2 p q (lp - lq)) eqn:E; split; try exact E.
  - (* p < 2^(lp+1), 2^lq <= q *)
    apply Bool.not_true_is_false. intros Hc. apply (ratio_ge_pow2_spec p q _ lq) in Hc; [|lia|lia].
    replace (lp - lq + 1 + lq) with (lp + 1) in Hc by lia.
    pose proof (mul_lt_le (Z.of_N p) (2 ^ lq) (2 ^ (lp + 1)) (Z.of_N q)). lia.
  - (* q < 2^(lq+1), 2^lp <= p *)
    apply (ratio_ge_pow2_spec p q _ (lq + 1)); [lia | lia |].
    replace (lp - lq - 1 + (lq + 1)) with lp by lia.
    pose proof (mul_lt_le (Z.of_N q) (2 ^ lp) (2 ^ (lq + 1)) (Z.of_N p)). lia.
  - replace (lp - lq - 1 + 1) with (lp - lq) by lia. exact E.
Qed.

(* m * 2^e and p / q, both multiplied by q * 2^-emin *)
Definition sval (emin : Z) (q m : N) (e : Z) : Z := Z.of_N m * 2 ^ (e - emin) * Z.of_N q.
Definition starget (emin : Z) (p : N) : Z := Z.of_N p * 2 ^ (- emin).

(* a nearest multiple of U to T is on the same side of k * U as T *)
Lemma nearest_side : forall m k U T, 0 < U -> Z.abs (m * U - T) <= Z.abs (k * U - T) ->
  (T <= k * U -> m <= k) /\ (k * U <= T -> k <= m).
Proof. intros m k U T HU H. split; intros; nia. Qed.

Section RoundBinShape.
  Variables (prec emin : Z) (p q : N).
  Hypothesis Hprec : 0 < prec.
  Hypothesis Hemin : emin <= 0.
  Hypothesis Hq : (0 < q)%N.
  Hypothesis Hp : (0 < p)%N.

  Let l := floor_log2_ratio p q.
  Let e := Z.max emin (l - (prec - 1)).
  Let m := if 0 <=? e then rne_div p (q * pow2 e) else rne_div (p * pow2 (- e)) q.
  Let U := Z.of_N q * 2 ^ (e - emin).
  Let T := starget emin p.

  Lemma rb_eq : round_bin prec emin p q = (m, e).
  Proof. unfold round_bin. destruct (N.eqb_spec p 0); [lia|]. reflexivity. Qed.

  (* the significand is rne_div's nearest integer, hence nearest among all multiples of 2^e *)
  Lemma rb_grid : forall k, Z.abs (Z.of_N m * U - T) <= Z.abs (k * U - T).
  Proof.
    intros k. assert (He : emin <= e) by (unfold e; lia). unfold m, U, T, starget.
    destruct (Z.leb_spec 0 e) as [H0|H0].
    - pose proof (rne_div_nearest p (q * pow2 e) k (2 ^ (- emin)) (N.mul_pos_pos _ _ Hq (pow2_pos e))) as Hn.
      rewrite N2Z.inj_mul, pow2_Z in Hn by assumption.
      rewrite <- (Zpow2_mul e (- emin) (e - emin)), !(Z.mul_assoc (Z.of_N q)) by lia.
      apply Hn, Zpow2_pos. lia.
    - pose proof (rne_div_nearest (p * pow2 (- e)) q k (2 ^ (e - emin)) Hq) as Hn.
      rewrite N2Z.inj_mul, pow2_Z in Hn by lia.
      rewrite <- (Zpow2_mul (- e) (e - emin) (- emin)), !(Z.mul_assoc (Z.of_N p)) by lia.
      apply Hn, Zpow2_pos. lia.
  Qed.

  Lemma rb_U_pos : 0 < U.
  Proof. apply Z.mul_pos_pos; [lia | apply Zpow2_pos; unfold e; lia]. Qed.

  (* the quotient is below 2^(l+1), and l + 1 <= prec + e *)
  Lemma rb_upper : T <= 2 ^ prec * U.
  Proof.
    destruct (floor_log2_ratio_spec p q Hp Hq) as [_ Hr]. fold l in Hr.
    apply (ratio_lt_pow2 p q _ (prec + e) (- emin)) in Hr; [| unfold e; lia ..].
    rewrite <- (Zpow2_mul prec (e - emin) (prec + e + - emin)) in Hr by (unfold e; lia).
    unfold T, starget, U. lia.
  Qed.

  Lemma rb_m_le : Z.of_N m <= 2 ^ prec.
  Proof. apply (nearest_side _ _ U T rb_U_pos (rb_grid _)), rb_upper. Qed.

  (* 2^(prec-1) * U <= T when the exponent is not the least one: then e = l - (prec - 1) and p / q >= 2^l *)
  Lemma rb_lower : emin < e -> 2 ^ (prec - 1) * U <= T.
  Proof.
    intros Hlt. assert (Hel : e = l - (prec - 1)) by (unfold e in *; lia).
    destruct (floor_log2_ratio_spec p q Hp Hq) as [Hr _]. fold l in Hr.
    rewrite (ratio_ge_pow2_spec p q _ (- emin)) in Hr by lia.
    rewrite <- (Zpow2_mul (prec - 1) (e - emin) (l + - emin)) in Hr by lia.
    unfold T, starget, U. lia.
  Qed.

  Lemma rb_m_ge : emin < e -> 2 ^ (prec - 1) <= Z.of_N m.
  Proof. intros Hlt. apply (nearest_side _ _ U T rb_U_pos (rb_grid _)), rb_lower, Hlt. Qed.

  Lemma rb_nearest : forall (m' : N) e', Z.of_N m' < 2 ^ prec -> emin <= e' ->
    Z.abs (sval emin q m e - T) <= Z.abs (sval emin q m' e' - T).
  Proof.
    intros m' e' Hm' He'. replace (sval emin q m e) with (Z.of_N m * U) by (unfold sval, U; ring).
    destruct (Z_le_gt_dec e e') as [Hge|Hlt].
    - (* the competitor lies on the grid of multiples of 2^e *)
      replace (sval emin q m' e') with (Z.of_N m' * 2 ^ (e' - e) * U); [apply rb_grid|].
      unfold sval, U. rewrite <- (Zpow2_mul (e' - e) (e - emin) (e' - emin)) by (unfold e in *; lia). ring.
    - (* a finer exponent: the competitor is below 2^(prec-1) * 2^e <= p / q *)
      assert (Hlt' : emin < e) by lia.
      enough (sval emin q m' e' < 2 ^ (prec - 1) * U).
      { pose proof (rb_grid (2 ^ (prec - 1))). pose proof (rb_lower Hlt'). lia. }
      unfold sval, U. rewrite (Z.mul_comm (Z.of_N q)), Z.mul_assoc. apply Z.mul_lt_mono_pos_r; [lia|].
      apply Z.lt_le_trans with (2 ^ prec * 2 ^ (e' - emin)).
      + apply Z.mul_lt_mono_pos_r; [apply Zpow2_pos; lia | exact Hm'].
      + rewrite <- !Z.pow_add_r by (unfold e in *; lia). apply Z.pow_le_mono_r; unfold e in *; lia.
  Qed.
End RoundBinShape.

Theorem round_bin_nearest : forall prec emin (p q : N), 0 < prec -> emin <= 0 -> (0 < q)%N ->
  forall (m' : N) e', Z.of_N m' < 2 ^ prec -> emin <= e' ->
  emin <= snd (round_bin prec emin p q) /\
  Z.abs (sval emin q (fst (round_bin prec emin p q)) (snd (round_bin prec emin p q)) - starget emin p)
  <= Z.abs (sval emin q m' e' - starget emin p).
Proof.
  intros prec emin p q Hprec Hemin Hq m' e' Hm' He'.
  destruct (N.eq_dec p 0) as [->|Hp].
  - cbn [round_bin N.eqb fst snd]. split; [lia|]. unfold sval, starget. simpl. lia.
  - rewrite rb_eq by lia. cbn [fst snd]. split; [lia|]. apply rb_nearest; assumption || lia.
Qed.

Lemma round_bin_shape : forall prec emin (p q : N), 0 < prec -> emin <= 0 -> (0 < q)%N ->
  let r := round_bin prec emin p q in
  Z.of_N (fst r) <= 2 ^ prec /\ (emin < snd r -> 2 ^ (prec - 1) <= Z.of_N (fst r)).
Proof.
  intros prec emin p q Hprec Hemin Hq r. subst r. destruct (N.eq_dec p 0) as [->|Hp].
  - cbn [round_bin N.eqb fst snd]. split; [apply Z.pow_nonneg|]; lia.
  - rewrite rb_eq by lia. cbn [fst snd]. split; [apply rb_m_le | apply rb_m_ge]; assumption || lia.
Qed.

Definition pow10 (p : nat) : N := (10 ^ N.of_nat p)%N.

Lemma pow10_pos : forall p, (0 < pow10 p)%N.
Proof. intros p. unfold pow10. apply N.neq_0_lt_0. apply N.pow_nonzero. discriminate. Qed.

(* x = mx * 2^ex, t = scaled_round p mx ex / 10^p :  2 * |x - t| <= 10^-p  (scaled by 10^p * 2^-emin) *)
Lemma print_within_half : forall emin (pd : nat) (mx : N) (ex : Z), emin <= 0 -> emin <= ex ->
  2 * Z.abs (sval emin (pow10 pd) mx ex - starget emin (scaled_round pd mx ex)) <= 2 ^ (- emin).
Proof.
  intros emin pd mx ex Hemin Hex. unfold sval, starget, scaled_round. fold (pow10 pd).
  destruct (Z.leb_spec 0 ex) as [H0|H0].
  - (* no rounding: the difference is 0 *)
    rewrite !N2Z.inj_mul, pow2_Z by assumption. rewrite <- (Zpow2_mul ex (- emin) (ex - emin)) by lia.
    pose proof (Zpow2_pos (- emin) ltac:(lia)). lia.
  - (* rne_div_half, multiplied by 2^(ex-emin) *)
    pose proof (rne_div_half (mx * pow10 pd) (pow2 (- ex)) (pow2_pos _)) as Hh.
    rewrite N2Z.inj_mul, pow2_Z in Hh by lia.
    rewrite <- (Zpow2_mul (- ex) (ex - emin) (- emin)) by lia.
    pose proof (Zpow2_pos (ex - emin) ltac:(lia)). nia.
Qed.

Lemma print_close : forall (pd : nat) (mx : N) (ex : Z), -1074 <= ex ->
  2 * Z.abs (sval (-1074) (pow10 pd) mx ex - starget (-1074) (scaled_round pd mx ex)) <= 2 ^ 1074.
Proof. intros pd mx ex. apply (print_within_half (-1074)). lia. Qed.

(* the binary number read back from the text of x = mx * 2^ex differs from x by at most 10^-p:
   |m * 2^e - mx * 2^ex| * (10^p * 2^-emin) <= 2^-emin.  Both are within half of that of the printed decimal. *)
Theorem float_value_roundtrip : forall prec emin, 0 < prec -> emin <= 0 ->
  forall (pd : nat) (mx : N) (ex : Z), Z.of_N mx < 2 ^ prec -> emin <= ex ->
  let r := round_bin prec emin (scaled_round pd mx ex) (pow10 pd) in
  emin <= snd r /\
  Z.abs (sval emin (pow10 pd) (fst r) (snd r) - sval emin (pow10 pd) mx ex) <= 2 ^ (- emin).
Proof.
  intros prec emin Hprec Hemin pd mx ex Hmx Hex r.
  destruct (round_bin_nearest prec emin (scaled_round pd mx ex) (pow10 pd) Hprec Hemin (pow10_pos pd)
              mx ex Hmx Hex) as [He Hn].
  split; [exact He|]. fold r in Hn.
  pose proof (print_within_half emin pd mx ex Hemin Hex). lia.
Qed.

Local Open Scope N_scope.

Lemma digits_fuel_length : forall f n k, n < 10 ^ N.of_nat k -> (1 <= k)%nat ->
  (length (digits_fuel 10 false f n) <= k)%nat.
Proof.
  induction f as [|f IH]; intros n k Hn Hk; [simpl; lia|].
  cbn [digits_fuel]. destruct (N.ltb_spec n 10); [simpl; lia|].
  rewrite app_length. simpl length.
  destruct k as [|[|k]]; [lia | simpl in Hn; lia |].
  assert (n / 10 < 10 ^ N.of_nat (S k)).
  { apply N.div_lt_upper_bound; [lia|]. rewrite <- N.pow_succ_r', <- Nat2N.inj_succ. exact Hn. }
  specialize (IH (n / 10) (S k) H0 ltac:(lia)). lia.
Qed.

Lemma pad_digits_spec : forall p x, x < 10 ^ N.of_nat p -> (1 <= p)%nat ->
  numeral 10 (pad_digits p (print_nat 10 false x)) x /\ length (pad_digits p (print_nat 10 false x)) = p.
Proof.
  intros p x Hx Hp. unfold pad_digits.
  pose proof (digits_fuel_length (S (N.to_nat (N.log2 x))) x p Hx Hp) as Hl. fold (print_nat 10 false x) in Hl.
  split; [apply zeros_print_nat, ubase_10|]. rewrite app_length, repeat_length. lia.
Qed.

(* what may follow the text of a Float so that the token ends there *)
Definition stops_float (rest : text) : Prop :=
  match rest with
  | [] => True
  | c :: _ => digit_in 10 c = None /\ c <> c_e /\ c <> c_E /\ c <> c_dot
  end.

Lemma stops_float_stops : forall rest, stops_float rest -> stops 10 rest.
Proof. intros [|c r] H; [exact I|]. simpl in *. tauto. Qed.

Lemma scan_exponent_none : forall rest n4, stops_float rest -> scan_exponent rest n4 = None.
Proof.
  intros [|c r] n4 H; [reflexivity|]. simpl in H. destruct H as (_ & He & HE & _).
  apply N.eqb_neq in He, HE. unfold scan_exponent. now rewrite He, HE.
Qed.

(* the fractional part written by %.pf *)
Definition frac_text (p : nat) (alt : bool) (n : N) : text :=
  match p with
  | O => if alt then [c_dot] else []
  | S _ => c_dot :: pad_digits p (print_nat 10 false (n mod 10 ^ N.of_nat p))
  end.

Lemma scan_mantissa_print : forall k p n rest n2, stops_float rest ->
  scan_mantissa (repeat c_zero k ++ print_nat 10 false (n / 10 ^ N.of_nat p) ++ frac_text p false n ++ rest) n2
  = (n, (k + length (print_nat 10 false (n / 10 ^ N.of_nat p)))%nat, p, rest,
     (n2 + k + length (print_nat 10 false (n / 10 ^ N.of_nat p)) + length (frac_text p false n))%nat).
Proof.
  intros k p n rest n2 Hr. set (P := 10 ^ N.of_nat p).
  pose proof (pow10_pos p : 0 < P) as HP.
  pose proof (zeros_print_nat 10 false k (n / P) ubase_10) as Hn.
  unfold scan_mantissa. rewrite app_assoc. destruct p as [|p'].
  - cbn [frac_text app length]. rewrite (scan_numeral 10 _ (n / P)) by (exact Hn || apply stops_float_stops, Hr).
    rewrite app_length, repeat_length. replace (n / P) with n by (symmetry; apply N.div_1_r).
    destruct rest as [|c r]; [|destruct Hr as (_ & _ & _ & Hdot); apply N.eqb_neq in Hdot; rewrite Hdot].
    all: rewrite ?Nat.add_0_l, ?Nat.add_0_r, ?Nat.add_assoc; reflexivity.
  - cbn [frac_text app]. fold P. rewrite (scan_numeral 10 _ (n / P)) by (exact Hn || reflexivity).
    replace (c_dot =? c_dot) with true by reflexivity.
    destruct (pad_digits_spec (S p') (n mod P)) as (Hpn & Hpl); [apply N.mod_lt; lia | lia |].
    rewrite (scan_numeral 10 _ (n mod P)) by (exact Hpn || apply stops_float_stops, Hr).
    rewrite Hpl, app_length, repeat_length. fold P. cbn [length]. rewrite Hpl.
    replace ((0 * 10 ^ N.of_nat (k + length (print_nat 10 false (n / P))) + n / P) * P + n mod P) with n
      by (rewrite (N.div_mod' n P) at 1; lia).
    cbn [Nat.add]. f_equal. lia.
Qed.

(* a float directive without '#': any of the flags + space 0 and a width, any precision *)
Definition fspec_ok (sp : nspec) : Prop := n_alt sp = false.

Lemma print_float_shape : forall sp s mx ex, fspec_ok sp ->
  exists k1 sg k2,
    print_float sp s mx ex
    = repeat c_space k1 ++ sg ++ repeat c_zero k2 ++
      print_nat 10 false (scaled_round (float_prec sp) mx ex / 10 ^ N.of_nat (float_prec sp)) ++
      frac_text (float_prec sp) false (scaled_round (float_prec sp) mx ex)
    /\ sign_text sg /\ sign_neg sg = s /\ (n_zero sp = false -> k2 = O).
Proof. intros sp s mx ex Halt. unfold print_float, pad. rewrite Halt. apply sign_pad_shape. Qed.

(* the text "%[flags][width][.p]f" writes for a finite double is scanned as sign, N = scaled_round,
   p decimals, and the scan consumes exactly that text *)
Theorem float_text_roundtrip : forall sp s mx ex rest, fspec_ok sp -> stops_float rest ->
  scan_float_text (print_float sp s mx ex ++ rest)
  = Some (s, scaled_round (float_prec sp) mx ex, (- Z.of_nat (float_prec sp))%Z, length (print_float sp s mx ex)).
Proof.
  intros sp s mx ex rest Hsp Hr.
  destruct (print_float_shape sp s mx ex Hsp) as (k1 & sg & k2 & -> & Hsg & <- & _). rewrite <- !app_assoc.
  set (p := float_prec sp). set (n := scaled_round p mx ex). set (ip := print_nat 10 false (n / 10 ^ N.of_nat p)).
  pose proof (zeros_print_head 10 false k2 (n / 10 ^ N.of_nat p) (frac_text p false n ++ rest) ubase_10) as Hh.
  fold ip in Hh.
  destruct (skip_sign 10 k1 sg _ Hsg Hh) as [E1 E2].
  unfold scan_float_text. rewrite E1, E2. unfold ip. rewrite scan_mantissa_print by assumption. fold ip.
  rewrite scan_exponent_none by assumption.
  destruct (k2 + length ip + p)%nat eqn:E0.
  - exfalso. apply (print_nat_nonempty 10 false (n / 10 ^ N.of_nat p)). apply length_zero_iff_nil. fold ip. lia.
  - f_equal. f_equal. rewrite !app_length, !repeat_length. lia.
Qed.

Lemma decode_double_range : forall b s mx ex, decode_double b = Some (s, mx, ex) ->
  (Z.of_N mx < 2 ^ 53)%Z /\ (-1074 <= ex <= 971)%Z.
Proof.
  intros b s mx ex H. unfold decode_double in H.
  pose proof (N.mod_lt b p52 ltac:(discriminate)) as Hfr.
  pose proof (N.mod_lt (b / p52) 2048 ltac:(discriminate)) as Hxf.
  set (fr := b mod p52) in *. set (xf := (b / p52) mod 2048) in *. clearbody fr xf.
  change (2 ^ 53)%Z with 9007199254740992%Z. unfold p52 in *.
  destruct (N.eqb_spec xf 2047); [discriminate|].
  pose proof (f_equal (fun o => match o with Some (_, m, _) => m | None => 0 end) H) as Hm.
  pose proof (f_equal (fun o => match o with Some (_, _, e) => e | None => 0%Z end) H) as He.
  destruct (N.eqb_spec xf 0); cbv beta iota in Hm, He; subst mx ex; split; lia.
Qed.

Lemma read_float_long : forall neg mant (p : nat),
  read_float true neg mant (- Z.of_nat p)
  = encode_double 1024 neg (fst (round_bin 53 (-1074) mant (pow10 p))) (snd (round_bin 53 (-1074) mant (pow10 p))).
Proof.
  intros neg mant p. unfold read_float, pow10.
  destruct (Z.leb_spec 0 (- Z.of_nat p)) as [H|H].
  - assert (p = O) by lia. subst p. simpl Z.to_N. rewrite N.pow_0_r, N.mul_1_r.
    simpl N.of_nat. rewrite N.pow_0_r.
    destruct (round_bin 53 (-1074) mant 1) as [m e]. reflexivity.
  - replace (Z.to_N (- - Z.of_nat p)) with (N.of_nat p) by lia.
    destruct (round_bin 53 (-1074) mant (10 ^ N.of_nat p)) as [m e]. reflexivity.
Qed.

(* the three fields of k * (2048 * P) + E * P + F, for any field width P *)
Lemma fields_split : forall P k E F : N, E < 2048 -> F < P ->
  let bits := k * (2048 * P) + E * P + F in
  bits / (2048 * P) = k /\ (bits / P) mod 2048 = E /\ bits mod P = F.
Proof.
  intros P k E F HE HF bits. subst bits.
  assert (Hd : (k * (2048 * P) + E * P + F) / P = k * 2048 + E)
    by (symmetry; apply N.div_unique with (r := F); [assumption | lia]).
  split; [|split].
  - symmetry. apply N.div_unique with (r := E * P + F); nia.
  - rewrite Hd. symmetry. apply N.mod_unique with (q := k); lia.
  - symmetry. apply N.mod_unique with (q := k * 2048 + E); [assumption | lia].
Qed.

Lemma decode_fields : forall (sg : bool) (E F bits : N), E < 2047 -> F < p52 ->
  bits = (if sg then p63 else 0) + E * p52 + F ->
  decode_double bits
  = Some (sg, if E =? 0 then F else p52 + F, if E =? 0 then (-1074)%Z else (Z.of_N E - 1075)%Z).
Proof.
  intros sg E F bits HE HF ->.
  replace (if sg then p63 else 0) with ((if sg then 1 else 0) * (2048 * p52)) by (destruct sg; reflexivity).
  destruct (fields_split p52 (if sg then 1 else 0) E F ltac:(lia) HF) as (H1 & H2 & H3).
  unfold decode_double. rewrite N.testbit_eqb. change (2 ^ 63) with (2048 * p52). rewrite H1, H2, H3.
  destruct (N.eqb_spec E 2047); [lia|]. destruct sg, (E =? 0); reflexivity.
Qed.

(* the last step of encode_double: a significand below 2^53 with its exponent (the least one if it is
   below 2^52) is packed into fields from which decode_double gets both back *)
Lemma decode_pack : forall (sg : bool) (m : N) (e : Z),
  m < p53 -> (-1074 <= e <= 971)%Z -> (m < p52 -> e = (-1074)%Z) ->
  decode_double (if m <? p52 then (if sg then p63 else 0) + m
                 else (if sg then p63 else 0) + Z.to_N (e + 1075) * p52 + (m - p52)) = Some (sg, m, e).
Proof.
  intros sg m e Hm He Hsub. assert (H53 : p53 = 2 * p52) by reflexivity.
  destruct (N.ltb_spec m p52) as [Hlt|Hge].
  - rewrite (decode_fields sg 0 m), (Hsub Hlt) by lia. reflexivity.
  - rewrite (decode_fields sg (Z.to_N (e + 1075)) (m - p52)) by lia.
    destruct (N.eqb_spec (Z.to_N (e + 1075)) 0); [lia|]. f_equal. f_equal; [f_equal|]; lia.
Qed.

(* decode_double inverts encode_double on normalised, in-range (m, e) *)
Lemma decode_encode : forall s m e,
  m <= p53 -> (-1074 <= e)%Z ->
  (m <> 0 -> (Z.of_N (N.log2 m) + e < 1024)%Z) ->
  ((-1074 < e)%Z -> p52 <= m) ->
  exists m' e', decode_double (encode_double 1024 s m e) = Some (s, m', e')
    /\ (Z.of_N m' * 2 ^ (e' + 1074) = Z.of_N m * 2 ^ (e + 1074))%Z
    /\ m' < p53 /\ (-1074 <= e' <= 971)%Z.
Proof.
  intros s m e Hm He Hov Hnorm.
  assert (H52 : 0 < p52) by reflexivity. assert (H53 : p53 = 2 * p52) by reflexivity.
  unfold encode_double. destruct (N.eqb_spec m 0) as [->|Hm0].
  - exists 0, (-1074)%Z. rewrite (decode_fields s 0 0) by lia. repeat split; reflexivity || lia.
  - specialize (Hov Hm0). destruct (Z.leb_spec 1024 (Z.of_N (N.log2 m) + e)); [lia|].
    destruct (N.eq_dec m p53) as [->|Hne].
    + (* m = 2^53 : renormalised to 2^52 * 2^(e+1) *)
      change (N.log2 p53) with 53 in *. replace (Z.min (52 - Z.of_N 53) (e + 1074)) with (-1)%Z by lia.
      cbn [Z.leb Z.compare Z.opp]. change (p53 / pow2 1) with p52. change (e - -1)%Z with (e + 1)%Z.
      exists p52, (e + 1)%Z. rewrite decode_pack by lia. split; [reflexivity|]. split; [|lia].
      replace (e + 1 + 1074)%Z with (Z.succ (e + 1074)) by lia. rewrite Z.pow_succ_r by lia.
      change (Z.of_N p53) with (2 * Z.of_N p52)%Z. ring.
    + (* m < 2^53: no shift; log2 m <= 52, with equality unless e is the least exponent *)
      pose proof (N.log2_lt_pow2 m 53 ltac:(lia)) as HL1. pose proof (N.log2_le_pow2 m 52 ltac:(lia)) as HL2.
      change (2 ^ 53) with p53 in HL1. change (2 ^ 52) with p52 in HL2.
      replace (Z.min (52 - Z.of_N (N.log2 m)) (e + 1074)) with 0%Z by lia.
      cbn [Z.leb Z.compare]. change (pow2 0) with 1. rewrite N.mul_1_r, Z.sub_0_r.
      exists m, e. rewrite decode_pack by lia. repeat split; lia.
Qed.

Local Open Scope Z_scope.

(* the arithmetic of no_overflow_any, over variables in place of the powers of two (with 2^2045 in
   sight nia and the checker would evaluate it):  mx * B <= (K - 1) * A and D < A <= A * P *)
Lemma no_overflow_core : forall P K A B C D m mx : Z,
  0 < P -> 0 < B <= A -> D < A -> 0 <= mx < K ->
  Z.abs (m * C * P - mx * B * P) <= D -> m * C < K * A.
Proof.
  intros P K A B C D m mx HP HB HD Hmx Hc.
  assert (mx * B <= (K - 1) * A) by nia.
  assert (D < A * P) by nia.
  assert (m * C * P < K * A * P) by nia.
  nia.
Qed.

(* a result within 10^-p of a finite value does not overflow:
   2^log2(m) * 2^(e-emin) <= m * 2^(e-emin) < 2^prec * 2^(emax-emin) *)
Lemma no_overflow_any : forall prec emin emax pd (m mx : N) e ex, 0 <= prec -> emin <= 0 -> 0 < emax ->
  m <> 0%N -> emin <= e -> Z.of_N mx < 2 ^ prec -> emin <= ex <= emax ->
  Z.abs (sval emin (pow10 pd) m e - sval emin (pow10 pd) mx ex) <= 2 ^ (- emin) ->
  Z.of_N (N.log2 m) + e < prec + emax.
Proof.
  intros prec emin emax pd m mx e ex Hprec Hemin Hemax Hm He Hmx Hex Hc. unfold sval in Hc.
  enough (Z.of_N (N.log2 m) + (e - emin) < prec + (emax - emin)) by lia.
  apply (Z.pow_lt_mono_r_iff 2); [lia | lia |].
  rewrite !Z.pow_add_r by lia.
  apply Z.le_lt_trans with (Z.of_N m * 2 ^ (e - emin)).
  - apply Z.mul_le_mono_nonneg_r; [apply Z.pow_nonneg; lia | apply log2_bounds; lia].
  - apply (no_overflow_core (Z.of_N (pow10 pd)) _ _ (2 ^ (ex - emin)) _ (2 ^ (- emin)) _ (Z.of_N mx)).
    + pose proof (pow10_pos pd). lia.
    + split; [apply Z.pow_pos_nonneg | apply Z.pow_le_mono_r]; lia.
    + apply Z.pow_lt_mono_r; lia.
    + split; [apply N2Z.is_nonneg | exact Hmx].
    + exact Hc.
Qed.

Lemma no_overflow : forall pd (m mx : N) e ex, m <> 0%N -> -1074 <= e ->
  Z.of_N mx < 2 ^ 53 -> -1074 <= ex <= 971 ->
  Z.abs (sval (-1074) (pow10 pd) m e - sval (-1074) (pow10 pd) mx ex) <= 2 ^ 1074 ->
  Z.of_N (N.log2 m) + e < 1024.
Proof.
  intros pd m mx e ex Hm He Hmx Hex.
  refine (no_overflow_any 53 (-1074) 971 pd m mx e ex _ _ _ Hm He Hmx Hex); lia.
Qed.

Local Open Scope N_scope.

(* a finite Float b = (-1)^s mx 2^ex comes back as a bit pattern b' that decodes to a finite double
   (-1)^s m' 2^e' with |m' 2^e' - mx 2^ex| <= 10^-p (p = printed precision) *)
Definition float_close (p : nat) (b b' : N) : Prop :=
  exists s mx ex m' e',
    decode_double b = Some (s, mx, ex) /\ decode_double b' = Some (s, m', e') /\
    (Z.abs (sval (-1074) (pow10 p) m' e' - sval (-1074) (pow10 p) mx ex) <= 2 ^ 1074)%Z.

Definition finite (b : N) : Prop := decode_double b <> None.

(* Float, full statement at the level of bit patterns: the text of a finite double b written with a
   plain %.pf and read back by %lf gives, consuming exactly that text, a bit pattern b' that decodes
   to a finite double of the same sign within 10^-p.
   Chain: text <-> (sign, N, p); nearest-even (m, e) of N / 10^p is within 10^-p of b, normalised and
   not overflowing; packing (m, e) into 64 bits is undone by decode_double *)
Theorem float_roundtrip : forall cf sp ssp b rest,
  conv_is_float (n_conv sp) = true -> fspec_ok sp ->
  conv_is_float (n_conv ssp) = true -> conv_is_int (n_conv ssp) = false -> n_long ssp = true ->
  finite b -> stops_float rest ->
  exists b', scan_num cf ssp (print_num sp (VFloat b) ++ rest) = Some (VFloat b', length (print_num sp (VFloat b)))
             /\ float_close (float_prec sp) b b'.
Proof.
  intros cf sp ssp b rest Hc Hplain Hsc Hsi Hl Hf Hr. unfold finite in Hf.
  destruct (decode_double b) as [[[s mx] ex]|] eqn:Hdec; [|congruence].
  destruct (decode_double_range _ _ _ _ Hdec) as [Hmx Hex].
  unfold print_num, scan_num. rewrite Hc, Hdec, Hsi, Hsc, float_text_roundtrip, Hl, read_float_long by assumption.
  set (pd := float_prec sp) in *.
  destruct (float_value_roundtrip 53 (-1074) eq_refl ltac:(lia) pd mx ex Hmx (proj1 Hex)) as [He Hv].
  destruct (round_bin_shape 53 (-1074) (scaled_round pd mx ex) (pow10 pd) eq_refl ltac:(lia) (pow10_pos pd))
    as [Hle Hnorm].
  set (r := round_bin 53 (-1074) (scaled_round pd mx ex) (pow10 pd)) in *.
  change (2 ^ 53)%Z with (Z.of_N p53) in Hle. change (2 ^ (53 - 1))%Z with (Z.of_N p52) in Hnorm.
  destruct (decode_encode s (fst r) (snd r) (proj2 (N2Z.inj_le _ _) Hle) He) as (m' & e' & Hd & Hval & _).
  { intros Hne. exact (no_overflow pd (fst r) mx (snd r) ex Hne He Hmx Hex Hv). }
  { intros Hlt. apply N2Z.inj_le, Hnorm, Hlt. }
  exists (encode_double 1024 s (fst r) (snd r)). split; [reflexivity|].
  exists s, mx, ex, m', e'. split; [exact Hdec|]. split; [exact Hd|].
  (* e - -1074 in sval is convertible with e + 1074 *)
  unfold sval. change (e' - -1074)%Z with (e' + 1074)%Z. rewrite Hval. exact Hv.
Qed.

Record config_ok_float (cf : config) : Prop := {
  okf_base : config_ok cf;
  okf_long : cf_float_look_long cf = true }.

(* Float_Show / Float_Look are "%f" and "%lf" *)
Theorem float_show_look : forall cf, config_ok_float cf -> forall b rest, finite b -> stops_float rest ->
  exists b', look_value cf TFloat (show_value cf (VFloat b) ++ rest)
             = Some (VFloat b', length (show_value cf (VFloat b)))
             /\ float_close 6 b b'.
Proof.
  intros cf [_ Hl] b rest Hf Hr. cbn [look_value show_value]. rewrite Hl.
  now apply (float_roundtrip cf (spec_f false) (spec_f true)).
Qed.

(* what a sequence gives back: position-wise equal, Floats within the printed precision *)
Definition value_close (v v' : value) : Prop :=
  match v, v' with
  | VInt z, VInt z' => z = z'
  | VStr s, VStr s' => s = s'
  | VFloat b, VFloat b' => exists p, float_close p b b'
  | _, _ => False
  end.

(* a checkable description of the sequences covered: every item with the directive that reads it *)
Fixpoint wf_seq (cf : config) (its : list pitem) (sits : list sitem) (rest : text) : Prop :=
  match its, sits with
  | [], [] => True
  | PLit t :: r, SLit t' :: sr => t = t' /\ wf_seq cf r sr rest
  | PShow v :: r, SLook ty :: sr =>
      ty = ty_of v /\
      (match v with
       | VFloat b => finite b /\ stops_float (print_items cf r ++ rest)
       | _ => showable v /\ ends_token v (print_items cf r ++ rest)
       end) /\ wf_seq cf r sr rest
  | PNum sp (VInt z) :: r, SNum ssp :: sr =>
      int_directive_ok cf sp ssp z (print_items cf r ++ rest) /\ wf_seq cf r sr rest
  | PNum sp (VFloat b) :: r, SNum ssp :: sr =>
      conv_is_float (n_conv sp) = true /\ fspec_ok sp /\
      conv_is_float (n_conv ssp) = true /\ conv_is_int (n_conv ssp) = false /\ n_long ssp = true /\
      finite b /\ stops_float (print_items cf r ++ rest) /\ wf_seq cf r sr rest
  | _, _ => False
  end.

Lemma wf_seq_reads : forall cf its sits rest, config_ok_float cf -> wf_seq cf its sits rest ->
  exists vs', seq_reads cf its rest sits vs' /\ Forall2 value_close (values_of its) vs'.
Proof.
  intros cf its. induction its as [|it its IH]; intros sits rest Hcf H.
  - destruct sits; [|destruct H]. exists []. split; constructor.
  - assert (Hcons : forall si sr v v', wf_seq cf its sr rest ->
      conv_reads cf si (print_item cf it ++ print_items cf its ++ rest) = Some (v', length (print_item cf it)) ->
      value_close v v' ->
      exists vs', seq_reads cf (it :: its) rest (si :: sr) vs' /\ Forall2 value_close (v :: values_of its) vs').
    { intros si sr v v' Hw Hr Hv. destruct (IH _ _ Hcf Hw) as (vs' & Hs & Hf).
      exists (v' :: vs'). split; constructor; assumption. }
    destruct it as [t | v | sp [z | b | s]]; destruct sits as [|[t' | ty | ssp] sits]; cbn [wf_seq] in H;
      try (destruct H; fail).
    + destruct H as [<- H]. destruct (IH _ _ Hcf H) as (vs' & Hs & Hf). exists vs'. split; [now constructor | exact Hf].
    + destruct H as (-> & Hv & H). destruct v as [z | b | s].
      2:{ destruct (float_show_look cf Hcf b _ (proj1 Hv) (proj2 Hv)) as (b' & Hr & Hc).
          apply (Hcons (SLook TFloat) _ _ (VFloat b') H Hr). now exists 6%nat. }
      all: eapply Hcons; [exact H | apply show_value_reads; tauto || apply Hcf | reflexivity].
    + destruct H as (G1 & H). apply (Hcons _ _ _ (VInt z) H); [now apply int_directive_roundtrip | reflexivity].
    + destruct H as (H1 & H2 & H3 & H4 & H5 & Hf & Hst & H).
      destruct (float_roundtrip cf sp ssp b _ H1 H2 H3 H4 H5 Hf Hst) as (b' & Hr & Hc).
      apply (Hcons (SNum ssp) _ _ (VFloat b') H Hr). now exists (float_prec sp).
Qed.

(* C15 with Floats *)
Theorem wf_seq_roundtrip : forall cf, config_ok_float cf -> forall its sits rest,
  wf_seq cf its sits rest -> lits_ok cf its rest ->
  exists vs', roundtrips cf its rest sits vs' /\ Forall2 value_close (values_of its) vs'.
Proof.
  intros cf Hcf its sits rest H Hl. destruct (wf_seq_reads _ _ _ _ Hcf H) as (vs' & Hs & Hv).
  exists vs'. split; [|exact Hv]. apply seq_reads_roundtrips; [apply Hcf | exact Hs | exact Hl].
Qed.
