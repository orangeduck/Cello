(* Properties_C13.v — property C13: threads are isolated; join publishes; Mutex excludes.
   Statements about the interleaving machine of Threads.v instantiated with the parameters re-read
   from the C sources (Generated.v): thr_clear_on_catch (exception_catch), thr_trylock_busy_result
   (Mutex_Trylock on EBUSY), shared_exc = false (Exception_Current goes through the thread's TLS) and
   walk_foreign = false (Thread_Mark walks only the current thread's TLS: repair f2b0c3a).
   Each statement is followed by Print Assumptions.  The invariants and the shape of a step are in
   ThreadsProofs.v (for every value of the two switches); the proofs here put in the values re-read
   from the source, combine those theorems, evaluate one step of a running thread, or a witness. *)
From Coq Require Import List Arith Bool.
From CelloV Require Import ListFacts Generated Threads ThreadsProofs.
Import ListNotations.

Notation M_step := (gstep thr_clear_on_catch thr_trylock_busy_result (negb thr_exc_via_tls) (negb thr_mark_own_tls_only)).
Notation M_run := (run thr_clear_on_catch thr_trylock_busy_result (negb thr_exc_via_tls) (negb thr_mark_own_tls_only)).
Notation M_alone := (alone thr_clear_on_catch).
Notation M_base := (base thr_clear_on_catch).

(* 1. isolation, every schedule: a thread's core (continuation, own collector registry and ledger, own
   exception record, own TLS, result trace) is a function of its OWN program and of the answers its OWN
   try-once trylock attempts got (hist s; true for every other instruction): it is what the thread reaches
   ALONE after the same instructions with the same answers *)
Theorem isolation : forall (ps : list (list op)) (sched : list tid) t l s,
  nth_error (thr (M_run sched (ginit ps))) t = Some (l, s) ->
  exists p, nth_error ps t = Some p /\ l = M_alone (hist s) (M_base t p (tls0 s) (past s)).
Proof. exact (ThreadsProofs.isolation_core thr_clear_on_catch thr_trylock_busy_result). Qed.
Print Assumptions isolation.

(* 1b. no try-once section refused (e.g. the program has none): exactly the stand-alone run of `steps s` instructions *)
Theorem isolation_plain : forall (ps : list (list op)) (sched : list tid) t l s,
  nth_error (thr (M_run sched (ginit ps))) t = Some (l, s) -> past s = [] -> tls0 s = [] ->
  forallb (fun x => x) (hist s) = true ->
  exists p, nth_error ps t = Some p /\ l = alone_n thr_clear_on_catch (steps s) (linit t p).
Proof. exact (ThreadsProofs.isolation_plain thr_clear_on_catch thr_trylock_busy_result). Qed.
Print Assumptions isolation_plain.

(* 2. a finished thread has computed exactly its complete stand-alone result *)
Theorem isolation_finished : forall (ps : list (list op)) (sched : list tid) t l s,
  nth_error (thr (M_run sched (ginit ps))) t = Some (l, s) -> done l = true ->
  exists p, nth_error ps t = Some p /\ forall h', M_alone (h' ++ hist s) (M_base t p (tls0 s) (past s)) = l.
Proof. exact (ThreadsProofs.isolation_finished thr_clear_on_catch thr_trylock_busy_result). Qed.
Print Assumptions isolation_finished.

(* 3. frame: an instruction of thread t leaves the core of every other thread unchanged (never diverts its
   control flow, never changes its exception depth/active, never finalises its objects, never touches its TLS) — the
   two exceptions are calls: of a Thread object whose previous run has finished and been joined (next run), and
   of a fresh copy of a Thread object (first run, with the TLS snapshot it was copied with) *)
Theorem step_frame : forall t t' g, t <> t' ->
  core (M_step t g) t' = core g t' \/
  (exists lu su p, nth_error (thr g) t' = Some (lu, su) /\ done lu = true /\ joined su = true /\
                   nth_error (progs g) t' = Some p /\ core (M_step t g) t' = Some (restart lu p)) \/
  (exists lv sv p tau, nth_error (thr g) t' = Some (lv, sv) /\ started sv = false /\
                   nth_error (progs g) t' = Some p /\ core (M_step t g) t' = Some (set_tls (linit t' p) tau)).
Proof. exact (ThreadsProofs.step_frame thr_clear_on_catch thr_trylock_busy_result). Qed.
Print Assumptions step_frame.

(* 3b. a copy of the current Thread, called: own fresh exception record and collector, TLS = snapshot of the caller's *)
Theorem copy_of_self : forall t g v lv sv p l s k,
  nth_error (thr g) t = Some (l, s) -> aborted g = false -> started s = true -> done l = false ->
  fatal l = false -> ub s = false -> code l = KOp (OSpawnCopy v t) :: k ->
  nth_error (thr g) v = Some (lv, sv) -> started sv = false -> nth_error (progs g) v = Some p -> t <> v ->
  exists l' s', nth_error (thr (M_step t g)) v = Some (l', s') /\
    tls l' = tls l /\ exc l' = mkE 0 false None /\ reg l' = [] /\ fin l' = [] /\ out l' = [] /\ code l' = map KOp p /\
    started s' = true /\ joined s' = false /\ tls0 s' = tls l.
Proof.
  intros t g v lv sv p l s k Ht Hab Hst Hdo Hfa Hub Hc Hv Hsv Hp Hne.
  exists (set_tls (linit v p) (tls l)), (launch_copy sv (tls l)). split; [|repeat split].
  unfold gstep. rewrite (ThreadsProofs.running_dispatch _ _ _ g t l s Ht Hab Hst Hdo Hfa Hub), Hc. cbn iota. rewrite Hv, Ht, Hp, Hsv, Nat.eqb_refl. simpl.
  rewrite ListFacts.nth_error_upd_ne by exact Hne. exact (ListFacts.nth_error_upd_eq _ _ _ _ Hv).
Qed.
Print Assumptions copy_of_self.

(* 4. whatever a thread's collector registers or finalises was allocated by that thread *)
Theorem no_foreign_finalisation : forall (ps : list (list op)) (sched : list tid) t l s o,
  nth_error (thr (M_run sched (ginit ps))) t = Some (l, s) ->
  In o (reg l) \/ In o (fin l) -> fst o = t.
Proof. exact (ThreadsProofs.no_foreign_finalisation thr_clear_on_catch thr_trylock_busy_result). Qed.
Print Assumptions no_foreign_finalisation.

(* 5. Mutex excludes: for every schedule and lock/trylock/unlock/with pattern no two threads hold one mutex *)
Theorem mutex_exclusion : forall (ps : list (list op)) (sched : list tid) t1 t2 l1 s1 l2 s2 m,
  nth_error (thr (M_run sched (ginit ps))) t1 = Some (l1, s1) ->
  nth_error (thr (M_run sched (ginit ps))) t2 = Some (l2, s2) ->
  In m (holding s1) -> In m (holding s2) -> t1 = t2.
Proof.
  intros ps sched t1 t2 l1 s1 l2 s2 m H1 H2 I1 I2.
  destruct (ThreadsProofs.reach_inv thr_clear_on_catch thr_trylock_busy_result eq_refl ps sched) as (_ & I & _).
  pose proof (I _ _ _ _ H1 I1). pose proof (I _ _ _ _ H2 I2). congruence.
Qed.
Print Assumptions mutex_exclusion.

(* 5a. lock has no timeout: lock / with-entry on an owned mutex does not complete, however long (however many
   scheduling attempts) the thread waits; when it completes the thread owns the mutex.  With 5 (mutex_exclusion:
   holding = between lock-return and unlock) at most one thread is between lock-return and unlock, for every
   schedule and every waiting time. *)
Theorem lock_waits : forall n t g l s m k o,
  nth_error (thr g) t = Some (l, s) ->
  (code l = KOp (OLock m) :: k \/ exists bd, code l = KOp (OWith m bd) :: k) ->
  mtx g m = Some o -> Nat.iter n (M_step t) g = g.
Proof.
  intros n t g l s m k o Ht Hc Hm. induction n; [reflexivity|].
  change (Nat.iter (S n) (M_step t) g) with (M_step t (Nat.iter n (M_step t) g)). rewrite IHn.
  unfold gstep. destruct (aborted g); auto. rewrite Ht.
  destruct (negb (started s) || done l || fatal l || ub s); auto.
  destruct Hc as [-> | [bd ->]]; unfold acquire; now rewrite Hm.
Qed.
Print Assumptions lock_waits.

Theorem lock_acquires : forall t g l s m k,
  nth_error (thr g) t = Some (l, s) ->
  aborted g = false -> started s = true -> done l = false -> fatal l = false -> ub s = false ->
  (code l = KOp (OLock m) :: k \/ exists bd, code l = KOp (OWith m bd) :: k) ->
  mtx g m = None ->
  mtx (M_step t g) m = Some t /\
  option_map (fun ls => holding (snd ls)) (nth_error (thr (M_step t g)) t) = Some (m :: holding s).
Proof.
  intros t g l s m k Ht Hab Hst Hdo Hfa Hub Hc Hm.
  unfold gstep. rewrite (ThreadsProofs.running_dispatch _ _ _ g t l s Ht Hab Hst Hdo Hfa Hub).
  destruct Hc as [-> | [bd ->]]; unfold acquire; rewrite Hm; simpl;
    (split; [unfold fupd; now rewrite Nat.eqb_refl | now rewrite (ListFacts.nth_error_upd_eq _ _ _ _ Ht)]).
Qed.
Print Assumptions lock_acquires.

(* 5b. no lost update: a thread about to store the second half of a non-atomic `cell = cell + 1` still holds
   the cell's mutex, the value it loaded is still current, and its store adds exactly one to the current value *)
Theorem guarded_increment : forall (ps : list (list op)) (sched : list tid) t l s m k,
  let g := M_run sched (ginit ps) in
  nth_error (thr g) t = Some (l, s) -> code l = KStore m :: k ->
  In m (holding s) /\ tmp s = cells g m /\
  (aborted g = false -> started s = true -> done l = false -> fatal l = false -> ub s = false ->
   cells (M_step t g) m = S (cells g m)).
Proof.
  intros ps sched t l s m k g Ht Hc.
  destruct (ThreadsProofs.reach_inv thr_clear_on_catch thr_trylock_busy_result eq_refl ps sched) as (_ & _ & I).
  destruct (I _ _ _ _ _ Ht Hc) as [Hin Htmp]. repeat split; auto.
  intros Hab Hst Hdo Hfa Hub. unfold gstep. fold g. rewrite (ThreadsProofs.running_dispatch _ _ _ g t l s Ht Hab Hst Hdo Hfa Hub), Hc.
  simpl. unfold fupd. now rewrite Nat.eqb_refl, Htmp.
Qed.
Print Assumptions guarded_increment.

(* 6. join returns only after the thread has finished *)
Theorem join_waits : forall (ps : list (list op)) (sched : list tid) u lu su,
  nth_error (thr (M_run sched (ginit ps))) u = Some (lu, su) -> joined su = true -> done lu = true.
Proof. exact (ThreadsProofs.join_waits thr_clear_on_catch thr_trylock_busy_result). Qed.
Print Assumptions join_waits.

(* 7. join publishes: whenever the LATEST call of Thread object u has been joined (a call starts a new, unjoined
   run: 7b), a read of u's result by any thread yields the complete stand-alone trace of that run *)
Theorem join_publishes : forall (ps : list (list op)) (sched : list tid) t u lu su p l s k,
  let g := M_run sched (ginit ps) in
  nth_error (thr g) u = Some (lu, su) -> joined su = true ->
  nth_error ps u = Some p ->
  nth_error (thr g) t = Some (l, s) ->
  aborted g = false -> started s = true -> done l = false -> fatal l = false -> ub s = false ->
  code l = KOp (OPeek u) :: k ->
  done lu = true /\
  (forall h', M_alone (h' ++ hist su) (M_base u p (tls0 su) (past su)) = lu) /\
  option_map (fun ls => seen (snd ls)) (nth_error (thr (M_step t g)) t) = Some ((u, out lu) :: seen s).
Proof.
  intros ps sched t u lu su p l s k g Hu Hj Hp Ht Hab Hst Hdo Hfa Hub Hc.
  assert (Hd : done lu = true) by exact (join_waits ps sched u lu su Hu Hj).
  split; [exact Hd|]. split.
  - destruct (isolation_finished ps sched u lu su Hu Hd) as (p' & Hp' & F). now replace p with p' by congruence.
  - unfold gstep. fold g. rewrite (ThreadsProofs.running_dispatch _ _ _ g t l s Ht Hab Hst Hdo Hfa Hub), Hc. cbn iota. rewrite Hu.
    simpl. now rewrite (ListFacts.nth_error_upd_eq _ _ _ _ Ht).
Qed.
Print Assumptions join_publishes.

(* 7b. calling a finished, joined Thread object again starts a new run that is NOT joined: join_waits and
   join_publishes then speak about this latest call *)
Theorem call_resets_join : forall t g u lu su p l s k,
  nth_error (thr g) t = Some (l, s) -> aborted g = false -> started s = true -> done l = false ->
  fatal l = false -> ub s = false -> code l = KOp (OSpawn u) :: k ->
  nth_error (thr g) u = Some (lu, su) -> started su = true -> done lu = true -> joined su = true ->
  nth_error (progs g) u = Some p -> t <> u ->
  nth_error (thr (M_step t g)) u = Some (restart lu p, relaunch su).
Proof. exact (ThreadsProofs.call_resets_join thr_clear_on_catch thr_trylock_busy_result). Qed.
Print Assumptions call_resets_join.

(* 8. the variants the source does NOT have are refuted: a process-wide exception record breaks
   isolation, a trylock that claims success on EBUSY breaks exclusion *)
Theorem shared_exception_record_refuted : forall c b,
  exists ps sched t,
    match nth_error (thr (run c b true false sched (ginit ps))) t, nth_error ps t with
    | Some (l, s), Some p => depth (exc l) =? depth (exc (alone c (hist s) (linit t p))) = false
    | _, _ => False
    end.
Proof.
  intros. exists [[OSpawn 1; OSpawn 2]; [OTry [OObs] [] []]; [OTry [OObs] [] []]], [0; 0; 1; 2], 2.
  destruct c, b; vm_compute; reflexivity.
Qed.
Print Assumptions shared_exception_record_refuted.

Theorem foreign_tls_walk_refuted : forall c b,
  exists ps sched t,
    match nth_error (thr (run c b false true sched (ginit ps))) t, nth_error ps t with
    | Some (l, s), Some p => length (tls l) =? length (tls (alone c (hist s) (linit t p))) = false
    | _, _ => False
    end.
Proof.
  intros. exists [[OSpawn 1; OSpawn 2]; [OCollect]; [OTlsSet 1 5; OTlsGet 1]], [0; 0; 2; 1], 2.
  destruct c, b; vm_compute; reflexivity.
Qed.
Print Assumptions foreign_tls_walk_refuted.

Theorem trylock_true_on_busy_refuted : forall c,
  exists ps sched l1 s1 l2 s2 m,
    nth_error (thr (run c true false false sched (ginit ps))) 0 = Some (l1, s1) /\
    nth_error (thr (run c true false false sched (ginit ps))) 1 = Some (l2, s2) /\
    In m (holding s1) /\ In m (holding s2).
Proof.
  intros. exists [[OSpawn 1; OTrySpin 0; OYield]; [OTrySpin 0; OYield]], [0; 0; 1].
  destruct c; vm_compute; do 4 eexists; exists 0; (split; [reflexivity|split; [reflexivity|split; left; reflexivity]]).
Qed.
Print Assumptions trylock_true_on_busy_refuted.

(* 9. tie to the source: no per-thread datum lives in a file-scope static of Thread.c / Exception.c / GC.c,
   and the functions the model abstracts still have the audited shape *)
Theorem statics_audited : thr_statics = ThreadsProofs.audited_statics.
Proof. exact ThreadsProofs.statics_audited. Qed.
Print Assumptions statics_audited.

Theorem source_shapes :
  thr_exc_via_tls = true /\ thr_gc_via_tls = true /\ thr_current_via_key = true /\
  thr_init_own_records = true /\ thr_join_waits = true /\ thr_with_is_lock_unlock = true /\
  thr_trylock_busy_result = false /\ thr_mark_own_tls_only = true /\ thr_lock_blocking = true.
Proof. exact ThreadsProofs.source_shapes. Qed.
Print Assumptions source_shapes.

(* non-vacuity: a concrete run in which the hypotheses of 5 and 7 are met *)
Example exclusion_nonvacuous :
  exists l s, nth_error (thr (M_run [0; 0; 1] (ginit [[OSpawn 1; OLock 0; OYield]; [OLock 0]]))) 0 = Some (l, s)
              /\ In 0 (holding s).
Proof. vm_compute. do 2 eexists. split; [reflexivity | left; reflexivity]. Qed.

Example join_nonvacuous :
  exists lu su, nth_error (thr (M_run [0; 1; 1; 0] (ginit [[OSpawn 1; OJoin 1; OPeek 1]; [OEmit 7]]))) 1 = Some (lu, su)
                /\ joined su = true /\ out lu = [EvExit []; EvEmit 7].
Proof. vm_compute. do 2 eexists. split; [reflexivity | split; reflexivity]. Qed.

Example increment_nonvacuous :
  exists l s k, nth_error (thr (M_run [0; 1; 1] (ginit [[OSpawn 1; OLock 0; OIncr 0; OUnlock 0]; [OWith 0 [OIncr 0]]]))) 1 = Some (l, s)
                /\ code l = KStore 0 :: k.
Proof. vm_compute. do 3 eexists. split; reflexivity. Qed.

(* a refused try-once section: thread 1 skips its section while thread 0 holds the mutex, and still its core is
   its own program run with that answer *)
Example tryonce_refused :
  exists l s, nth_error (thr (M_run [0; 0; 1; 1] (ginit [[OSpawn 1; OLock 0; OYield]; [OTryOnce 0 [OIncr 0]; OEmit 3]]))) 1 = Some (l, s)
              /\ hist s = [true; false] /\ out l = [EvEmit 3] /\ holding s = [].
Proof. vm_compute. do 2 eexists. repeat split; reflexivity. Qed.

(* a Thread object run twice: after the second call the thread is not joined although its first run was;
   after the second join the reader gets the trace of both runs *)
Example reuse_nonvacuous :
  exists lu su, nth_error (thr (M_run [0; 1; 1; 0; 0] (ginit [[OSpawn 1; OJoin 1; OSpawn 1; OJoin 1; OPeek 1]; [OEmit 7]]))) 1 = Some (lu, su)
                /\ joined su = false /\ past su = [[true; true]] /\ out lu = [EvRestart; EvExit []; EvEmit 7].
Proof. vm_compute. do 2 eexists. repeat split; reflexivity. Qed.

(* a worker inside a try block (depth 1) with one TLS binding clones itself: the clone starts at depth 0 with
   the binding, and a later binding of the source is not seen by the clone *)
Example copy_nonvacuous :
  exists l s, nth_error (thr (M_run [0; 1; 1; 1; 1; 2; 2] (ginit [[OSpawn 1]; [OTlsSet 1 5; OTry [OSpawnCopy 2 1; OTlsSet 2 6; OObs] [] []]; [OObs; OTlsMem 2]]))) 2 = Some (l, s)
              /\ out l = [EvMem 2 false; EvObs 0 false 1 0] /\ tls0 s = [(1, 5)].
Proof. vm_compute. do 2 eexists. repeat split; reflexivity. Qed.
