(* GCGlue.v — ties the mark/sweep development of C01 (abstract registry: finite map of registered
   addresses with root flags, mark set) to the concrete slot-array registry of C17
   (RegistryModel.v / RegistryProofs.v).

   1. abstraction: areg (registered addresses -> root flag), aorder (addresses in slot order),
      Marked (which addresses carry a mark bit) of a C17 registry state g
   2. a CONCRETE mark phase cmark over the C17 state: GC_Mark_Item = RegistryModel.mark_item
      (prefilter + probe loop + mark bit), the registered test of GC_Mark_And_Recurse =
      RegistryModel.gc_mem (probe-loop lookup), the root loop over slot indices, GC_Recurse
      by heap contents as in MarkSweep.v
   3. forward simulation: cmark on g and MarkSweep.mark on (areg g, aorder g) run in lock step
   4. composition with the theorems of C01 (mark_exact_thm, mark_fuel_adequate_thm) and of C17 (the compaction
      loop: sweep_loop_tbl with Swept_regs and Swept_reclaimed_once; sweep_total_thm, registry_history_thm) *)
From Coq Require Import List Arith NArith PArith Bool FMapPositive Lia.
From CelloV Require Import Generated RobinHood RobinHoodProofs RegistryModel RegistryProofs.
From CelloV Require Import HeapGraph MarkSweep MarkSweepProofs.
Import ListNotations.

Local Notation at_ := (at_ gentry).
Local Notation upd := (upd gentry).
Local Notation Holds := (Holds gentry).
Local Notation entries := (entries gentry).
Local Notation emarked := RegistryModel.marked.
Local Notation esetmark := RegistryModel.setmark.

Definition areg (sl : list gslot) : registry :=
  fold_right (fun e r => nset (ptr e) (root e) r) nempty (entries sl).
Definition aorder (sl : list gslot) : list word := map ptr (entries sl).
Definition Marked (sl : list gslot) (q : word) : Prop :=
  exists e, Holds sl e /\ ptr e = q /\ emarked e = true.
(* boolean observation used by the concrete mark phase *)
Definition cmarked (sl : list gslot) (q : word) : bool :=
  existsb (fun e => N.eqb (ptr e) q && emarked e) (entries sl).

(* what C17 does not provide: the allocator never returns NULL and returns word-aligned blocks *)
Definition addr_ok (sl : list gslot) : Prop :=
  forall e, Holds sl e -> ptr e <> 0%N /\ (ptr e mod 8 = 0)%N.

Lemma cmarked_spec sl q : cmarked sl q = true <-> Marked sl q.
Proof.
  unfold cmarked, Marked. rewrite existsb_exists.
  split; intros [e [He H]]; exists e; (split; [apply in_entries, He|]);
    rewrite andb_true_iff, N.eqb_eq in *; exact H.
Qed.

Lemma Marked_clear sl q : Clear sl -> ~ Marked sl q.
Proof. intros Hcl [e [He [_ Hme]]]. rewrite (Hcl e He) in Hme. discriminate. Qed.

Lemma Marked_upd (l : list gslot) k hh e : at_ l k = Some (hh, e) ->
  forall q, Marked (upd k (Some (hh, esetmark e)) l) q <-> Marked l q \/ q = ptr e.
Proof.
  intros Hat q. pose proof (Holds_upd_some gentry l k hh e hh (esetmark e)) as Hupd.
  assert (Hnew : Holds (upd k (Some (hh, esetmark e)) l) (esetmark e))
    by (exists k, hh; apply at_upd_eq; eapply at_some_lt; eauto).
  split.
  - intros [x [Hx [Hp Hm]]]. destruct (proj1 (Hupd x Hat) (or_introl Hx)) as [H| ->].
    + left. exists x. auto.
    + right. symmetry. exact Hp.
  - intros [[x [Hx [Hp Hm]]]| ->]; [|exists (esetmark e); auto].
    destruct (proj2 (Hupd x Hat) (or_introl Hx)) as [H| ->]; [exists x; auto|exists (esetmark e); auto].
Qed.

Lemma areg_get_list (es : list gentry) q :
  (forall e, In e es -> ptr e <> 0%N) -> NoDup (map ptr es) ->
  forall s, nget q (fold_right (fun e r => nset (ptr e) (root e) r) nempty es) = Some s <->
            exists e, In e es /\ ptr e = q /\ root e = s.
Proof.
  induction es as [|a es IH]; intros Hnz Hnd s; simpl.
  - rewrite nget_nempty. split; [discriminate|intros [e [[] _]]].
  - inversion Hnd as [|? ? Hnin Hnd']; subst.
    destruct (N.eq_dec q (ptr a)) as [->|Hne].
    + rewrite nget_nset_same by (apply Hnz; simpl; auto). split.
      * intros [= <-]. exists a. auto.
      * intros [e [[<-|He] [Hp Hr]]]; [congruence|].
        destruct Hnin. rewrite <- Hp. apply in_map, He.
    + rewrite nget_nset_other, IH by (simpl in Hnz; auto).
      split; intros [e [He [Hp Hr]]]; exists e; [auto|].
      destruct He as [<-|He]; [congruence|auto].
Qed.

Lemma NoDup_map_inj {A B} (f : A -> B) (l : list A) :
  NoDup l -> (forall x y, In x l -> In y l -> f x = f y -> x = y) -> NoDup (map f l).
Proof. intros Hnd Hinj. exact (ListFacts.NoDup_map_on f l Hinj Hnd). Qed.

(* the rejection test of RegistryModel.mark_item is the negation of MarkSweep.prefilter *)
Lemma filter_prefilter lo hi p :
  (negb (p mod 8 =? 0)%N || (p <? lo)%N || (hi <? p)%N) = negb (prefilter lo hi p).
Proof.
  unfold prefilter. rewrite !N.ltb_antisym.
  destruct (p mod 8 =? 0)%N, (lo <=? p)%N, (p <=? hi)%N; reflexivity.
Qed.

(* a step of the mark phase changes neither addresses nor root flags *)
Lemma areg_PW l l' : PW l l' -> areg l' = areg l.
Proof.
  unfold areg. induction 1 as [|s s' l l' Hs _ IH]; [reflexivity|].
  rewrite !(entries_cons gentry). destruct Hs as [|hh e e' Hp Hr]; [exact IH|].
  cbn [fold_right]. rewrite IH, Hp, Hr. reflexivity.
Qed.

Lemma addr_ok_PW l l' : PW l l' -> addr_ok l -> addr_ok l'.
Proof.
  intros Hpw Ha e He. destruct (PW_holds _ _ _ Hpw He) as [x [Hx [Hp _]]]. rewrite <- Hp. apply Ha. exact Hx.
Qed.

Lemma skipn_at (l : list gslot) k : k < length l -> skipn k l = at_ l k :: skipn (S k) l.
Proof.
  revert k. induction l as [|a l IH]; intros k Hk; simpl in Hk; [lia|].
  destruct k as [|k]; [reflexivity|]. simpl. unfold RobinHood.at_ in *. simpl. apply IH. lia.
Qed.

Section Glue.
  Variable hashf : N -> N.
  Local Notation Core := (Core hashf).
  Local Notation InvM := (InvM hashf).

  Lemma aorder_NoDup sl : Core sl -> NoDup (aorder sl).
  Proof. intros [_ [_ Huq]]. apply (UQ_NoDup N gentry ptr), Huq. Qed.

  Lemma areg_spec sl q s : Core sl -> addr_ok sl -> (nget q (areg sl) = Some s <-> Regs sl q s).
  Proof.
    intros Hc Ha. unfold Regs. setoid_rewrite <- (in_entries gentry). apply areg_get_list.
    - intros e He. apply Ha, in_entries, He.
    - apply aorder_NoDup, Hc.
  Qed.

  Lemma registered_areg sl q : Core sl -> addr_ok sl ->
    (registered (areg sl) q = true <-> exists s, Regs sl q s).
  Proof.
    intros Hc Ha. unfold registered. destruct (nget q (areg sl)) as [s|] eqn:E.
    - split; [|reflexivity]. intros _. exists s. apply (areg_spec sl q s Hc Ha). exact E.
    - split; [discriminate|]. intros [s Hs]. apply (areg_spec sl q s Hc Ha) in Hs. congruence.
  Qed.

  Lemma is_root_areg sl e : Core sl -> addr_ok sl -> Holds sl e -> is_root (areg sl) (ptr e) = root e.
  Proof.
    intros Hc Ha He. unfold is_root.
    assert (H : nget (ptr e) (areg sl) = Some (root e)) by (apply areg_spec; auto; exists e; auto).
    rewrite H. reflexivity.
  Qed.

  (* order_ok is discharged: slot order, no duplicates, same members *)
  Lemma aorder_ok sl : Core sl -> addr_ok sl -> order_ok (areg sl) (aorder sl).
  Proof.
    intros Hc Ha. split; [apply aorder_NoDup, Hc|].
    intros p. unfold aorder. rewrite in_map_iff, registered_areg by assumption.
    unfold Regs. setoid_rewrite <- (in_entries gentry). split.
    - intros [e [Hp He]]. exists (root e), e. auto.
    - intros [s [e [He [Hp _]]]]. exists e. auto.
  Qed.

  (* range_ok: the window part is C17's bounds invariant, the alignment part is the allocator's *)
  Lemma arange_ok g : InvM g -> addr_ok (slots g) -> range_ok (areg (slots g)) (minptr g) (maxptr g).
  Proof.
    intros H Ha p Hp. apply registered_areg in Hp; [|apply (inv_core hashf g H)|exact Ha].
    destruct Hp as [s [e [He [Hpe _]]]]. subst p.
    destruct (Ha e He) as [_ Hal]. pose proof (inv_bounds hashf g H e He). lia.
  Qed.

  (* lookup = exact membership: GC_Mem_Ptr's probe loop answers by the abstract registry *)
  Lemma gc_mem_areg g p : InvM g -> addr_ok (slots g) ->
    gc_mem hashf g p = Some (registered (areg (slots g)) p).
  Proof.
    intros H Ha. destruct (gc_mem_ok hashf g p H) as [b [-> Hiff]]. f_equal. apply eq_iff_eq_true.
    rewrite Hiff. symmetry. apply registered_areg; [apply (inv_core hashf g H)|exact Ha].
  Qed.

  Lemma Marked_holds l e : Core l -> Holds l e -> Marked l (ptr e) <-> emarked e = true.
  Proof.
    intros Hc He. split; [|exists e; auto]. intros [x [Hx [Hp Hm]]].
    rewrite <- (Core_UQ_same hashf l x e Hc Hx He Hp). exact Hm.
  Qed.

  Variable h : heap.

  (* GC_Recurse(ptr) *)
  Definition cdescend (rec : contents -> gc -> outcome gc) (p : word) (g : gc) : outcome gc :=
    match nget p h with Some c => rec c g | None => Crash end.

  (* GC_Mark_Item on the C17 registry: prefilter, probe loop, mark bit (RegistryModel.mark_item);
     the object is traced exactly when the probe loop set a mark bit *)
  Definition cmark_item (rec : contents -> gc -> outcome gc) (w : word) (g : gc) : outcome gc :=
    match RegistryModel.mark_item hashf g w with
    | None => OutOfFuel
    | Some None => Crash
    | Some (Some g') =>
      if negb (cmarked (slots g) w) && cmarked (slots g') w then cdescend rec w g' else Ok g'
    end.

  (* GC_Mark_And_Recurse (repaired): GC_Mem_Ptr's probe loop decides *)
  Definition cmark_and_recurse (rec : contents -> gc -> outcome gc) (p : word) (g : gc) : outcome gc :=
    match gc_mem hashf g p with
    | None => OutOfFuel
    | Some true => cmark_item rec p g
    | Some false => cdescend rec p g
    end.

  Fixpoint ctrace_with (rec : contents -> gc -> outcome gc) (c : contents) (g : gc) {struct c} : outcome gc :=
    match c with
    | Words ws => fold_o (cmark_item rec) ws g
    | Elems es => fold_o (ctrace_with rec) es g
    | Items ps => fold_o (cmark_and_recurse rec) ps g
    | NoPtr => Ok g
    end.

  (* body of the root loop of GC_Mark for slot i *)
  Definition croot_step (rec : contents -> gc -> outcome gc) (i : nat) (g : gc) : outcome gc :=
    match at_ (slots g) i with
    | Some (hh, e) =>
      if root e && negb (emarked e)
      then cdescend rec (ptr e) (set_slots g (upd i (Some (hh, esetmark e)) (slots g)))
      else Ok g
    | None => Ok g
    end.

  Fixpoint ctrace (fuel : nat) : contents -> gc -> outcome gc :=
    match fuel with
    | 0 => fun _ _ => OutOfFuel
    | S f => ctrace_with (ctrace f)
    end.

  (* GC_Mark on the C17 registry *)
  Definition cmark (fuel : nat) (tls : list contents) (stack : list word) (g : gc) : outcome gc :=
    if nitems g =? 0 then Ok g else
    let rec := ctrace fuel in
    bind (fold_o (ctrace_with rec) tls g) (fun g1 =>
    bind (fold_o (croot_step rec) (seq 0 (nslots g)) g1) (fun g2 =>
    fold_o (cmark_item rec) stack g2)).

  (* C17: a registered address handed to GC_Mark_Item carries a mark bit afterwards *)
  Lemma mark_item_Marked g w g' : InvM g -> addr_ok (slots g) ->
    RegistryModel.mark_item hashf g w = Some (Some g') -> registered (areg (slots g)) w = true -> Marked (slots g') w.
  Proof.
    intros H Ha Hmi Hr. apply (registered_areg (slots g) w (inv_core hashf g H) Ha) in Hr as [s Hs].
    assert (Hal : (w mod 8 = 0)%N) by (destruct Hs as [e [He [<- _]]]; apply Ha, He).
    destruct (mark_item_marks_thm hashf g w s H Hs Hal) as [g2 [Hmi2 [_ [e' [He' [Hp' [_ Hm']]]]]]].
    rewrite Hmi in Hmi2. injection Hmi2 as <-. exists e'. auto.
  Qed.

  (* GC_Mark_Item of C17, precisely: total, only mark bits change, and the set of marked addresses
     grows by w exactly when w passes the prefilter and is registered *)
  Lemma mark_item_exact g w : InvM g -> nslots g <> 0 -> addr_ok (slots g) ->
    exists g', RegistryModel.mark_item hashf g w = Some (Some g') /\ PW (slots g) (slots g') /\ same_rest g g' /\
      forall q, Marked (slots g') q <->
                Marked (slots g) q \/
                (q = w /\ prefilter (minptr g) (maxptr g) w = true /\ registered (areg (slots g)) w = true).
  Proof.
    intros H Hnz Ha. pose proof (inv_core hashf g H) as Hc.
    destruct (RegistryProofs.mark_item_ok hashf g w Hc Hnz) as [g' [Hmi [Hpw Hsr]]].
    exists g'. do 3 (split; [assumption|]).
    pose proof (registered_areg (slots g) w Hc Ha) as Hreg.
    pose proof (mark_item_Marked g w g' H Ha Hmi) as Hw.
    unfold RegistryModel.mark_item in Hmi. rewrite filter_prefilter in Hmi.
    destruct (prefilter (minptr g) (maxptr g) w) eqn:Hpf; cbn [negb] in Hmi.
    2: { injection Hmi as <-. intros q. split; [auto|]. intros [Hq|(_ & Hf & _)]; [exact Hq|discriminate Hf]. }
    destruct (Nat.eqb_spec (nslots g) 0) as [|_]; [contradiction|].
    destruct (mark_loop (nslots g + 2) (slots g) (home hashf w (nslots g)) 0 w) as [l'|] eqn:Hl; [|discriminate].
    injection Hmi as <-. cbn [slots set_slots] in *.
    (* the probe loop either changes nothing or sets the mark bit of an entry for w *)
    destruct (mark_loop_shape w _ _ _ _ _ Hl) as [->|[k [hh [e [Hk [Hpe ->]]]]]]; intros q.
    - split; [auto|]. intros [Hq|(-> & _ & Hr)]; auto.
    - rewrite (Marked_upd (slots g) k hh e Hk q), Hpe.
      assert (registered (areg (slots g)) w = true)
        by (apply Hreg; exists (root e), e; split; [exists k, hh; exact Hk|auto]).
      split; (intros [Hq|Hq]; [left; exact Hq|right]); [auto|apply Hq].
  Qed.

  Lemma registered_areg_PW l l' q : PW l l' -> Core l -> addr_ok l ->
    registered (areg l') q = registered (areg l) q.
  Proof. intros Hpw _ _. rewrite (areg_PW l l' Hpw). reflexivity. Qed.

  Section Sim.
    Variable sl0 : list gslot.            (* the slot array when the collection starts *)
    Hypothesis Hc0 : Core sl0.
    Hypothesis Ha0 : addr_ok sl0.
    Variables lo hi : N.                  (* gc->minptr, gc->maxptr: constant during a mark phase *)
    Let rg := areg sl0.

    Record Sim (g : gc) (m : marks) : Prop := mkSim {
      sim_inv : InvM g;
      sim_pw : PW sl0 (slots g);
      sim_nz : nslots g <> 0;
      sim_lo : minptr g = lo;
      sim_hi : maxptr g = hi;
      sim_quiet : Quiet g;
      sim_marks : forall q, Marked (slots g) q <-> marked m q = true
    }.

    Definition osim (oc : outcome gc) (oa : outcome marks) : Prop :=
      match oc, oa with
      | Ok g', Ok m' => Sim g' m'
      | Crash, Crash => True
      | OutOfFuel, OutOfFuel => True
      | _, _ => False
      end.

    Definition rec_sim (crec : contents -> gc -> outcome gc) (arec : contents -> marks -> outcome marks) : Prop :=
      forall c g m, Sim g m -> osim (crec c g) (arec c m).

    Lemma Sim_addr_ok g m : Sim g m -> addr_ok (slots g).
    Proof. intros S. eapply addr_ok_PW; [apply (sim_pw g m S)|exact Ha0]. Qed.

    Lemma Sim_registered g m q : Sim g m -> registered (areg (slots g)) q = registered rg q.
    Proof. intros S. apply registered_areg_PW; [apply (sim_pw g m S)|exact Hc0|exact Ha0]. Qed.

    (* a step of the concrete mark phase changes mark bits only; the relation is kept when the abstract
       mark set follows *)
    Lemma Sim_step g m g' m' : Sim g m -> PW (slots g) (slots g') -> same_rest g g' ->
      (forall q, Marked (slots g') q <-> marked m' q = true) -> Sim g' m'.
    Proof.
      intros S Hpw Hsr Hmk. pose proof Hsr as (_ & _ & Hlo & Hhi & _ & Hp & _). constructor.
      - eapply InvM_PW; [apply (sim_inv g m S)|exact Hpw|exact Hsr].
      - eapply PW_trans; [apply (sim_pw g m S)|exact Hpw].
      - unfold nslots. rewrite (PW_length _ _ Hpw). apply (sim_nz g m S).
      - rewrite Hlo. apply (sim_lo g m S).
      - rewrite Hhi. apply (sim_hi g m S).
      - unfold Quiet. rewrite Hp. apply (sim_quiet g m S).
      - exact Hmk.
    Qed.

    Lemma Sim_setmark g m g' w : Sim g m -> PW (slots g) (slots g') -> same_rest g g' -> w <> 0%N ->
      (forall q, Marked (slots g') q <-> Marked (slots g) q \/ q = w) -> Sim g' (setmark w m).
    Proof.
      intros S Hpw Hsr Hw Hmk. apply (Sim_step g m); auto.
      intros q. rewrite Hmk, (sim_marks g m S q), marked_setmark_iff by exact Hw. apply or_comm.
    Qed.

    Lemma bind_sim oc oa (fc : gc -> outcome gc) (fa : marks -> outcome marks) :
      osim oc oa -> (forall g m, Sim g m -> osim (fc g) (fa m)) -> osim (bind oc fc) (bind oa fa).
    Proof. destruct oc, oa; simpl; intros H Hf; try contradiction; auto. Qed.

    Lemma fold_sim {A} (cf : A -> gc -> outcome gc) (af : A -> marks -> outcome marks) (l : list A) :
      (forall a g m, In a l -> Sim g m -> osim (cf a g) (af a m)) ->
      forall g m, Sim g m -> osim (fold_o cf l g) (fold_o af l m).
    Proof.
      induction l as [|a l IH]; intros Hf g m S; [exact S|].
      rewrite !fold_o_cons. apply bind_sim; [apply Hf; [left; reflexivity|exact S]|].
      intros g1 m1. apply IH. intros a0 g0 m0 Hin. apply Hf. right. exact Hin.
    Qed.

    Lemma marked_bool_eq g m q : Sim g m -> cmarked (slots g) q = marked m q.
    Proof. intros S. apply eq_iff_eq_true. rewrite cmarked_spec. apply (sim_marks g m S). Qed.

    Section Level.
      Variable crec : contents -> gc -> outcome gc.
      Variable arec : contents -> marks -> outcome marks.
      Hypothesis Hrec : rec_sim crec arec.

      Lemma cdescend_sim p g m : Sim g m -> osim (cdescend crec p g) (descend h arec p m).
      Proof. intros S. unfold cdescend, descend. destruct (nget p h); [apply Hrec; exact S|exact I]. Qed.

      Lemma cmark_item_sim w g m : Sim g m ->
        osim (cmark_item crec w g) (mark_item h rg lo hi arec w m).
      Proof.
        intros S. pose proof (Sim_addr_ok g m S) as Ha.
        destruct (mark_item_exact g w (sim_inv g m S) (sim_nz g m S) Ha) as [g' [Hmi [Hpw [Hsr Hmk]]]].
        rewrite (sim_lo g m S), (sim_hi g m S), (Sim_registered g m w S) in Hmk.
        unfold cmark_item, mark_item. rewrite Hmi, (marked_bool_eq g m w S).
        assert (Hsame : ~ (prefilter lo hi w = true /\ registered rg w = true) -> Sim g' m).
        { intros Hn. apply (Sim_step g m g' m S Hpw Hsr). intros q. rewrite <- (sim_marks g m S q). split.
          - intros Hq. apply Hmk in Hq. destruct Hq as [Hq|[_ Hb]]; [exact Hq|destruct (Hn Hb)].
          - intros Hq. apply Hmk. left. exact Hq. }
        destruct (prefilter lo hi w) eqn:Hpf, (registered rg w) eqn:Hreg.
        2-4: assert (S' : Sim g' m) by (apply Hsame; intros [? ?]; discriminate);
             rewrite (marked_bool_eq g' m w S'), andb_negb_l; exact S'.
        (* w is registered and passes the prefilter: it carries a mark bit now *)
        pose proof (registered_nonzero _ _ Hreg) as Hnz.
        assert (S' : Sim g' (setmark w m)).
        { apply (Sim_setmark g m g' w S Hpw Hsr Hnz). intros q. split.
          - intros Hq. apply Hmk in Hq. destruct Hq as [Hq|[Hq _]]; [left|right]; exact Hq.
          - intros [Hq| ->]; apply Hmk; [left; exact Hq|right; auto]. }
        rewrite (marked_bool_eq g' _ w S'), marked_setmark_same by exact Hnz.
        destruct (marked m w) eqn:Hmw; cbn [negb andb]; [|apply cdescend_sim, S'].
        apply (Sim_step g m g' m S Hpw Hsr). intros q. rewrite Hmk, (sim_marks g m S q).
        split; [|auto]. intros [Hq|[-> _]]; assumption.
      Qed.

      Lemma cmark_and_recurse_sim p g m : Sim g m ->
        osim (cmark_and_recurse crec p g) (mark_and_recurse true h rg lo hi arec p m).
      Proof.
        intros S. unfold cmark_and_recurse, mark_and_recurse.
        rewrite (gc_mem_areg g p (sim_inv g m S) (Sim_addr_ok g m S)), (Sim_registered g m p S).
        destruct (registered rg p); [apply cmark_item_sim|apply cdescend_sim]; exact S.
      Qed.

      Lemma ctrace_with_sim : rec_sim (ctrace_with crec) (trace_with true h rg lo hi arec).
      Proof.
        intros c. induction c as [ws|es IH|ps|] using contents_ind'; intros g m S; cbn [ctrace_with trace_with];
          [apply fold_sim; [|exact S]; intros a g0 m0 Ha ..|exact S].
        - apply cmark_item_sim.
        - rewrite Forall_forall in IH. apply (IH a Ha).
        - apply cmark_and_recurse_sim.
      Qed.
    End Level.

    Lemma ctrace_sim : forall fuel, rec_sim (ctrace fuel) (trace true h rg lo hi fuel).
    Proof.
      induction fuel as [|f IH]; intros c g m S.
      - exact I.
      - cbn [ctrace trace]. apply ctrace_with_sim; [exact IH|exact S].
    Qed.

    Lemma entry_marked_eq g m i hh e : Sim g m -> at_ (slots g) i = Some (hh, e) -> marked m (ptr e) = emarked e.
    Proof.
      intros S Hat. apply eq_iff_eq_true. rewrite <- (sim_marks g m S).
      apply Marked_holds; [apply (inv_core hashf g (sim_inv g m S))|exists i, hh; exact Hat].
    Qed.

    (* the root loop over slot indices and the abstract root pass over the addresses in slot order *)
    Lemma croot_sim crec arec : rec_sim crec arec ->
      forall d k g m, k + d = length sl0 -> Sim g m ->
        osim (fold_o (croot_step crec) (seq k d) g)
             (fold_o (root_step h rg arec) (map ptr (entries (skipn k sl0))) m).
    Proof.
      intros Hrec. induction d as [|d IH]; intros k g m Hk S.
      - replace k with (length sl0) by lia. rewrite skipn_all. exact S.
      - cbn [seq]. rewrite skipn_at, (entries_cons gentry), fold_o_cons by lia. unfold croot_step at 1.
        pose proof (PW_at _ _ k (sim_pw g m S)) as Hrel.
        inversion Hrel as [Hn0 Hn1|hh e0 e Hp Hr Hs0 Hs1]; [cbn [bind]; apply IH; [lia|exact S]|].
        symmetry in Hs0, Hs1. assert (He : Holds (slots g) e) by (exists k, hh; exact Hs1).
        cbn [map]. rewrite fold_o_cons. apply bind_sim; [|intros g1 m1; apply IH; lia].
        unfold root_step, rg. rewrite (is_root_areg sl0 e0 Hc0 Ha0) by (exists k, hh; exact Hs0).
        rewrite Hp, Hr, (entry_marked_eq g m k hh e S Hs1).
        destruct (root e && negb (emarked e)); [|exact S].
        apply cdescend_sim; [exact Hrec|].
        apply (Sim_setmark g m); [exact S|apply PW_upd with (e := e); auto|repeat split| |].
        + apply (Sim_addr_ok g m S e He).
        + apply (Marked_upd (slots g) k hh e Hs1).
    Qed.
  End Sim.

  (* the whole mark phase: concrete GC_Mark over the C17 registry and the abstract mark of
     MarkSweep.v over its abstraction run in lock step *)
  Lemma cmark_sim g fuel tls stack : Inv hashf g -> Quiet g -> addr_ok (slots g) -> nitems g <> 0 ->
    osim (slots g) (minptr g) (maxptr g)
      (cmark fuel tls stack g)
      (mark true true h (areg (slots g)) (minptr g) (maxptr g) fuel (aorder (slots g)) tls stack nempty).
  Proof.
    intros [Hm Hcl] Hq Ha Hn. pose proof (inv_core hashf g Hm) as Hc. pose proof (inv_count hashf g Hm) as Hcnt.
    pose proof (Tbl_nz hashf _ _ (InvM_tbl hashf g Hm) Hn : nslots g <> 0) as Hnz.
    rewrite (occupied_entries gentry) in Hcnt.
    assert (S0 : Sim (slots g) (minptr g) (maxptr g) g nempty).
    { constructor; auto; [apply PW_refl|]. intros q. rewrite marked_nempty.
      split; [intros Hmq; destruct (Marked_clear _ q Hcl Hmq)|discriminate]. }
    pose proof (ctrace_sim (slots g) Hc Ha (minptr g) (maxptr g) fuel) as Hrec.
    unfold cmark, mark. destruct (Nat.eqb_spec (nitems g) 0) as [|_]; [contradiction|].
    unfold aorder at 1. destruct (entries (slots g)) as [|e0 es] eqn:Eo; [contradiction|]. cbn [map].
    apply bind_sim; [apply fold_sim; [|exact S0]; intros a g0 m0 _; apply (ctrace_with_sim (slots g) Hc Ha _ _ _ _ Hrec)|].
    intros g1 m1 S1. apply bind_sim.
    - apply (croot_sim (slots g) Hc Ha _ _ _ _ Hrec (nslots g) 0 g1 m1 eq_refl S1).
    - intros g2 m2 S2. apply fold_sim; [|exact S2]. intros a g0 m0 _. apply (cmark_item_sim (slots g) Hc Ha _ _ _ _ Hrec).
  Qed.

  (* run with the fuel the model supplies, the concrete mark phase terminates, and afterwards an entry carries a
     mark bit or a root flag exactly when its object is root-flagged or reachable *)
  Lemma cmark_exact g tls stack : Inv hashf g -> Quiet g -> addr_ok (slots g) ->
    wf h (areg (slots g)) tls -> raw_wf h (areg (slots g)) ->
    exists g1, cmark (fuel_of h (areg (slots g)) (aorder (slots g))) tls stack g = Ok g1 /\
      InvM g1 /\ Quiet g1 /\ PW (slots g) (slots g1) /\
      forall x, Holds (slots g1) x ->
        (keeper x = true <-> root x = true \/ reach h (areg (slots g)) tls stack (ptr x)).
  Proof.
    intros Hinv Hq Ha Hwf Hraw. pose proof (inv_core hashf g (proj1 Hinv)) as Hc.
    pose proof (arange_ok g (proj1 Hinv) Ha) as Hrange. pose proof (aorder_ok (slots g) Hc Ha) as Horder.
    destruct (mark_fuel_adequate_thm h _ _ _ _ tls stack Hrange Horder Hwf Hraw) as [m' Hmark].
    pose proof (mark_exact_thm h _ _ _ _ tls stack _ m' Hrange Horder Hmark) as Hexact.
    destruct (Nat.eq_dec (nitems g) 0) as [Hz|Hnz].
    - (* GC_Mark returns at once, and there is no entry to speak of *)
      exists g. unfold cmark. rewrite Hz. split; [reflexivity|]. split; [apply Hinv|]. split; [exact Hq|].
      split; [apply PW_refl|]. intros x Hx. apply (in_entries gentry) in Hx.
      pose proof (inv_count hashf g (proj1 Hinv)) as Hcnt. rewrite Hz, (occupied_entries gentry) in Hcnt.
      destruct (entries (slots g)); [destruct Hx|discriminate].
    - pose proof (cmark_sim g (fuel_of h (areg (slots g)) (aorder (slots g))) tls stack Hinv Hq Ha Hnz) as Hs.
      rewrite Hmark in Hs. destruct (cmark _ tls stack g) as [g1| |]; try contradiction.
      destruct Hs as [Hm1 Hpw _ _ _ Hq1 Hmk]. exists g1. split; [reflexivity|]. do 3 (split; [assumption|]).
      intros x Hx. destruct (PW_holds _ _ _ Hpw Hx) as [x0 [Hx0 [Hp Hr]]].
      unfold keeper. rewrite orb_true_iff, <- (Marked_holds _ x (inv_core hashf g1 Hm1) Hx), Hmk, Hexact, <- Hp, <- Hr,
        (is_root_areg _ x0 Hc Ha Hx0).
      assert (registered (areg (slots g)) (ptr x0) = true) by (apply registered_areg; [..|exists (root x0), x0]; auto).
      split; [intros [[_ Hk]|Hk]; [exact Hk|left; exact Hk]|intros Hk; left; exact (conj H Hk)].
  Qed.
End Glue.

Section Compose.
  Variable hashf : N -> N.
  Variable h : heap.

  (* the concrete compaction loop of GC_Sweep run on the registry the concrete mark phase left:
     what is reclaimed, what is kept *)
  Definition reclaimed_by_sweep (g1 : gc) (l' : list gslot) (rm : list gentry) : Prop :=
    sweep_loop (length (slots g1) + occupied gentry (slots g1) + 1) (slots g1) 0 (nitems g1) [] (evs g1)
      = Some (l', nitems g1 - length rm, pend_of rm, reclaim_evs rm ++ evs g1).

  Theorem glue_collect_safe_thm : forall g tls stack,
    Inv hashf g -> Quiet g -> addr_ok (slots g) ->
    wf h (areg (slots g)) tls -> raw_wf h (areg (slots g)) ->
    exists g1 l' rm,
      cmark hashf h (fuel_of h (areg (slots g)) (aorder (slots g))) tls stack g = Ok g1 /\
      InvM hashf g1 /\ Quiet g1 /\ PW (slots g) (slots g1) /\
      reclaimed_by_sweep g1 l' rm /\ Core hashf l' /\
      (* kept: every registered object that is root-flagged or reachable *)
      (forall p s, Reg g p s -> (s = true \/ reach h (areg (slots g)) tls stack p) ->
         (exists e, Holds l' e /\ ptr e = p /\ root e = s) /\ ~ In p (map ptr rm)) /\
      (* reclaimed: only registered, non-root, unreachable objects, each once *)
      (forall x, In x rm -> Reg g (ptr x) false /\ ~ reach h (areg (slots g)) tls stack (ptr x)) /\
      NoDup (map ptr rm).
  Proof.
    intros g tls stack Hinv Hq Ha Hwf Hraw.
    destruct (cmark_exact hashf h g tls stack Hinv Hq Ha Hwf Hraw) as (g1 & Hcm & Hm1 & Hq1 & Hpw & Hkeeper).
    pose proof (inv_core hashf g1 Hm1) as Hc1.
    destruct (sweep_loop_tbl hashf _ _ [] (evs g1) (InvM_tbl hashf g1 Hm1)) as (l' & rm & Hsw & Hswept).
    pose proof Hswept as (Hcl' & _ & Hkeep & Hrm & _).
    exists g1, l', rm. do 6 (split; [assumption|]). split; [|split].
    - intros p s Hreg Hwhy. apply (PW_regs _ _ _ _ Hpw) in Hreg as [x [Hx [<- <-]]].
      assert (Hk : Regs l' (ptr x) (root x)) by (exists x; split; [apply Hkeep, (conj Hx), (Hkeeper x Hx), Hwhy|auto]).
      split; [exact Hk|apply (Swept_regs hashf _ _ _ Hc1 Hswept) in Hk; apply Hk].
    - intros x Hx. apply Hrm in Hx as [Hx Hkx]. apply not_true_iff_false in Hkx. rewrite (Hkeeper x Hx) in Hkx.
      split; [|intros Hr; apply Hkx; right; exact Hr].
      apply (PW_regs _ _ _ _ Hpw). exists x. split; [exact Hx|split; [reflexivity|]].
      apply not_true_is_false. intros Hr. apply Hkx. left. exact Hr.
    - exact (Swept_reclaimed_once hashf _ _ _ Hc1 Hswept).
  Qed.
End Compose.

(* every history the C17 model admits: the registry hypotheses of C01 hold in the state it reaches *)
Theorem glue_registry_hypotheses_thm : forall hashf d rf nf ops, dtors_ok d ->
  Gadm hashf d rf nf ops gc_init ->
  let g := Grun hashf d rf nf ops gc_init in
  addr_ok (slots g) ->
  order_ok (areg (slots g)) (aorder (slots g)) /\
  range_ok (areg (slots g)) (minptr g) (maxptr g) /\
  (forall p, gc_mem hashf g p = Some (registered (areg (slots g)) p)) /\
  (forall p s, nget p (areg (slots g)) = Some s <-> led (evs g) p s) /\
  (forall q, ~ Marked (slots g) q) /\
  pending g = [].
Proof.
  intros hashf d rf nf ops Hd Hadm g Ha.
  destruct (registry_history_thm hashf d rf nf ops Hd Hadm) as [[Hm Hcl] Hq]. fold g in Hm, Hcl, Hq.
  pose proof (inv_core hashf g Hm) as Hc.
  split; [apply (aorder_ok hashf); assumption|]. split; [apply (arange_ok hashf); assumption|].
  split; [intros p; apply (gc_mem_areg hashf); assumption|].
  split; [intros p s; rewrite (areg_spec hashf (slots g) p s Hc Ha); apply (inv_led hashf g Hm)|].
  split; [|exact Hq].
  intros q. apply Marked_clear, Hcl.
Qed.

(* the composed statement: a collection run with the CONCRETE registry reached by any C17-admissible
   history — mark phase with the probe-loop lookup, then the concrete compaction loop — terminates,
   keeps every registered object that is root-flagged or reachable, reclaims only registered non-root
   unreachable objects (each once), and the whole GC_Sweep (finaliser loop included) then succeeds and
   re-establishes C17's invariant *)
Theorem glue_history_collect_safe_thm : forall hashf d rf nf ops h tls stack, dtors_ok d ->
  Gadm hashf d rf nf ops gc_init ->
  let g := Grun hashf d rf nf ops gc_init in
  addr_ok (slots g) -> wf h (areg (slots g)) tls -> raw_wf h (areg (slots g)) ->
  exists g1 l' rm,
    cmark hashf h (fuel_of h (areg (slots g)) (aorder (slots g))) tls stack g = Ok g1 /\
    PW (slots g) (slots g1) /\
    reclaimed_by_sweep g1 l' rm /\
    (forall p s, led (evs g) p s -> (s = true \/ reach h (areg (slots g)) tls stack p) ->
       (exists e, Holds l' e /\ ptr e = p /\ root e = s) /\ ~ In p (map ptr rm)) /\
    (forall x, In x rm -> led (evs g) (ptr x) false /\ ~ reach h (areg (slots g)) tls stack (ptr x)) /\
    NoDup (map ptr rm) /\
    exists g2, Gsweep hashf d rf nf g1 = Some g2 /\ Inv hashf g2 /\ Quiet g2.
Proof.
  intros hashf d rf nf ops h tls stack Hd Hadm g Ha Hwf Hraw.
  destruct (registry_history_thm hashf d rf nf ops Hd Hadm) as [Hinv Hq]. fold g in Hinv, Hq.
  destruct (glue_collect_safe_thm hashf h g tls stack Hinv Hq Ha Hwf Hraw)
    as (g1 & l' & rm & Hcm & Hm1 & Hq1 & Hpw & Hsw & _ & Hkeep & Hrm & Hnd).
  exists g1, l', rm. do 3 (split; [assumption|]).
  pose proof (inv_led hashf g (proj1 Hinv)) as Hled.
  split; [|split; [|split; [exact Hnd|]]].
  - intros p s Hl. apply Hkeep. apply Hled. exact Hl.
  - intros x Hx. destruct (Hrm x Hx) as [Hr Hn]. split; [apply Hled; exact Hr|exact Hn].
  - apply sweep_total_thm; assumption.
Qed.

Definition addr_ok_b (sl : list gslot) : bool :=
  forallb (fun e => negb (N.eqb (ptr e) 0) && N.eqb (N.modulo (ptr e) 8) 0) (entries sl).
Lemma addr_ok_b_sound sl : addr_ok_b sl = true -> addr_ok sl.
Proof.
  unfold addr_ok_b, addr_ok. rewrite forallb_forall. intros H e He. apply (in_entries gentry) in He.
  specialize (H e He). apply andb_true_iff in H. destruct H as [H1 H2].
  apply negb_true_iff, N.eqb_neq in H1. apply N.eqb_eq in H2. auto.
Qed.

(* non-vacuity: the first five allocations of C17's example history ex_ops (8 48 88 16 24) with a heap over
   these five objects:
   8 -> 16 (plain), 16 = Tuple (24, 8), 24 = Array [Ref 16], 48 plain, 88 -> 88; the stack holds 8 *)
Definition glue_ops : list op := firstn 5 ex_ops.
Definition glue_g : gc := Grun ex_hash ex_d false false glue_ops gc_init.
Definition glue_heap : heap :=
  nset 8%N (Words [16%N]) (nset 16%N (Items [24%N; 8%N]) (nset 24%N (Elems [Words [16%N]])
  (nset 48%N (Words []) (nset 88%N (Words [88%N]) nempty)))).
Definition glue_stack : list word := [8%N; 3%N].

Definition glue_reclaimed : list N := [88%N; 48%N].
Definition glue_kept : list N := [8%N; 16%N; 24%N].

(* the statement does not depend on the slot layout (prime table, load factor): what is kept / reclaimed is
   derived from glue_collect_safe_thm, only the hypotheses are checked by computation *)
Lemma glue_example :
  Gadm ex_hash ex_d false false glue_ops gc_init /\
  addr_ok (slots glue_g) /\ wf glue_heap (areg (slots glue_g)) [] /\ raw_wf glue_heap (areg (slots glue_g)) /\
  exists g1 l' rm,
    cmark ex_hash glue_heap (fuel_of glue_heap (areg (slots glue_g)) (aorder (slots glue_g))) [] glue_stack glue_g = Ok g1 /\
    reclaimed_by_sweep g1 l' rm /\
    (forall p, In p glue_kept -> (exists e, Holds l' e /\ ptr e = p) /\ ~ In p (map ptr rm)) /\
    (forall x, In x rm -> ~ In (ptr x) glue_kept).
Proof.
  assert (Hadm : Gadm ex_hash ex_d false false glue_ops gc_init) by (apply adm_runb_ok; vm_compute; reflexivity).
  assert (Ha : addr_ok (slots glue_g)) by (apply addr_ok_b_sound; vm_compute; reflexivity).
  assert (Hwf : wf glue_heap (areg (slots glue_g)) []) by (apply wf_b_sound; vm_compute; reflexivity).
  assert (Hraw : raw_wf glue_heap (areg (slots glue_g))) by (apply raw_wf_b_sound; vm_compute; reflexivity).
  do 4 (split; [assumption|]).
  pose proof (registry_history_thm ex_hash ex_d false false glue_ops ex_d_ok Hadm
              : Inv ex_hash glue_g /\ Quiet glue_g) as [Hinv Hq].
  pose proof (inv_core ex_hash glue_g (proj1 Hinv)) as Hc.
  set (R := reach glue_heap (areg (slots glue_g)) [] glue_stack).
  assert (R8 : R 8%N) by (apply reach_stack; simpl; auto).
  assert (R16 : R 16%N).
  { eapply reach_step with (p := 8%N) (c := Words [16%N]); [exact R8|vm_compute; reflexivity|reflexivity|].
    apply pts_word. simpl. auto. }
  assert (R24 : R 24%N).
  { eapply reach_step with (p := 16%N) (c := Items [24%N; 8%N]); [exact R16|vm_compute; reflexivity|reflexivity|].
    apply pts_item; [simpl; auto|vm_compute; reflexivity]. }
  assert (Hreach : forall p, In p glue_kept -> R p).
  { intros p Hp. unfold glue_kept in Hp. simpl in Hp. intuition (subst; assumption). }
  assert (Hreg : forall p, In p glue_kept -> Reg glue_g p false).
  { intros p Hp. apply (areg_spec ex_hash (slots glue_g) p false Hc Ha).
    unfold glue_kept in Hp. simpl in Hp. intuition (subst; vm_compute; reflexivity). }
  destruct (glue_collect_safe_thm ex_hash glue_heap glue_g [] glue_stack Hinv Hq Ha Hwf Hraw)
    as (g1 & l' & rm & Hcm & _ & _ & _ & Hsw & _ & Hkeep & Hrm & _).
  exists g1, l', rm. do 2 (split; [assumption|]). split.
  - intros p Hp. destruct (Hkeep p false (Hreg p Hp) (or_intror (Hreach p Hp))) as [[e [He [Hpe _]]] Hn].
    split; [exists e; auto|exact Hn].
  - intros x Hx Hin. destruct (Hrm x Hx) as [_ Hn]. apply Hn. apply Hreach. exact Hin.
Qed.
