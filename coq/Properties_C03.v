(* Properties_C03.v — property C03: Tree is an ordered map and stays a valid red-black tree.
   Statements, each followed by Print Assumptions.  The inductions are in RBProofs.v (contents, order), RBBalance.v
   (colours, heights), RBIter.v (iteration), RBRefine.v (one operation, `run_refines` over histories from any valid tree,
   key orders); here a statement is closed by `exact` of one of their lemmas or by a few lines that instantiate
   and project them (the history theorems from `run_refines`, the observations from the iteration, lookup and
   height lemmas).

   Reading aid (definitions in RBTree.v / RBBalance.v / RBProofs.v / RBRefine.v):
     t_step, t_run, t_outs     the model of Tree.c: one operation / a history / the outcome of every step
     spec_step, spec_run, ...  the same on the specification: association list in DESCENDING key order
     abs t                     = inorder (root t): bindings of the tree in in-order (= iteration order)
     rb_inv cmp t              = sorted (abs t)            search-tree order: keys strictly descending in in-order
                                 /\ rb_tree (root t)       root black /\ exists n, rbh (root t) n
                                 /\ nitems t = length (abs t)
     rbh t n                   no red node has a red child and every path from t to a leaf has n black nodes
     total_order cmp           cmp a b = Eq -> a = b, reflexive, antisymmetric (CompOpp), transitive
     use_succ                  Tree_Rem's donor rule for a node with two children, as a function of (predecessor is
                               black) (successor is red): true = refill from the in-order successor.  ARBITRARY in every
                               theorem; the value of the working tree is Generated.tree_rem_use_succ
     OCrash / OFuel            the C code would dereference NULL / the iteration loop ran out of fuel *)
From Coq Require Import List ZArith Sorted.
From CelloV Require Import Generated RBTree RBProofs RBBalance RBIter RBRefine RBSource.
Import ListNotations.

Theorem tree_rb_inv_init : forall (K V : Type) (cmp : K -> K -> comparison),
  rb_inv K V cmp (t_empty K V).
Proof. exact rb_inv_empty. Qed.
Print Assumptions tree_rb_inv_init.

(* every operation (set, rem, get, mem, resize, copy, assign) on a valid tree: the invariant is kept,
   the abstraction commutes with the specification's step and the outcomes are equal (value, bool,
   KeyError on an absent key, FormatError on resize to n > 0) *)
Theorem tree_step_refines : forall (K V : Type) (cmp : K -> K -> comparison) (use_succ : bool -> bool -> bool),
  total_order cmp ->
  forall (t : rbt K V) (o : op K V), rb_inv K V cmp t ->
    rb_inv K V cmp (fst (t_step K V cmp use_succ t o)) /\
    abs K V (fst (t_step K V cmp use_succ t o)) = fst (spec_step K V cmp (abs K V t) o) /\
    snd (t_step K V cmp use_succ t o) = snd (spec_step K V cmp (abs K V t) o).
Proof. intros K V cmp use_succ TO. exact (step_refines_total K V cmp use_succ (total_order_pre TO)). Qed.
Print Assumptions tree_step_refines.

(* lifted over ALL histories starting from new(Tree): invariant, contents and every outcome agree with the
   ordered map; no step crashes (NULL sibling / NULL nephew / red root parent branches of the fix-ups are
   unreachable) and no loop runs out of fuel *)
Theorem tree_refines_omap : forall (K V : Type) (cmp : K -> K -> comparison) (use_succ : bool -> bool -> bool),
  total_order cmp ->
  forall ops : list (op K V),
    rb_inv K V cmp (t_run K V cmp use_succ ops (t_empty K V)) /\
    abs K V (t_run K V cmp use_succ ops (t_empty K V)) = spec_run K V cmp ops [] /\
    t_outs K V cmp use_succ ops (t_empty K V) = spec_outs K V cmp ops [] /\
    ~ In (OCrash V) (t_outs K V cmp use_succ ops (t_empty K V)) /\
    ~ In (OFuel V) (t_outs K V cmp use_succ ops (t_empty K V)).
Proof.
  intros K V cmp use_succ TO ops.
  destruct (run_refines K V cmp use_succ (total_order_pre TO) ops _ (rb_inv_empty K V cmp)) as (Hi & Ha & Ho).
  rewrite Ho. auto using spec_outs_total.
Qed.
Print Assumptions tree_refines_omap.

(* what a valid tree shows: forward iteration (Tree_Iter_Init/Next with fuel nitems+1) yields exactly the
   keys of the map, strictly descending; backward iteration (Tree_Iter_Last/Prev) the exact reverse; both
   have length len; get/mem are the map's lookup; height <= 2*log2(len+1) in integer form *)
Theorem tree_observations : forall (K V : Type) (cmp : K -> K -> comparison), total_order cmp ->
  forall t : rbt K V, rb_inv K V cmp t ->
    iter_forward K V t = Ok (keys K V (abs K V t)) /\
    iter_backward K V t = Ok (rev (keys K V (abs K V t))) /\
    StronglySorted (kgt K cmp) (keys K V (abs K V t)) /\
    length (keys K V (abs K V t)) = nitems K V t /\
    (forall k, lookup K V cmp (root K V t) k = a_get K V cmp (abs K V t) k) /\
    2 ^ height K V (root K V t) <= (nitems K V t + 1) ^ 2.
Proof.
  intros K V cmp TO t (Hs & Hb & Hn). repeat split.
  - apply iter_forward_spec, Hn.
  - apply iter_backward_spec, Hn.
  - apply sorted_keys, Hs.
  - rewrite Hn. apply map_length.
  - intros k. apply lookup_abs, Hs. exact (total_order_pre TO).
  - rewrite Hn. unfold abs. rewrite <- size_inorder. apply rb_height_bound, Hb.
Qed.
Print Assumptions tree_observations.

(* the two together, hypothesis-free apart from the key order: after ANY history the tree's len, iteration
   in both directions, lookups and height are those of the ordered map reached by the same history *)
Theorem tree_history_observations : forall (K V : Type) (cmp : K -> K -> comparison) (use_succ : bool -> bool -> bool),
  total_order cmp ->
  forall ops : list (op K V),
    let t := t_run K V cmp use_succ ops (t_empty K V) in
    let m := spec_run K V cmp ops [] in
    nitems K V t = length m /\
    iter_forward K V t = Ok (keys K V m) /\
    iter_backward K V t = Ok (rev (keys K V m)) /\
    StronglySorted (kgt K cmp) (keys K V m) /\
    (forall k, lookup K V cmp (root K V t) k = a_get K V cmp m k) /\
    2 ^ height K V (root K V t) <= (length m + 1) ^ 2.
Proof.
  intros K V cmp use_succ TO ops. cbv zeta. destruct (tree_refines_omap K V cmp use_succ TO ops) as (Hi & Ha & _).
  destruct (tree_observations K V cmp TO _ Hi) as (O1 & O2 & O3 & O4 & O5 & O6). rewrite Ha in *.
  unfold keys in O4. rewrite map_length in O4. rewrite <- O4 in O6. auto 10.
Qed.
Print Assumptions tree_history_observations.

(* what a tree shows depends only on the ordered map its history denotes: not on the history that built it, not on the
   shape rebalancing left behind, not on the successor/predecessor choice Tree_Rem makes for a node with two children *)
Theorem tree_history_independent : forall (K V : Type) (cmp : K -> K -> comparison) (us1 us2 : bool -> bool -> bool),
  total_order cmp -> forall ops1 ops2 : list (op K V),
  spec_run K V cmp ops1 [] = spec_run K V cmp ops2 [] ->
  let t1 := t_run K V cmp us1 ops1 (t_empty K V) in
  let t2 := t_run K V cmp us2 ops2 (t_empty K V) in
  nitems K V t1 = nitems K V t2 /\
  iter_forward K V t1 = iter_forward K V t2 /\
  iter_backward K V t1 = iter_backward K V t2 /\
  (forall k, lookup K V cmp (root K V t1) k = lookup K V cmp (root K V t2) k).
Proof.
  intros K V cmp us1 us2 TO ops1 ops2 E. cbv zeta.
  destruct (tree_history_observations K V cmp us1 TO ops1) as (A1 & A2 & A3 & _ & A5 & _).
  destruct (tree_history_observations K V cmp us2 TO ops2) as (B1 & B2 & B3 & _ & B5 & _).
  rewrite <- E in B1, B2, B3, B5. repeat split; congruence.
Qed.
Print Assumptions tree_history_independent.

(* "lookups, insertions and removals stay logarithmic": the descent of Tree_Get/Mem/Set/Rem in a valid tree visits at
   most 2*log2(len+1) nodes (integer form); Tree_Set_Fix / Tree_Rem_Fix recurse on the path this descent leaves *)
Theorem tree_search_depth : forall (K V : Type) (cmp : K -> K -> comparison)
  (t : rbt K V) (k : K) (x : tree K V) (p : path K V), rb_inv K V cmp t ->
    descend K V cmp (root K V t) k [] = (x, p) -> 2 ^ length p <= (nitems K V t + 1) ^ 2.
Proof.
  intros K V cmp t k x p (Hs & Hb & Hn) Hd. rewrite Hn. unfold abs. rewrite <- size_inorder.
  eapply rb_search_depth; eauto.
Qed.
Print Assumptions tree_search_depth.

(* Tree_Iter_Init/Last test emptiness by `nitems is 0`; `root is NULL` is the same test on every valid tree *)
Theorem tree_empty_tests_agree : forall (K V : Type) (cmp : K -> K -> comparison) (t : rbt K V),
  rb_inv K V cmp t -> (nitems K V t = 0 <-> root K V t = E).
Proof.
  intros K V cmp t (Hs & Hb & Hn). rewrite Hn. unfold abs. rewrite <- size_inorder.
  destruct (root K V t); simpl; split; auto; discriminate.
Qed.
Print Assumptions tree_empty_tests_agree.

(* height bound from the red-black shape alone *)
Theorem tree_height_bound : forall (K V : Type) (t : tree K V),
  rb_tree K V t -> 2 ^ height K V t <= (size K V t + 1) ^ 2.
Proof. exact rb_height_bound. Qed.
Print Assumptions tree_height_bound.

(* the fix-up loops leave the in-order list unchanged (list equations, independent of colours) *)
Theorem tree_set_fix_inorder : forall (K V : Type) (p : path K V) (t r : tree K V),
  set_fix K V t p = Ok r -> inorder K V r = pl K V p ++ inorder K V t ++ pr K V p.
Proof. exact set_fix_inorder. Qed.
Print Assumptions tree_set_fix_inorder.

Theorem tree_rem_fix_inorder : forall (K V : Type) (p : path K V) (t r : tree K V),
  rem_fix K V t p = Ok r -> inorder K V r = pl K V p ++ inorder K V t ++ pr K V p.
Proof. exact rem_fix_inorder. Qed.
Print Assumptions tree_rem_fix_inorder.

(* Tree_Rem_Fix(node) runs while the node is still in the tree and the child is spliced in afterwards; the model puts the
   child into the focus first.  Justification: the repair only rebuilds the context — its result is the focus plugged into
   a path that does not depend on the focus (or it crashes for every focus) *)
Theorem tree_rem_fix_opaque : forall (K V : Type) (p : path K V),
  (exists q, forall t, rem_fix K V t p = Ok (plug K V t q)) \/ (forall t, rem_fix K V t p = Crash).
Proof.
  intros K V p. destruct (rem_fix_ctx K V p) as [(q & H)|H]; [left; exists q; intros t; apply H | right; exact H].
Qed.
Print Assumptions tree_rem_fix_opaque.

(* the double-black repair on an opaque focus of black height n in a context expecting n+1 never takes a
   Crash branch and yields a tree with equal black heights whose root is black (unless it is the focus itself) *)
Theorem tree_rem_fix_valid : forall (K V : Type) (p : path K V) (t : tree K V) (n : nat),
  rbh K V t n -> pinv K V p (S n) ->
  exists r m, rem_fix K V t p = Ok r /\ rbh K V r m /\
              (color_of K V t = Black \/ p <> [] -> color_of K V r = Black).
Proof. exact rem_fix_valid. Qed.
Print Assumptions tree_rem_fix_valid.

(* the key orders of the two instances used by the check are total orders:
   Int keys (Int_Cmp on int64 values) and String keys (strcmp = lexicographic on unsigned bytes) *)
Theorem tree_int_keys_total_order : total_order int_cmp.
Proof. exact int_cmp_total. Qed.
Print Assumptions tree_int_keys_total_order.

Theorem tree_string_keys_total_order : total_order bytes_cmp.
Proof. exact bytes_cmp_total. Qed.
Print Assumptions tree_string_keys_total_order.

(* the rules of src/Tree.c that the model hard-codes (orientation of the descent, colour of a new node, end at which
   iteration starts, Tree_Maximum/Tree_Minimum walk right/left), re-extracted from the working tree on every run (tools/genx_tree.py) *)
Theorem tree_source_rules_as_modelled :
  tree_search_left_when = Lt /\ tree_set_left_when = Lt /\ tree_new_node_red = true /\
  tree_iter_from_left = true /\ tree_donor_helpers_ok = true.
Proof. exact source_rules_as_modelled. Qed.
Print Assumptions tree_source_rules_as_modelled.

(* a history with recolourings, inner and outer rotations, removal of a node with two children (predecessor
   copy), of the root, of black leaves (double-black repair), a copy, draining and refilling: the model
   computes these outcomes and this final tree, and the final tree satisfies rb_inv's shape part *)
Definition pred_only (_ _ : bool) := false.        (* the pinned tree: always the predecessor *)
Definition ex_ops : list (op Z Z) :=
  [TSet Z Z 1 10; TSet Z Z 2 20; TSet Z Z 3 30; TSet Z Z 4 40; TSet Z Z 5 50; TSet Z Z 6 60; TSet Z Z 7 70; TSet Z Z 8 80;
   TSet Z Z 0 5; TSet Z Z 3 33; TGet Z Z 3; TGet Z Z 9; TMem Z Z 4; TRem Z Z 4; TRem Z Z 9; TRem Z Z 1; TRem Z Z 6; TCopy Z Z; TRem Z Z 2; TRem Z Z 8;
   TResize Z Z 3; TRem Z Z 0; TRem Z Z 3; TRem Z Z 5; TRem Z Z 7; TMem Z Z 7; TSet Z Z (-4294967296) 1; TSet Z Z 4294967296 2%Z]%Z.

Example tree_history_example :
  t_outs Z Z int_cmp pred_only ex_ops (t_empty Z Z) =
    [OUnit Z; OUnit Z; OUnit Z; OUnit Z; OUnit Z; OUnit Z; OUnit Z; OUnit Z; OUnit Z; OUnit Z;
     OVal Z 33%Z; ORaise Z TKeyError; OBool Z true; OUnit Z; ORaise Z TKeyError; OUnit Z; OUnit Z; OUnit Z;
     OUnit Z; OUnit Z; ORaise Z TFormatError; OUnit Z; OUnit Z; OUnit Z; OUnit Z; OBool Z false;
     OUnit Z; OUnit Z] /\
  t_run Z Z int_cmp pred_only ex_ops (t_empty Z Z) =
    mkT Z Z (T Black (T Red E 4294967296 2 E) (-4294967296) 1 E)%Z 2 /\
  root Z Z (t_run Z Z int_cmp pred_only (firstn 10 ex_ops) (t_empty Z Z)) =
    (T Black (T Red (T Black (T Red E 8 80 E) 7 70 E) 6 60 (T Black E 5 50 E)) 4 40
             (T Red (T Black E 3 33 E) 2 20 (T Black E 1 10 (T Red E 0 5 E))))%Z.
Proof. vm_compute. repeat split. Qed.

(* the invariant's hypotheses are satisfiable by a non-trivial tree (here through the theorem itself) *)
Example tree_rb_inv_example :
  rb_inv Z Z int_cmp (t_run Z Z int_cmp pred_only (firstn 10 ex_ops) (t_empty Z Z)).
Proof. exact (proj1 (tree_refines_omap Z Z int_cmp pred_only int_cmp_total (firstn 10 ex_ops))). Qed.

(* String keys (byte lists under strcmp order): prefixes, the empty string, bytes >= 0x80 *)
Definition sset (k : list N) (v : Z) := TSet (list N) Z k v.
Definition srem (k : list N) := TRem (list N) Z k.
Definition sget (k : list N) := TGet (list N) Z k.
Example tree_string_keys_example :
  let ops := [sset [97%N] 1%Z; sset [] 2%Z; sset [97%N; 97%N] 3%Z; sset [255%N] 4%Z;
              sset [128%N] 5%Z; sset [98%N] 6%Z; srem [97%N]; sget []; srem [97%N]] in
  t_outs (list N) Z bytes_cmp pred_only ops (t_empty (list N) Z) =
    [OUnit Z; OUnit Z; OUnit Z; OUnit Z; OUnit Z; OUnit Z; OUnit Z; OVal Z 2%Z; ORaise Z TKeyError] /\
  iter_forward (list N) Z (t_run (list N) Z bytes_cmp pred_only ops (t_empty (list N) Z)) =
    Ok [[255%N]; [128%N]; [98%N]; [97%N; 97%N]; []].
Proof. vm_compute. split; reflexivity. Qed.

(* the other donor rule accepted from the source (successor when it is red and the predecessor black): removing the
   root 33 of  35(B) <- 33(B) -> -15(B) with 2(R), -20(R) under -15  takes the black leaf 35 (double-black repair with a
   rotation) under the first rule and the red leaf 2 (no repair) under the second: different valid shapes, same contents *)
Definition donor_ops : list (op Z Z) :=
  [TSet Z Z 33 7; TSet Z Z (-15) 8; TSet Z Z 35 9; TSet Z Z 2 10; TSet Z Z (-20) 3; TRem Z Z 33]%Z.
Example tree_donor_rule_example :
  root Z Z (t_run Z Z int_cmp pred_only donor_ops (t_empty Z Z)) =
    (T Black (T Black E 35 9 (T Red E 2 10 E)) (-15) 8 (T Black E (-20) 3 E))%Z /\
  root Z Z (t_run Z Z int_cmp andb donor_ops (t_empty Z Z)) =
    (T Black (T Black E 35 9 E) 2 10 (T Black E (-15) 8 (T Red E (-20) 3 E)))%Z /\
  rb_inv Z Z int_cmp (t_run Z Z int_cmp andb donor_ops (t_empty Z Z)).
Proof.
  split; [vm_compute; reflexivity|]. split; [vm_compute; reflexivity|].
  exact (proj1 (tree_refines_omap Z Z int_cmp andb int_cmp_total donor_ops)).
Qed.
