(* Properties_C07.v — property C07: try / catch / throw follow block structure.
   Each statement is followed by Print Assumptions.  The inductions and case analyses are in
   ExnProofs.v and ExnTie.v (stated over the depth bound and the flags); the proofs here put in the
   values re-read from the source, combine those theorems, or evaluate a witness.
   mach = mrun exc_max_depth clear_active_on_catch throw_records_obj_after_format try_keeps_obj: the
   machine (struct Exception + the C functions of src/Exception.c + the expansion of the try/catch/
   throw macros) with all four parameters re-read from the working tree; ref_run d c = structured big-step semantics of the same program tree at
   nesting level d, started with message c in the record (the message register is threaded because
   a throw with the empty format keeps the previous message); objects are identities, kind_of o is
   the eq-class exception_catch matches by. *)
From CelloV Require Import Generated Exn ExnProofs ExnTie.
From Coq Require Import List.
Import ListNotations.

(* For every program tree and every machine state whose depth leaves room for the tree's nesting:
   same observations (statements executed, handlers entered with the bound object and message,
   depth at each), depth and jump-buffer stack restored; normal end leaves [active] clear; a raise
   leaves the thrown object/message in the record and goes to the innermost enclosing buffer, or
   kills the program (Exception_Error) when there is none. *)
Theorem exn_machine_refines_structured : forall p ret brk st,
  exits_ok ret brk p = true ->
  depth st + nesting p <= exc_max_depth ->
  let '(tr, r, st') := mach p st in
  let '(tr0, r0, c') := ref_run (depth st) (msg st) p in
  tr = tr0 /\ depth st' = depth st /\ bufs st' = bufs st /\ msg st' = c' /\
  match r0 with
  | RNormal => r = MNormal /\ (active st = false -> active st' = false)
  | RRaised k m =>
      obj st' = Some k /\ msg st' = m /\
      match bufs st with
      | [] => r = MDied (Some k) m
      | t :: _ => r = MJump t
      end
  | RExit k => r = MExit k /\ (active st = false -> active st' = false)
  end.
Proof. exact (ExnProofs.machine_refines_structured exc_max_depth try_keeps_obj). Qed.
Print Assumptions exn_machine_refines_structured.

Example exn_machine_refines_structured_nonvacuous :
  depth st_init + nesting (PTry (PSeq (PTry (PThrow 1 0 PSkip) [10] (PTick 1)) (PTick 2)) [0] (PThrow 20 3 PSkip)) <= exc_max_depth
  /\ depth (MS None 0 [1; 0] true) + nesting (nest (exc_max_depth - 2) (PThrow 0 1 PSkip)) <= exc_max_depth.
Proof. split; apply PeanoNat.Nat.leb_le; vm_compute; reflexivity. Qed.

(* A whole program on a thread's fresh record: it ends normally at depth 0 exactly when the
   structured semantics does, and otherwise dies with failure status and the diagnostic for the
   object/message the structured semantics leaves unhandled. *)
Theorem exn_whole_program : forall p, exits_ok true false p = true -> nesting p <= exc_max_depth ->
  let '(tr, r, st') := mach p st_init in
  let '(tr0, r0, c') := ref_run 0 0 p in
  tr = tr0 /\ depth st' = 0 /\
  r = match r0 with RNormal => MNormal | RRaised k m => MDied (Some k) m | RExit k => MExit k end.
Proof. exact ExnProofs.whole_program. Qed.
Print Assumptions exn_whole_program.

Example exn_whole_program_nonvacuous :
  nesting (nest exc_max_depth (PThrow 0 1 PSkip)) <= exc_max_depth
  /\ snd (fst (ref_run 0 0 (PTry (PThrow 0 1 PSkip) [10] PSkip))) = RRaised 0 1.
Proof. split; [apply PeanoNat.Nat.leb_le; vm_compute; reflexivity | reflexivity]. Qed.

(* A handled exception never fires again in an enclosing block: a try whose body ends normally
   (every exception raised in it was handled by a block inside it) never enters its handler. *)
Theorem exn_handled_not_seen_outside : forall B fs h st,
  exits_ok false false B = true ->
  depth st + S (nesting B) <= exc_max_depth ->
  snd (fst (ref_run (S (depth st)) (msg st) B)) = RNormal ->
  let '(tr, r, st') := mach (PTry B fs h) st in
  tr = fst (fst (ref_run (S (depth st)) (msg st) B)) /\ r = MNormal /\ depth st' = depth st /\ active st' = false.
Proof. exact (ExnProofs.handled_not_seen_outside exc_max_depth try_keeps_obj). Qed.
Print Assumptions exn_handled_not_seen_outside.

Example exn_handled_not_seen_outside_nonvacuous :
  depth st_init + S (nesting (PTry (PThrow 0 5 PSkip) [0] (PTick 1))) <= exc_max_depth
  /\ snd (fst (ref_run (S (depth st_init)) (msg st_init) (PTry (PThrow 0 5 PSkip) [0] (PTick 1)))) = RNormal.
Proof. split; [apply PeanoNat.Nat.leb_le; vm_compute; reflexivity | reflexivity]. Qed.

(* The structured semantics [ref_run] the theorems above compare with is the relation [eval]
   (Exn.v: one rule per way a construct can end). *)
Theorem exn_reference_is_eval : forall d c p t r c', eval d c p t r c' <-> ref_run d c p = (t, r, c').
Proof. exact ExnProofs.eval_iff_ref_run. Qed.
Print Assumptions exn_reference_is_eval.

Theorem exn_machine_follows_eval : forall p ret brk st t r0 c',
  exits_ok ret brk p = true ->
  depth st + nesting p <= exc_max_depth ->
  eval (depth st) (msg st) p t r0 c' ->
  let '(tr, r, st') := mach p st in
  tr = t /\ depth st' = depth st /\ msg st' = c' /\
  match r0 with
  | RNormal => r = MNormal
  | RRaised k m => obj st' = Some k /\ msg st' = m /\
                   match bufs st with [] => r = MDied (Some k) m | b :: _ => r = MJump b end
  | RExit k => r = MExit k
  end.
Proof.
  intros p ret brk st t r0 c' Hok Hb He. apply ExnProofs.eval_iff_ref_run in He.
  pose proof (exn_machine_refines_structured p ret brk st Hok Hb) as H.
  destruct (mach p st) as [[tr r] st']. rewrite He in H.
  destruct H as (-> & Hd & _ & Hm & Hres). repeat split; [exact Hd | exact Hm|].
  destruct r0; [apply Hres | exact Hres | apply Hres].
Qed.
Print Assumptions exn_machine_follows_eval.

Example exn_machine_follows_eval_nonvacuous :
  depth st_init + nesting (PTry (PTry (PThrow 2 5 PSkip) [10] (PTick 1)) [0; 20] (PTick 2)) <= exc_max_depth /\
  eval (depth st_init) (msg st_init) (PTry (PTry (PThrow 2 5 PSkip) [10] (PTick 1)) [0; 20] (PTick 2)) [EHandler 2 5 0; ETick 2 0] RNormal 5.
Proof. split; [apply PeanoNat.Nat.leb_le; vm_compute; reflexivity | apply ExnProofs.eval_iff_ref_run; reflexivity]. Qed.

(* "A handler runs if and only if an exception raised in its own try body was not already handled
   by an inner block and matches its filter (an empty filter matches everything)"; accepts fs o =
   the filter is empty or one of its entries is `eq` to o (same kind); when it runs it
   is entered once, with the escaped exception bound, and the block ends as the handler ends. *)
Theorem exn_handler_runs_iff : forall d c b fs h t r c',
  eval d c (PTry b fs h) t r c' ->
  forall t1 r1 c1, eval (S d) c b t1 r1 c1 ->
  ((exists k m, r1 = RRaised k m /\ accepts fs k) <->
   (exists k m t2, t = t1 ++ EHandler k m d :: t2)) /\
  (forall k m t2, t = t1 ++ EHandler k m d :: t2 ->
     r1 = RRaised k m /\ exists r2, eval d c1 h t2 r2 c' /\ r = rhandler_end r2).
Proof. exact ExnProofs.handler_runs_iff. Qed.
Print Assumptions exn_handler_runs_iff.

Example exn_handler_runs_iff_nonvacuous :
  eval 0 4 (PTry (PThrow 11 0 PSkip) [0; 10] (PTick 3)) [EHandler 11 4 0; ETick 3 0] RNormal 4 /\
  eval 1 4 (PThrow 11 0 PSkip) [] (RRaised 11 4) 4.
Proof. split; apply ExnProofs.eval_iff_ref_run; reflexivity. Qed.

(* "A non-matching exception continues to the nearest enclosing matching handler": p raises k inside
   blocks pre (innermost first) none of which accepts k, inside a block that does, inside anything:
   none of the skipped handlers runs, the accepting one is entered with k at its own depth. *)
Theorem exn_nearest_matching_handler : forall pre fs h p ret brk st t1 k m c1,
  exits_ok ret brk (chain (pre ++ [(fs, h)]) p) = true ->
  depth st + nesting (chain (pre ++ [(fs, h)]) p) <= exc_max_depth ->
  ref_run (S (length pre + depth st)) (msg st) p = (t1, RRaised k m, c1) ->
  Forall (fun lv => rejects (fst lv) k) pre ->
  accepts fs k ->
  let '(tr, r, st') := mach (chain (pre ++ [(fs, h)]) p) st in
  let '(t2, r2, c2) := ref_run (depth st) c1 h in
  tr = t1 ++ EHandler k m (depth st) :: t2 /\ depth st' = depth st /\
  (r2 = RNormal -> r = MNormal).
Proof.
  intros pre fs h p ret brk st t1 k m c1 Hok Hb Hp Hall Hm.
  pose proof (exn_machine_refines_structured _ ret brk st Hok Hb) as H.
  rewrite (ExnProofs.nearest_matching_handler pre fs h p _ _ t1 k m c1 Hp Hall Hm) in H.
  destruct (mach _ st) as [[tr r] st'], (ref_run (depth st) c1 h) as [[t2 r2] c2].
  destruct H as (-> & Hd & _ & _ & Hres). repeat split; [exact Hd|]. intros ->. apply Hres.
Qed.
Print Assumptions exn_nearest_matching_handler.

Example exn_nearest_matching_handler_nonvacuous :
  depth st_init + nesting (chain ([([10], PTick 1); ([20; 31], PTick 2)] ++ [([1], PTick 3)]) (PThrow 0 9 PSkip)) <= exc_max_depth /\
  ref_run (S (length [([10], PTick 1); ([20; 31], PTick 2)] + depth st_init)) (msg st_init) (PThrow 0 9 PSkip) = ([], RRaised 0 9, 9) /\
  Forall (fun lv : list nat * prog => rejects (fst lv) 0) [([10], PTick 1); ([20; 31], PTick 2)].
Proof.
  split; [apply PeanoNat.Nat.leb_le; vm_compute; reflexivity|]. split; [reflexivity|].
  repeat (apply Forall_cons; [apply ExnProofs.matches_false_spec; reflexivity|]). apply Forall_nil.
Qed.

(* "... and one that nobody handles terminates the program with a failure status and a diagnostic" *)
Theorem exn_nobody_matches_dies : forall pre p t1 k m c1,
  exits_ok true false (chain pre p) = true ->
  nesting (chain pre p) <= exc_max_depth ->
  ref_run (length pre) 0 p = (t1, RRaised k m, c1) ->
  Forall (fun lv => rejects (fst lv) k) pre ->
  let '(tr, r, st') := mach (chain pre p) st_init in
  tr = t1 /\ r = MDied (Some k) m /\ depth st' = 0.
Proof.
  intros pre p t1 k m c1 Hok Hb Hp Hall.
  pose proof (ExnProofs.whole_program _ Hok Hb) as H. rewrite <- (PeanoNat.Nat.add_0_r (length pre)) in Hp.
  rewrite (ExnProofs.passes_through pre p 0 0 t1 k m c1 Hp Hall) in H.
  destruct (mach (chain pre p) st_init) as [[tr r] st']. tauto.
Qed.
Print Assumptions exn_nobody_matches_dies.

Example exn_nobody_matches_dies_nonvacuous :
  nesting (chain [([10], PTick 1); ([20; 31], PTick 2)] (PSeq (PTick 5) (PThrow 0 9 PSkip))) <= exc_max_depth /\
  ref_run (length [([10], PTick 1); ([20; 31], PTick 2)]) 0 (PSeq (PTick 5) (PThrow 0 9 PSkip)) = ([ETick 5 2], RRaised 0 9, 9).
Proof. split; [apply PeanoNat.Nat.leb_le; vm_compute; reflexivity | reflexivity]. Qed.

(* "The object bound in the handler is the one that was thrown" — by IDENTITY: also when an object
   that is `eq` to it (o1, same kind as o2 for instance) was thrown and handled just before and is
   still held in the record, with any formats (message 0 = the empty format, which leaves the
   record's message as it is: set_msg). *)
Theorem exn_bound_object_is_thrown_identity : forall o1 o2 m1 m2 fs,
  accepts fs o2 ->
  fst (mach (PSeq (PTry (PThrow o1 m1 PSkip) [] PSkip) (PTry (PThrow o2 m2 PSkip) fs PSkip)) st_init)
  = ([EHandler o1 (set_msg m1 0) 0; EHandler o2 (set_msg m2 (set_msg m1 0)) 0], MNormal).
Proof.
  intros o1 o2 m1 m2 fs Hacc. apply ExnProofs.matches_spec in Hacc.
  pose proof (ExnProofs.whole_program (PSeq (PTry (PThrow o1 m1 PSkip) [] PSkip) (PTry (PThrow o2 m2 PSkip) fs PSkip)) eq_refl) as H.
  cbn [ref_run matches app rfn_end rhandler_end] in H. rewrite Hacc in H.
  destruct (mach _ st_init) as [[tr r] st'].
  destruct H as (-> & _ & ->); [apply PeanoNat.Nat.leb_le; reflexivity | reflexivity].
Qed.
Print Assumptions exn_bound_object_is_thrown_identity.

Example exn_bound_object_is_thrown_identity_nonvacuous :
  accepts [0] 1 /\ 0 <> 1 /\ kind_of 0 = kind_of 1.
Proof. split; [right; exists 0; split; [now left | reflexivity] | split; [discriminate | reflexivity]]. Qed.

(* ... also when the handler that handled it is LEFT EARLY, by break, by continue, or by return from the
   function the inner block stands in (early k o m): the enclosing handler stays out, the flag is clear.
   exits_ok says where break / continue / return may stand: never so as to leave a try BODY (that skips
   exception_try_end — the misuse the library's documentation warns of). *)
Theorem exn_early_exit_not_seen_outside : forall k o m fs' h' st,
  depth st + 2 <= exc_max_depth ->
  let '(tr, r, st') := mach (PTry (PSeq (early k o m) (PTick 2)) fs' h') st in
  tr = [EHandler o (set_msg m (msg st)) (S (depth st)); ETick 1 (S (depth st)); ETick 2 (S (depth st))]
  /\ r = MNormal /\ depth st' = depth st /\ active st' = false.
Proof.
  intros k o m fs' h' st Hb.
  pose proof (exn_handled_not_seen_outside (PSeq (early k o m) (PTick 2)) fs' h' st) as H.
  destruct k; exact (H eq_refl Hb eq_refl).
Qed.
Print Assumptions exn_early_exit_not_seen_outside.

Example exn_early_exit_not_seen_outside_nonvacuous : depth st_init + 2 <= exc_max_depth.
Proof. apply PeanoNat.Nat.leb_le; vm_compute; reflexivity. Qed.

(* The nesting bound of the theorems is the real one: one more try aborts. *)
Theorem exn_overflow_aborts : forall b fs h st,
  depth st = exc_max_depth -> mach (PTry b fs h) st = ([], MAbort, st).
Proof.
  intros b fs h st Hd. unfold mach. cbn [mrun]. unfold exception_try. now rewrite Hd, PeanoNat.Nat.eqb_refl.
Qed.
Print Assumptions exn_overflow_aborts.

(* D3: the pinned code (exception_catch never clears [active]) does not follow block structure. *)
Theorem exn_unrepaired_refuted :
  exists p, nesting p <= exc_max_depth /\
    fst (fst (mrun exc_max_depth false true true p st_init)) <> fst (fst (ref_run 0 0 p)).
Proof.
  exists (PTry (PTry (PThrow 0 5 PSkip) [0] (PTick 1)) [] (PTick 2)).
  split; [apply PeanoNat.Nat.leb_le; vm_compute; reflexivity | vm_compute; discriminate].
Qed.
Print Assumptions exn_unrepaired_refuted.

Theorem exn_unrepaired_refuted_dies :
  exists p, nesting p <= exc_max_depth /\ snd (fst (ref_run 0 0 p)) = RNormal /\
    snd (fst (mrun exc_max_depth false true true p st_init)) = MDied (Some 0) 5.
Proof.
  exists (PSeq (PTry (PTry (PThrow 0 5 PSkip) [0] (PTick 1)) [10] (PTick 2)) (PTick 3)).
  split; [apply PeanoNat.Nat.leb_le; vm_compute; reflexivity | split; vm_compute; reflexivity].
Qed.
Print Assumptions exn_unrepaired_refuted_dies.

(* Third repaired defect: a throw whose message arguments are shown by Show methods that run try/catch
   blocks (PThrow o m f: f runs while the message is formatted).  The pinned exception_throw stored the
   object before formatting: an exception thrown and handled inside f replaced it ... *)
Theorem exn_obj_before_format_refuted :
  nesting fmt_witness <= exc_max_depth /\
  ref_run 0 0 fmt_witness = ([EHandler 10 7 1; EHandler 0 5 0; ETick 1 0], RNormal, 5) /\
  fst (mrun exc_max_depth true false true fmt_witness st_init) = ([EHandler 10 7 1], MDied (Some 10) 5).
Proof. split; [apply PeanoNat.Nat.leb_le; vm_compute; reflexivity | split; vm_compute; reflexivity]. Qed.
Print Assumptions exn_obj_before_format_refuted.

(* ... and, with that order, an exception_try that clears e->obj loses the object as
   soon as f enters a try block; with the repaired order it does not matter (the theorems above hold
   for mach whatever Generated.try_keeps_obj is: the refinement is proved for both values). *)
Theorem exn_try_clearing_obj_refuted_for_old_order :
  ref_run 0 0 fmt_witness_quiet = ([EHandler 0 5 0; ETick 1 0], RNormal, 5) /\
  fst (mrun exc_max_depth true false false fmt_witness_quiet st_init) = ([], MNormal) /\
  fst (mrun exc_max_depth true true false fmt_witness_quiet st_init) = ([EHandler 0 5 0; ETick 1 0], MNormal).
Proof. repeat split; vm_compute; reflexivity. Qed.
Print Assumptions exn_try_clearing_obj_refuted_for_old_order.

(* Second repaired defect: the pinned exception_catch walked the filter with foreach, whose cursor
   is the current element.  On filter SETS that walk decides exactly [matches] (so the repair changes
   nothing there); on a filter naming an object twice it never finishes. *)
Theorem exn_foreach_walk_agrees_on_sets : forall fs k fuel,
  NoDup fs -> fs <> [] -> length fs + 1 <= fuel ->
  foreach_matches fuel fs (hd_error fs) k = Some (matches fs k).
Proof.
  intros fs k fuel Hnd Hne Hf. destruct fs as [|c post]; [contradiction|].
  cbn [hd_error matches]. apply (ExnProofs.foreach_from k post [] c fuel Hnd). cbn [length] in Hf. Lia.lia.
Qed.
Print Assumptions exn_foreach_walk_agrees_on_sets.

Example exn_foreach_walk_agrees_on_sets_nonvacuous :
  NoDup [2; 0; 3] /\ [2; 0; 3] <> [] /\ length [2; 0; 3] + 1 <= 4.
Proof. split; [repeat constructor; cbn; intuition discriminate | split; [discriminate | apply le_n]]. Qed.

Theorem exn_foreach_walk_refuted : forall fuel,
  foreach_matches fuel [0; 0] (hd_error [0; 0]) 10 = None.
Proof. exact ExnProofs.foreach_diverges_on_duplicate. Qed.
Print Assumptions exn_foreach_walk_refuted.

(* Ties to the source text (Generated.v is rewritten from the working tree on every check). *)
Theorem exn_repair_in_source : clear_active_on_catch = true.
Proof. reflexivity. Qed.
Print Assumptions exn_repair_in_source.

Theorem exn_obj_stored_after_format_in_source : throw_records_obj_after_format = true.
Proof. reflexivity. Qed.
Print Assumptions exn_obj_stored_after_format_in_source.

(* Every exception kind the library defines is a Type object named like its own variable, and no
   two kinds share a name: kinds are pairwise distinct under eq (Type objects compare by name), so a
   filter naming one kind never accepts another. *)
Theorem exn_kinds_named_and_distinct :
  Forall (fun p => fst p = snd p) exn_kind_defs /\ NoDup (map snd exn_kind_defs).
Proof. exact (ExnProofs.kinds_ok_dec exn_kind_defs). Qed.
Print Assumptions exn_kinds_named_and_distinct.

Theorem exn_macro_shapes :
  Forall (fun p => fst p = snd p)
    [(exn_macro_try, expected_macro_try); (exn_macro_catch, expected_macro_catch);
     (exn_macro_catch_in, expected_macro_catch_in); (exn_macro_throw, expected_macro_throw)].
Proof. exact (ExnProofs.strings_equal_dec
    [(exn_macro_try, expected_macro_try); (exn_macro_catch, expected_macro_catch);
     (exn_macro_catch_in, expected_macro_catch_in); (exn_macro_throw, expected_macro_throw)]). Qed.
Print Assumptions exn_macro_shapes.

(* The five state-changing C functions (exception_try, exception_try_end, exception_try_fail,
   exception_throw, exception_catch; Exception_Len and Exception_Buffer inlined) are TRANSLATED by
   tools/exn_symex.py into state transformers over the C view of the record (Generated.ExnTr); each
   simulates the machine's function through abs (stack = buffers[depth-1] .. buffers[0]), on every C
   state that satisfies the record's invariant minv.  Statement order, temporaries, helper functions
   and index arithmetic of the C text are free; its effect is not.  The flags of the machine
   (clear_active_on_catch, throw_records_obj_after_format, try_keeps_obj) are read off the translation
   on probe states; these theorems check them on all states. *)
Theorem exn_tie_try : forall env s,
  minv exc_max_depth (abs s) ->
  sim (ExnTr.tr_exception_try env s) (m_try exc_max_depth try_keeps_obj env (abs s)).
Proof. exact ExnTie.tie_try. Qed.
Print Assumptions exn_tie_try.

Theorem exn_tie_try_end : forall s,
  minv exc_max_depth (abs s) -> sim (ExnTr.tr_exception_try_end s) (m_try_end (abs s)).
Proof. exact ExnTie.tie_try_end. Qed.
Print Assumptions exn_tie_try_end.

Theorem exn_tie_try_fail : forall s,
  minv exc_max_depth (abs s) -> 1 <= ExnTr.c_depth s ->
  sim (ExnTr.tr_exception_try_fail s) (m_try_fail (abs s)).
Proof. exact ExnTie.tie_try_fail. Qed.
Print Assumptions exn_tie_try_fail.

Theorem exn_tie_catch : forall istuple fs s,
  minv exc_max_depth (abs s) ->
  sim (ExnTr.tr_exception_catch (fun f o => Nat.eqb (kind_of f) (kind_of o)) istuple fs s)
      (m_catch clear_active_on_catch fs (abs s)).
Proof. exact ExnTie.tie_catch. Qed.
Print Assumptions exn_tie_catch.

Theorem exn_tie_throw : forall o m s,
  minv exc_max_depth (abs s) ->
  sim (ExnTr.tr_exception_throw (set_msg m) o s) (m_throw throw_records_obj_after_format o m (abs s)).
Proof. exact ExnTie.tie_throw. Qed.
Print Assumptions exn_tie_throw.

(* The hypotheses of the tie theorems hold wherever the machine applies a function: every state it
   produces satisfies the record's invariant minv (depth within the array, live slots not NULL), and
   a jump in flight carries the state it started from, so exception_try_fail — reached only when a
   jump lands — runs with a buffer on the stack. *)
Theorem exn_machine_stays_in_domain : forall max clr oaf tko p st tr r st',
  minv max st -> mrun max clr oaf tko p st = (tr, r, st') -> minv max st'.
Proof. intros max clr oaf tko p st tr r st' H E. now apply (ExnTie.mrun_wf max clr oaf tko _ _ _ _ _ E). Qed.
Print Assumptions exn_machine_stays_in_domain.

Theorem exn_jump_carries_its_buffer : forall max clr oaf tko p st tr t s,
  mrun max clr oaf tko p st = (tr, MJump t, s) -> exists b, bufs s = t :: b.
Proof. intros max clr oaf tko p st tr t s E. now apply (ExnTie.mrun_wf max clr oaf tko _ _ _ _ _ E). Qed.
Print Assumptions exn_jump_carries_its_buffer.

Example exn_tie_domain_nonvacuous : minv exc_max_depth st_init /\ minv exc_max_depth (MS (Some 3) 1 [2; 1] true).
Proof. split; (split; [apply PeanoNat.Nat.leb_le; vm_compute; reflexivity | repeat constructor; discriminate]). Qed.

(* Exception_Error (the model's MDied): output calls that report "Uncaught <obj>" and the message on
   stderr, then exit(EXIT_FAILURE) — checked by tools/genx_exn.py on the parsed statements *)
Theorem exn_error_reports_and_exits_in_source : exn_error_reports_and_exits = true.
Proof. exact (eq_refl true). Qed.
Print Assumptions exn_error_reports_and_exits_in_source.

(* the signal table (Exception_Signal: which signal throws which kind with which text) stays tied by text *)
Theorem exn_source_shapes :
  Forall (fun p => fst p = snd p) [(exn_src_signal, expected_src_signal)].
Proof. exact (ExnProofs.strings_equal_dec [(exn_src_signal, expected_src_signal)]). Qed.
Print Assumptions exn_source_shapes.
