(* FormatProofs.v — proofs about the print-formatting model Format.v (property C14).
   The scanner is followed through [reads fmt i suf] (from index i on the text reads suf), which moves along the
   text without re-associating lists; printing is executing the tokens the scanner cuts (print_loop_scan); the
   conversion dispatch is a fold over its arms (exec_arms), of which a table says the one a conversion character
   fires (std_convs_arm); one equation for exec on the token of an item (exec_item) then yields the whole final
   state by one induction (run_items_spec). *)
From Coq Require Import List Arith Bool Lia.
From CelloV Require Import Generated Format.
Import ListNotations.

(* every conversion character named by the property is recognised by the scanner's strchr set *)
Lemma std_convs_recognised : forallb (fun c => memb c print_convs) std_convs = true.
Proof. vm_compute. reflexivity. Qed.

(* characters that may stand between '%' and the conversion character *)
Definition mid_chars : list byte := flag_chars ++ digit_chars ++ [46] ++ concat length_mods.

(* none of them ends a specification, none is '%' *)
Lemma mid_chars_pass :
  forallb (fun m => negb (strchr_hit print_convs m) && negb (m =? PCT)) mid_chars = true.
Proof. vm_compute. reflexivity. Qed.

Lemma std_convs_stop :
  forallb (fun c => strchr_hit print_convs c && negb (c =? 0) && negb (c =? PCT)) (DOLLAR :: std_convs) = true.
Proof. vm_compute. reflexivity. Qed.

(* the arms of the conversion dispatch of print_to_with in the order they are executed, each with its test;
   None is the show_to arm *)
Definition arms (c : byte) : list (bool * option ckind) :=
  [(c =? DOLLAR, None); (c =? CH_s, Some KStr); (arm_hit print_int_convs c, Some KInt);
   (arm_hit print_float_convs c, Some KFloat); (c =? CH_c, Some KInt); (c =? CH_p, Some KPtr)].

(* for each of the seventeen characters exactly one test holds, that of the arm with its conv_kind
   (map_ext_in_iff: a statement for every c of a list is one equation between two maps over it, which evaluation decides) *)
Lemma std_convs_arm : forall c, In c std_convs -> filter fst (arms c) = [(true, Some (conv_kind c))].
Proof. apply map_ext_in_iff. vm_compute. reflexivity. Qed.

Lemma pct_skip_is_2 : print_pct_skip = 2.
Proof. reflexivity. Qed.

(* admissible piece-buffer parameters: the heap size is at least strlen+1, and the stack array is chosen only
   when strlen+1 fits (any EXTRA >= 1 and any TEST >= 1 will do; decided on the generated values) *)
Lemma buf_params_admissible : (1 <=? print_buf_extra) && (1 <=? print_buf_stack_test) = true.
Proof. vm_compute. reflexivity. Qed.

Lemma buf_params : 1 <= print_buf_extra /\ 1 <= print_buf_stack_test.
Proof. rewrite <- !Nat.leb_le, <- andb_true_iff. exact buf_params_admissible. Qed.

(* ... hence the buffer always has room for the whole format text and a NUL, for EVERY format text *)
Lemma bufsize_gt : forall fmt, length fmt < bufsize fmt.
Proof.
  intros fmt. pose proof buf_params. unfold bufsize.
  destruct (Nat.leb_spec (length fmt + print_buf_stack_test) print_buf_stack_cap); lia.
Qed.

(* the bound check of the piece buffer is live: a write at or behind its capacity is refused *)
Lemma buf_put_refuses : forall fmt start n, bufsize fmt <= n -> buf_put fmt start n = None.
Proof.
  intros fmt start n H. unfold buf_put.
  destruct (Nat.ltb_spec n (bufsize fmt)); [lia|]. rewrite andb_false_r. reflexivity.
Qed.

(* String_Format_To may let the measuring vsnprintf write into a stack buffer of string_fmt_stack_cap bytes and
   take the text from there when size < string_fmt_stack_limit (both 0 when there is no such buffer).
   vsnprintf(buf, cap, ..) has written the complete text and its NUL exactly when size + 1 <= cap, so the
   shortcut yields the bytes a second rendering would yield iff limit <= cap - decided here on the
   generated values, for every size. *)
Lemma stack_limit_le_cap : string_fmt_stack_limit <=? string_fmt_stack_cap = true.
Proof. vm_compute. reflexivity. Qed.

Lemma stack_buffer_holds_text : forall size,
  size < string_fmt_stack_limit -> size + string_fmt_room <= string_fmt_stack_cap.
Proof.
  intros size H. pose proof stack_limit_le_cap as L. apply Nat.leb_le in L.
  replace string_fmt_room with 1 by reflexivity. lia.
Qed.

Lemma memb_In : forall c l, memb c l = true <-> In c l.
Proof.
  intros c l. unfold memb. rewrite existsb_exists. split.
  - intros [x [Hin He]]. apply Nat.eqb_eq in He. subst. exact Hin.
  - intros H. exists c. split; [exact H | apply Nat.eqb_refl].
Qed.

Lemma all_in_In : forall l set c, all_in l set = true -> In c l -> In c set.
Proof.
  intros l set c H Hc. unfold all_in in H. rewrite forallb_forall in H. apply memb_In, H, Hc.
Qed.

Lemma list_eqb_eq : forall a b, list_eqb a b = true -> a = b.
Proof.
  induction a as [|x a IH]; intros [|y b] H; unfold list_eqb in H; simpl in H; try discriminate; try reflexivity.
  apply andb_prop in H. destruct H as [Hl Hf].
  apply andb_prop in Hf. destruct Hf as [Hxy Hf].
  apply Nat.eqb_eq in Hxy. subst. f_equal. apply IH. unfold list_eqb. rewrite Hl, Hf. reflexivity.
Qed.

Lemma cstr_app : forall l r, Forall (fun c => c <> 0) l -> cstr (l ++ r) = l ++ cstr r.
Proof.
  induction l as [|c l IH]; intros r H; simpl; [reflexivity|].
  inversion H; subst. destruct (Nat.eqb_spec c 0); [contradiction|]. f_equal. apply IH. assumption.
Qed.

Lemma cstr_id : forall l, Forall (fun c => c <> 0) l -> forall r, cstr (l ++ 0 :: r) = l.
Proof. intros l H r. rewrite cstr_app by exact H. apply app_nil_r. Qed.

(* a character that does not stop a loop is not the terminator *)
Lemma nohit_nonzero : forall convs m, strchr_hit convs m = false -> m <> 0.
Proof. intros convs m H E. subst. discriminate H. Qed.

Lemma rd_shift : forall pre suf k, rd (pre ++ suf) (length pre + k) = rd suf k.
Proof. induction pre as [|c pre IH]; intros suf k; [reflexivity | apply IH]. Qed.

Lemma rd_some_le : forall fmt i c, rd fmt i = Some c -> i <= length fmt.
Proof.
  intros fmt i c. unfold rd.
  destruct (Nat.ltb_spec i (length fmt)); [lia|].
  destruct (Nat.eqb_spec i (length fmt)); [lia|discriminate].
Qed.

Lemma rd_beyond : forall fmt i, length fmt < i -> rd fmt i = None.
Proof.
  intros fmt i H. destruct (rd fmt i) eqn:E; [|reflexivity]. apply rd_some_le in E. lia.
Qed.

(* from index i on, the text reads suf and then its NUL *)
Definition reads (fmt : list byte) (i : nat) (suf : list byte) : Prop := forall k, rd fmt (i + k) = rd suf k.

Lemma reads_app : forall pre suf, reads (pre ++ suf) (length pre) suf.
Proof. intros pre suf k. apply rd_shift. Qed.

Lemma reads_hd {fmt i suf} : reads fmt i suf -> rd fmt i = Some (hd 0 suf).
Proof. intros H. specialize (H 0). rewrite Nat.add_0_r in H. rewrite H. destruct suf; reflexivity. Qed.

Lemma reads_tl {fmt i c suf} : reads fmt i (c :: suf) -> reads fmt (S i) suf.
Proof. intros H k. rewrite Nat.add_succ_comm. exact (H (S k)). Qed.

Lemma reads_skip {fmt i a b} : reads fmt i (a ++ b) -> reads fmt (i + length a) b.
Proof. intros H k. rewrite <- Nat.add_assoc, H. apply rd_shift. Qed.

(* the literal loop is the specification loop with '%' as its only stop character *)
Lemma skip_lit_spec : forall fmt fuel i, skip_lit fmt i fuel = skip_spec [PCT] fmt i fuel.
Proof.
  intros fmt. induction fuel as [|f IH]; intros i; [reflexivity|].
  simpl. destruct (rd fmt i) as [c|]; [|reflexivity].
  rewrite IH. unfold strchr_hit, memb. simpl. rewrite orb_false_r. reflexivity.
Qed.

(* the loop passes over mid and stops at what follows: a stop character, or the NUL at the end of the text *)
Lemma skip_spec_run {convs mid rest fmt i fuel} :
  reads fmt i (mid ++ rest) -> Forall (fun m => strchr_hit convs m = false) mid ->
  strchr_hit convs (hd 0 rest) = true -> length fmt < i + fuel ->
  skip_spec convs fmt i fuel = Ok (i + length mid).
Proof.
  revert rest fmt i fuel. induction mid as [|m mid IH]; intros rest fmt i fuel R Hm Hc Hf;
    pose proof (reads_hd R) as E; pose proof (rd_some_le _ _ _ E); cbn [app hd] in E;
    (destruct fuel as [|f]; [lia|]); simpl; rewrite E.
  - rewrite Hc, Nat.add_0_r. reflexivity.
  - inversion Hm as [|? ? Hm0 Hm']; subst. rewrite Hm0.
    rewrite (IH rest _ (S i)); [f_equal; lia|exact (reads_tl R)|assumption|assumption|lia].
Qed.

(* results of the inner loops are readable indices not before the start; fuel runs out only when there is
   less of it than text left *)
Lemma skip_spec_total : forall convs fmt fuel i, i <= length fmt + 1 ->
  match skip_spec convs fmt i fuel with
  | Ok j => i <= j <= length fmt
  | Crash => True
  | Fuel => fuel + i <= length fmt + 1
  end.
Proof.
  intros convs fmt. induction fuel as [|f IH]; intros i Hi; [exact Hi|].
  simpl. destruct (rd fmt i) as [c|] eqn:E; [|exact I]. apply rd_some_le in E.
  destruct (strchr_hit convs c); [lia|].
  specialize (IH (S i)). destruct (skip_spec convs fmt (S i) f); lia.
Qed.

(* where the "%%" test stands, *fmt is '%': the literal run was empty and *fmt is not the terminator.
   Hence `if ( *fmt is '%' and fmt[1] is '%')` and `if (fmt[1] is '%')` are the same test there (both source
   forms are accepted by tools/fmt_shapes.py as the one [next_token]). *)
Lemma pct_guard_redundant : forall fmt i fuel c0,
  rd fmt i = Some c0 -> (c0 =? 0) = false -> skip_lit fmt i fuel = Ok i -> (c0 =? PCT) = true.
Proof.
  intros fmt i fuel c0 Hrd H0 Hs. destruct fuel as [|f]; [discriminate|].
  simpl in Hs. rewrite Hrd, H0 in Hs. cbn [orb] in Hs.
  destruct (c0 =? PCT); [reflexivity|].
  apply rd_some_le in Hrd. rewrite skip_lit_spec in Hs.
  pose proof (skip_spec_total [PCT] fmt f (S i)) as T. rewrite Hs in T. lia.
Qed.

Lemma buf_put_mid : forall pre x rest,
  Forall (fun c => c <> 0) x ->
  buf_put (pre ++ x ++ rest) (length pre) (length x) = Some x.
Proof.
  intros pre x rest Hx. unfold buf_put.
  pose proof (bufsize_gt (pre ++ x ++ rest)) as Hb. rewrite !app_length in *.
  destruct (Nat.ltb_spec (length x) (bufsize (pre ++ x ++ rest))); [|lia].
  destruct (Nat.leb_spec (length pre + length x) (length pre + (length x + length rest) + 1)); [|lia].
  cbn [andb]. f_equal.
  rewrite <- !app_assoc, skipn_app, skipn_all, Nat.sub_diag. cbn [skipn app].
  rewrite firstn_app, firstn_all, Nat.sub_diag. cbn [firstn].
  rewrite cstr_app by exact Hx. apply app_nil_r.
Qed.

Lemma scan_fuel_gt : forall fmt i, length fmt < i + scan_fuel fmt.
Proof. intros. unfold scan_fuel. lia. Qed.

Lemma next_token_lit : forall pre s rest,
  s <> [] -> Forall (fun c => strchr_hit [PCT] c = false) s -> strchr_hit [PCT] (hd 0 rest) = true ->
  next_token (pre ++ s ++ rest) (length pre) = Ok (TLit s, length pre + length s).
Proof.
  intros pre s rest Hne Hs Hr. pose proof (reads_app pre (s ++ rest)) as R.
  unfold next_token. rewrite (reads_hd R), skip_lit_spec.
  rewrite (skip_spec_run R Hs Hr (scan_fuel_gt _ _)).
  destruct s as [|c s']; [contradiction|]. change (hd 0 ((c :: s') ++ rest)) with c.
  rewrite (proj1 (orb_false_elim _ _ (Forall_inv Hs))).
  destruct (Nat.eqb_spec (length pre + length (c :: s')) (length pre)) as [E|_]; [simpl in E; lia|].
  cbn [negb]. replace (length pre + length (c :: s') - length pre) with (length (c :: s')) by lia.
  rewrite buf_put_mid; [reflexivity|].
  apply Forall_impl with (2 := Hs). apply nohit_nonzero.
Qed.

Definition passes (m : byte) : Prop := strchr_hit print_convs m = false /\ m <> PCT.

Lemma skip_lit_at_pct {fmt i tail} :
  reads fmt i (PCT :: tail) -> skip_lit fmt i (scan_fuel fmt) = Ok i.
Proof.
  intros R. rewrite skip_lit_spec, (skip_spec_run (mid := []) R); auto using scan_fuel_gt.
Qed.

Lemma next_token_pct : forall pre rest,
  next_token (pre ++ [PCT; PCT] ++ rest) (length pre) = Ok (TPct, length pre + 2).
Proof.
  intros pre rest. pose proof (reads_app pre ([PCT; PCT] ++ rest)) as R.
  unfold next_token. rewrite (reads_hd R), (skip_lit_at_pct R), Nat.eqb_refl, (R 1). reflexivity.
Qed.

Lemma next_token_spec : forall pre mid c rest,
  Forall passes mid -> strchr_hit print_convs c = true -> c <> 0 -> c <> PCT ->
  next_token (pre ++ (PCT :: mid ++ [c]) ++ rest) (length pre)
  = Ok (TSpec (PCT :: mid ++ [c]) c, length pre + length (PCT :: mid ++ [c])).
Proof.
  intros pre mid c rest Hm Hc Hc0 Hcp.
  set (fmt := pre ++ (PCT :: mid ++ [c]) ++ rest).
  assert (R : reads fmt (length pre) ((PCT :: mid) ++ c :: rest)).
  { unfold fmt. cbn [app]. rewrite <- app_assoc. apply reads_app. }
  unfold next_token.
  rewrite (reads_hd R), (skip_lit_at_pct R), (R 1). cbn [hd app]. rewrite !Nat.eqb_refl.
  cbn [negb]. cbv zeta.
  (* the character after '%' is the first of mid, or c: not a second '%' *)
  assert (E1 : exists c1, rd (PCT :: mid ++ c :: rest) 1 = Some c1 /\ c1 <> PCT).
  { destruct Hm as [|m mid' [_ Hmp] _]; eexists; (split; [reflexivity|assumption]). }
  destruct E1 as [c1 [-> Hc1]]. change (PCT =? 0) with false. cbv iota.
  destruct (Nat.eqb_spec c1 PCT); [contradiction|].
  rewrite (skip_spec_run R); [|  |exact Hc|apply scan_fuel_gt].
  2:{ constructor; [reflexivity|]. apply Forall_impl with (2 := Hm). intros a [Ha _]. exact Ha. }
  rewrite (reads_hd (reads_skip R)). cbn [hd].
  destruct (Nat.eqb_spec (length pre + length (PCT :: mid)) (length pre)) as [E|_]; [simpl in E; lia|].
  cbn [negb].
  replace (length pre + length (PCT :: mid) - length pre + 1) with (length (PCT :: mid ++ [c]))
    by (cbn [length]; rewrite last_length; lia).
  unfold fmt. rewrite buf_put_mid.
  - do 2 f_equal. cbn [length]. rewrite last_length. lia.
  - constructor; [discriminate|]. apply Forall_app. split; [|repeat constructor; exact Hc0].
    apply Forall_impl with (2 := Hm). intros a [Ha _]. exact (nohit_nonzero _ _ Ha).
Qed.

Lemma unparse_cons : forall it r, unparse (it :: r) = unparse_item it ++ unparse r.
Proof. reflexivity. Qed.

Lemma mid_chars_passes : forall m, In m mid_chars -> passes m.
Proof.
  intros m H. pose proof mid_chars_pass as P. rewrite forallb_forall in P. specialize (P m H).
  rewrite andb_true_iff, !negb_true_iff, Nat.eqb_neq in P. exact P.
Qed.

Lemma conv_stops : forall c, In c (DOLLAR :: std_convs) -> strchr_hit print_convs c = true /\ c <> 0 /\ c <> PCT.
Proof.
  intros c H. pose proof std_convs_stop as P. rewrite forallb_forall in P. specialize (P c H).
  rewrite !andb_true_iff, !negb_true_iff, !Nat.eqb_neq in P. destruct P as [[P1 P2] P3]. auto.
Qed.

(* flags, width, precision and length modifier are made of mid_chars *)
Lemma wf_conv_mid : forall f w p l c, wf_item (Conv f w p l c) = true -> Forall passes (conv_mid f w p l).
Proof.
  intros f w p l c H. cbn [wf_item] in H. rewrite !andb_true_iff in H. destruct H as [[[[Hf Hw] Hp] Hl] _].
  apply Forall_forall. intros m Hm. apply mid_chars_passes.
  unfold conv_mid in Hm. unfold mid_chars. rewrite !in_app_iff in Hm. rewrite !in_app_iff.
  destruct Hm as [Hm|[Hm|[Hm|Hm]]].
  - left. exact (all_in_In _ _ _ Hf Hm).
  - right. left. exact (all_in_In _ _ _ Hw Hm).
  - destruct p as [|d r]; [destruct Hm|]. cbn [wf_prec] in Hp. apply andb_prop in Hp. destruct Hp as [Hd Hr].
    destruct Hm as [<-|Hm].
    + right. right. left. left. symmetry. apply Nat.eqb_eq, Hd.
    + right. left. exact (all_in_In _ _ _ Hr Hm).
  - rewrite existsb_exists in Hl. destruct Hl as [l' [Hin He]]. apply list_eqb_eq in He. subst l'.
    right. right. right. apply in_concat. exists l. split; assumption.
Qed.

Lemma wf_conv_char : forall f w p l c, wf_item (Conv f w p l c) = true -> In c std_convs.
Proof.
  intros f w p l c H. cbn [wf_item] in H. apply andb_prop in H. destruct H as [_ H]. apply memb_In. exact H.
Qed.

Lemma wf_lit : forall s, wf_item (Lit s) = true -> s <> [] /\ Forall (fun c => strchr_hit [PCT] c = false) s.
Proof.
  intros s H. cbn [wf_item] in H. apply andb_prop in H. destruct H as [Hn Hs]. split.
  - intros E. subst. discriminate Hn.
  - apply Forall_forall. intros c Hc. rewrite forallb_forall in Hs. specialize (Hs c Hc).
    unfold strchr_hit, memb. cbn [existsb]. destruct (c =? 0), (c =? PCT); [discriminate..|reflexivity].
Qed.

(* what may follow a literal: nothing, or an item that is not a literal (its text starts with '%') *)
Definition follows_ok (it : item) (rest : list item) : Prop :=
  match rest with it' :: _ => is_lit it && is_lit it' = false | [] => True end.

Lemma wf_items_cons : forall it rest, wf_items (it :: rest) = true ->
  wf_item it = true /\ follows_ok it rest /\ wf_items rest = true.
Proof.
  intros it rest H. cbn [wf_items] in H. rewrite !andb_true_iff in H. destruct H as [[H1 H2] H3].
  repeat split; try assumption. destruct rest; [exact I|]. apply negb_true_iff, H2.
Qed.

Lemma next_token_item : forall it pre rest,
  wf_item it = true -> follows_ok it rest ->
  next_token (pre ++ unparse (it :: rest)) (length pre) = Ok (tok_of it, length pre + length (unparse_item it)).
Proof.
  intros it pre rest Hwf Hfo. rewrite unparse_cons.
  destruct it as [s| |f w p l c|]; cbn [unparse_item tok_of].
  - apply wf_lit in Hwf. destruct Hwf as [Hne Hs].
    apply next_token_lit; try assumption. destruct rest as [|[] r]; try reflexivity. discriminate Hfo.
  - apply next_token_pct.
  - pose proof (wf_conv_mid _ _ _ _ _ Hwf) as Hm. pose proof (wf_conv_char _ _ _ _ _ Hwf) as Hc.
    destruct (conv_stops c (or_intror Hc)) as [H1 [H2 H3]].
    apply next_token_spec; assumption.
  - destruct (conv_stops DOLLAR (or_introl eq_refl)) as [H1 [H2 H3]].
    apply (next_token_spec pre [] DOLLAR (unparse rest)); try assumption. constructor.
Qed.

Lemma unparse_item_nonempty : forall it, wf_item it = true -> 1 <= length (unparse_item it).
Proof.
  intros it H. destruct it; cbn [unparse_item length]; try lia.
  apply wf_lit in H. destruct H as [Hne _]. destruct s; [contradiction|simpl; lia].
Qed.

Lemma tok_of_proper : forall it, tok_of it <> TEnd /\ tok_of it <> TBad.
Proof. intros it. destruct it; split; discriminate. Qed.

(* every item takes at least one byte of the text and one unit of fuel *)
Lemma scan_loop_items : forall items pre fuel,
  wf_items items = true -> length (unparse items) < fuel ->
  scan_loop (pre ++ unparse items) (length pre) fuel = Ok (map tok_of items).
Proof.
  induction items as [|it r IH]; intros pre fuel Hwf Hf; (destruct fuel as [|f]; [simpl in Hf; lia|]).
  - cbn [scan_loop unparse map concat]. unfold next_token. rewrite (reads_hd (reads_app pre [])). reflexivity.
  - apply wf_items_cons in Hwf. destruct Hwf as [H1 [H2 H3]].
    cbn [scan_loop]. rewrite next_token_item by assumption.
    rewrite unparse_cons, app_assoc, <- app_length.
    rewrite IH; [destruct it; reflexivity|assumption|].
    pose proof (unparse_item_nonempty it H1). rewrite unparse_cons, app_length in Hf. lia.
Qed.

Theorem scan_unparse : forall items, wf_items items = true -> scan (unparse items) = Ok (map tok_of items).
Proof.
  intros items H. unfold scan, loop_fuel.
  apply (scan_loop_items items [] _ H). lia.
Qed.

(* one iteration never runs out of fuel, and a token that is neither the end nor the error ends strictly
   later, at most one behind the NUL *)
Lemma next_token_total : forall fmt i,
  match next_token fmt i with
  | Fuel => False
  | Crash | Ok (TEnd, _) | Ok (TBad, _) => True
  | Ok (_, j) => i < j <= length fmt + 1
  end.
Proof.
  intros fmt i. unfold next_token.
  destruct (rd fmt i) as [c0|] eqn:E0; [apply rd_some_le in E0|exact I].
  destruct (c0 =? 0); [exact I|].
  pose proof (skip_spec_total [PCT] fmt (scan_fuel fmt) i) as L.
  pose proof (skip_spec_total print_convs fmt (scan_fuel fmt) i) as S.
  rewrite skip_lit_spec. unfold scan_fuel in *.
  destruct (skip_spec [PCT] fmt i (length fmt + 2)) as [j| |]; [|exact I|lia].
  destruct (Nat.eqb_spec j i); cbn [negb]; [|destruct (buf_put fmt i (j - i)); [lia|exact I]].
  cbv zeta.
  destruct (c0 =? PCT); [destruct (rd fmt (i + 1)) as [c1|] eqn:E1; [apply rd_some_le in E1; destruct (c1 =? PCT)|]|];
    try exact I; try (rewrite pct_skip_is_2; lia).
  all: destruct (skip_spec print_convs fmt i (length fmt + 2)) as [j'| |]; [|exact I|lia].
  all: destruct (Nat.eqb_spec j' i); cbn [negb]; [exact I|].
  all: destruct (buf_put fmt i (j' - i + 1)); [|exact I]; destruct (rd fmt j'); [lia|exact I].
Qed.

Lemma scan_loop_no_fuel : forall fmt fuel i,
  i <= length fmt + 1 -> length fmt + 2 <= fuel + i -> scan_loop fmt i fuel <> Fuel.
Proof.
  intros fmt. induction fuel as [|f IH]; intros i Hi Hf; [lia|].
  cbn [scan_loop]. pose proof (next_token_total fmt i) as N.
  destruct (next_token fmt i) as [[t j]| |]; [|discriminate|contradiction].
  destruct t as [|p| |p c|]; try discriminate.
  all: specialize (IH j); destruct (scan_loop fmt j f); try discriminate; apply IH; lia.
Qed.

(* fuel adequacy holds for EVERY format text, well-formed or not *)
Theorem scan_no_fuel : forall fmt, scan fmt <> Fuel.
Proof. intros fmt. unfold scan, loop_fuel. apply scan_loop_no_fuel; lia. Qed.

(* the state after format_to/show_to wrote text t *)
Definition wrote (st : pstate) (t : list byte) (idx' : nat) (c : call) : pstate :=
  mkP (fst (sink_write (p_sink st) (p_pos st) t)) (p_pos st + length t) idx' (c :: p_calls st).

Definition arg_taken (st : pstate) : pstate := mkP (p_sink st) (p_pos st) (S (p_idx st)) (p_calls st).

Fixpoint write_all (k : sink) (pos : nat) (ts : list (list byte)) : sink :=
  match ts with
  | [] => k
  | t :: r => write_all (fst (sink_write k pos t)) (pos + length t) r
  end.

(* the call one item makes on the sink *)
Definition call_of (it : item) (pos idx : nat) : call :=
  match it with
  | Lit s => CFmt pos s None
  | Percent => CFmt pos [PCT; PCT] None
  | Conv f w p l c => CFmt pos (unparse_item it) (Some (conv_kind c, idx))
  | ShowDollar => CShow pos idx
  end.

(* the calls made on the sink (what a recording sink sees), with their exact positions *)
Fixpoint calls_of (items : list item) (ts : list (list byte)) (pos idx : nat) : list call :=
  match items, ts with
  | it :: r, t :: tr =>
    (match it with
     | Lit s => CFmt pos s None
     | Percent => CFmt pos [PCT; PCT] None
     | Conv f w p l c => CFmt pos (unparse_item it) (Some (conv_kind c, idx))
     | ShowDollar => CShow pos idx
     end) :: calls_of r tr (pos + length t) (if consumes it then S idx else idx)
  | _, _ => []
  end.

Definition outcome_of (r : pstate + pstate) : outcome :=
  match r with inl st => ODone st | inr st => ORaise st end.

(* a run that ends well, having written the texts ts from position pos of sink k *)
Definition writes (o : outcome) (k : sink) (pos : nat) (ts : list (list byte)) : Prop :=
  exists st, o = ODone st /\ p_sink st = write_all k pos ts /\ p_pos st = pos + length (concat ts).

(* an outcome known by evaluation ends well in a state with P; the state need not be written out *)
Lemma done_with (o : outcome) (P : pstate -> Prop) :
  match o with ODone st => P st | _ => False end -> exists st, o = ODone st /\ P st.
Proof. destruct o as [st| | |]; intros H; [exists st; split; [reflexivity|exact H]|contradiction..]. Qed.

Fixpoint join (sep : list byte) (l : list (list byte)) : list byte :=
  match l with
  | [] => []
  | x :: r => match r with [] => x | _ => x ++ sep ++ join sep r end
  end.

Definition COLON : list byte := [58].

Lemma skipn_hd : forall (A : Type) n (l : list A), hd_error (skipn n l) = nth_error l n.
Proof. induction n as [|n IH]; intros [|x l]; try reflexivity. apply IH. Qed.

Lemma skipn_tl : forall (A : Type) n (l : list A), tl (skipn n l) = skipn (S n) l.
Proof. induction n as [|n IH]; intros [|x l]; try reflexivity. apply IH. Qed.

Lemma sink_write_eta : forall k pos t, sink_write k pos t = (fst (sink_write k pos t), length t).
Proof. intros [s|s] pos t; reflexivity. Qed.

Lemma write_all_app : forall a b k pos,
  write_all k pos (a ++ b) = write_all (write_all k pos a) (pos + length (concat a)) b.
Proof.
  induction a as [|t a IH]; intros b k pos; cbn [app write_all concat length].
  - rewrite Nat.add_0_r. reflexivity.
  - rewrite IH, app_length, Nat.add_assoc. reflexivity.
Qed.

Lemma write_all_file : forall ts s pos, write_all (SFile s) pos ts = SFile (s ++ concat ts).
Proof.
  induction ts as [|t r IH]; intros s pos; cbn [write_all concat].
  - rewrite app_nil_r. reflexivity.
  - cbn [sink_write fst]. rewrite IH, app_assoc. reflexivity.
Qed.

Lemma write_all_string : forall ts s pos,
  ts <> [] -> pos <= length s -> write_all (SString s) pos ts = SString (firstn pos s ++ concat ts).
Proof.
  induction ts as [|t r IH]; intros s pos Hne Hp; [contradiction|].
  cbn [write_all concat sink_write fst].
  destruct (Nat.leb_spec pos (length s)) as [_|Hbad]; [|lia].
  destruct r as [|t2 r'].
  - cbn [write_all concat]. rewrite app_nil_r. reflexivity.
  - assert (L : pos + length t = length (firstn pos s ++ t)) by (rewrite app_length, firstn_length; lia).
    rewrite IH, L, firstn_all, app_assoc; [reflexivity|discriminate|lia].
Qed.

Lemma write_all_string_beyond : forall ts s pos,
  length s < pos -> write_all (SString s) pos ts = SString s.
Proof.
  induction ts as [|t r IH]; intros s pos Hp; cbn [write_all]; [reflexivity|].
  cbn [sink_write fst]. destruct (Nat.leb_spec pos (length s)) as [Hbad|_]; [lia|].
  apply IH. lia.
Qed.

Section PrintProofs.
Variable V : Type.
Variable render : list byte -> ckind -> V -> option (list byte).
Variable show : V -> list byte.

(* in this section each bare name below is the notation; the constant itself is unfolded as Format.exec, Format.print_to *)
Notation exec := (exec V render show).
Notation print_to := (print_to V render show).
Notation print_to_from := (print_to_from V render show).
Notation then_print := (then_print V render show).
Notation texts := (texts V render show).
Notation item_text := (item_text V render show).

(* the tokens executed one after the other, up to the first FormatError *)
Fixpoint run_toks (ts : list token) (args : list V) (st : pstate) : pstate + pstate :=
  match ts with
  | [] => inl st
  | t :: r =>
    match exec t args st with
    | inl st' => run_toks r args st'
    | inr st' => inr st'
    end
  end.

(* on ANY text the print loop executes exactly the tokens the scanner cuts, and runs out of fuel only
   if the scanner does *)
Lemma print_loop_scan : forall fmt args fuel i st,
  match scan_loop fmt i fuel with
  | Ok ts => print_loop V render show fmt args i st fuel = outcome_of (run_toks ts args st)
  | Crash => print_loop V render show fmt args i st fuel <> OFuel
  | Fuel => True
  end.
Proof.
  intros fmt args. induction fuel as [|f IH]; intros i st; [exact I|].
  cbn [scan_loop print_loop].
  destruct (next_token fmt i) as [[t j]| |]; [|discriminate|exact I].
  destruct t as [|p| |p c|]; try reflexivity.
  all: specialize (IH j); destruct (scan_loop fmt j f); cbn [run_toks]; try exact I.
  all: destruct (exec _ args st); first [apply IH | reflexivity | discriminate].
Qed.

Theorem print_to_from_scan : forall fmt ts args st,
  scan fmt = Ok ts -> print_to_from st fmt args = outcome_of (run_toks ts args st).
Proof.
  intros fmt ts args st H. pose proof (print_loop_scan fmt args (loop_fuel fmt) 0 st) as P.
  unfold scan in H. rewrite H in P. exact P.
Qed.

Lemma print_to_from_items : forall items args st,
  wf_items items = true ->
  print_to_from st (unparse items) args = outcome_of (run_toks (map tok_of items) args st).
Proof. intros items args st H. apply print_to_from_scan, scan_unparse, H. Qed.

Theorem print_to_no_fuel : forall k pos fmt args, print_to k pos fmt args <> OFuel.
Proof.
  intros k pos fmt args. pose proof (print_loop_scan fmt args (loop_fuel fmt) 0 (mkP k pos 0 [])) as P.
  pose proof (scan_no_fuel fmt) as N. unfold scan in N. unfold Format.print_to, Format.print_to_from.
  destruct (scan_loop fmt 0 (loop_fuel fmt)); [rewrite P; destruct (run_toks _ _ _); discriminate|exact P|contradiction].
Qed.

Lemma do_format_wrote : forall p arg t st,
  do_format V p arg (Some t) st
  = Some (wrote st t (p_idx st)
            (CFmt (p_pos st) p (match arg with None => None | Some (kd, _) => Some (kd, pred (p_idx st)) end))).
Proof. intros. unfold do_format. rewrite sink_write_eta, Nat.sub_1_r. reflexivity. Qed.

Lemma do_show_wrote : forall a st,
  do_show V show a st = Some (wrote st (show a) (p_idx st) (CShow (p_pos st) (pred (p_idx st)))).
Proof. intros. unfold do_show. rewrite sink_write_eta, Nat.sub_1_r. reflexivity. Qed.

Lemma exec_noarg : forall p c args st,
  nth_error args (p_idx st) = None -> exec (TSpec p c) args st = inr st.
Proof. intros p c args st H. cbn [Format.exec]. rewrite H. reflexivity. Qed.

Definition run_arm (p : list byte) (a : V) (s : pstate + pstate) (arm : bool * option ckind) : pstate + pstate :=
  step_if (fst arm)
    (match snd arm with Some kd => do_format V p (Some (kd, a)) (render p kd a) | None => do_show V show a end) s.

Lemma exec_arms : forall p c a args st, nth_error args (p_idx st) = Some a ->
  exec (TSpec p c) args st = fold_left (run_arm p a) (arms c) (inl (arg_taken st)).
Proof. intros p c a args st H. cbn [Format.exec]. rewrite H. reflexivity. Qed.

(* an arm whose test fails changes nothing *)
Lemma run_arms_filter : forall p a l s, fold_left (run_arm p a) l s = fold_left (run_arm p a) (filter fst l) s.
Proof.
  intros p a. induction l as [|[[|] arm] l IH]; intros s; cbn [filter fst fold_left]; [reflexivity|apply IH|].
  rewrite <- IH. destruct s; reflexivity.
Qed.

Lemma exec_conv : forall p c a args st,
  In c std_convs -> nth_error args (p_idx st) = Some a ->
  exec (TSpec p c) args st =
  match render p (conv_kind c) a with
  | Some t => inl (wrote (arg_taken st) t (S (p_idx st)) (CFmt (p_pos st) p (Some (conv_kind c, p_idx st))))
  | None => inr (arg_taken st)
  end.
Proof.
  intros p c a args st Hin Hnth. rewrite (exec_arms _ _ _ _ _ Hnth), run_arms_filter, (std_convs_arm c Hin).
  cbn [fold_left run_arm step_if fst snd]. destruct (render p (conv_kind c) a); [rewrite do_format_wrote|]; reflexivity.
Qed.

Lemma exec_dollar : forall p a args st,
  nth_error args (p_idx st) = Some a ->
  exec (TSpec p DOLLAR) args st
  = inl (wrote (arg_taken st) (show a) (S (p_idx st)) (CShow (p_pos st) (p_idx st))).
Proof.
  intros p a args st Hnth. rewrite (exec_arms _ _ _ _ _ Hnth), run_arms_filter.
  change (filter fst (arms DOLLAR)) with [(true, @None ckind)].
  cbn [fold_left run_arm step_if fst snd]. rewrite do_show_wrote. reflexivity.
Qed.

(* all four kinds of item at once: the text is item_text on the argument in turn *)
Lemma exec_item : forall it args st, wf_item it = true ->
  exec (tok_of it) args st =
  match item_text it (nth_error args (p_idx st)) with
  | Some t => inl (wrote st t (if consumes it then S (p_idx st) else p_idx st) (call_of it (p_pos st) (p_idx st)))
  | None => inr (match nth_error args (p_idx st) with Some _ => arg_taken st | None => st end)
  end.
Proof.
  intros it args st Hwf. destruct it as [s| |f w p l c|]; cbn [tok_of consumes].
  1, 2: cbn [Format.exec step_if]; rewrite do_format_wrote; reflexivity.
  - destruct (nth_error args (p_idx st)) as [a|] eqn:E; [|apply exec_noarg, E].
    apply exec_conv; eauto using wf_conv_char.
  - destruct (nth_error args (p_idx st)) as [a|] eqn:E; [|apply exec_noarg, E].
    apply exec_dollar, E.
Qed.

Lemma texts_cons : forall it r args,
  texts (it :: r) args =
  match item_text it (hd_error args), texts r (if consumes it then tl args else args) with
  | Some t, Some ts => Some (t :: ts)
  | _, _ => None
  end.
Proof. intros [| | |] r [|a args]; reflexivity. Qed.

(* as long as the items have texts they leave the state below, from which the rest goes on *)
Lemma run_items_spec : forall items more args st,
  wf_items (items ++ more) = true ->
  match texts items (skipn (p_idx st) args) with
  | Some ts => run_toks (map tok_of (items ++ more)) args st
               = run_toks (map tok_of more) args
                   (mkP (write_all (p_sink st) (p_pos st) ts) (p_pos st + length (concat ts))
                        (p_idx st + nconsumers items)
                        (rev (calls_of items ts (p_pos st) (p_idx st)) ++ p_calls st))
  | None => exists st', run_toks (map tok_of (items ++ more)) args st = inr st'
  end.
Proof.
  induction items as [|it r IH]; intros more args st Hwf.
  - destruct st. cbn. rewrite !Nat.add_0_r. reflexivity.
  - apply wf_items_cons in Hwf. destruct Hwf as [H1 [_ H3]].
    rewrite texts_cons, skipn_hd, skipn_tl. cbn [app map run_toks]. rewrite (exec_item it args st H1).
    destruct (item_text it (nth_error args (p_idx st))) as [t|]; [|eexists; reflexivity].
    set (st1 := wrote st t _ _). specialize (IH more args st1 H3).
    replace (if consumes it then skipn (S (p_idx st)) args else skipn (p_idx st) args) with (skipn (p_idx st1) args)
      by (unfold st1; destruct (consumes it); reflexivity).
    destruct (texts r (skipn (p_idx st1) args)) as [ts|]; [|exact IH].
    rewrite IH. unfold st1, nconsumers. cbn [wrote p_sink p_pos p_idx p_calls write_all concat calls_of filter rev].
    rewrite app_length, <- app_assoc, Nat.add_assoc. do 2 f_equal.
    destruct (consumes it); cbn [length]; lia.
Qed.

(* the complete final state, from any start state that has taken no argument yet *)
Theorem print_from_spec : forall items args st ts,
  wf_items items = true -> p_idx st = 0 -> texts items args = Some ts ->
  print_to_from st (unparse items) args
  = ODone (mkP (write_all (p_sink st) (p_pos st) ts) (p_pos st + length (concat ts)) (nconsumers items)
               (rev (calls_of items ts (p_pos st) 0) ++ p_calls st)).
Proof.
  intros items args st ts Hwf Hi Ht. rewrite print_to_from_items by exact Hwf.
  pose proof (run_items_spec items [] args st) as R. rewrite app_nil_r, Hi in R. cbn [skipn] in R. rewrite Ht in R.
  rewrite (R Hwf). reflexivity.
Qed.

Theorem print_to_raise : forall items args k pos,
  wf_items items = true -> texts items args = None ->
  exists st, print_to k pos (unparse items) args = ORaise st.
Proof.
  intros items args k pos Hwf Ht. unfold Format.print_to. rewrite print_to_from_items by exact Hwf.
  pose proof (run_items_spec items [] args (mkP k pos 0 [])) as R. rewrite app_nil_r in R. cbn [p_idx skipn] in R.
  rewrite Ht in R. destruct (R Hwf) as [st' ->]. exists st'. reflexivity.
Qed.

Lemma print_to_writes : forall items args k pos ts,
  wf_items items = true -> texts items args = Some ts -> writes (print_to k pos (unparse items) args) k pos ts.
Proof.
  intros items args k pos ts Hwf Ht. eexists. split; [exact (print_from_spec _ _ (mkP k pos 0 []) _ Hwf eq_refl Ht)|].
  split; reflexivity.
Qed.

Lemma texts_length : forall items args ts, texts items args = Some ts -> length ts = length items.
Proof.
  induction items as [|it r IH]; intros args ts H; [inversion H; reflexivity|].
  rewrite texts_cons in H. destruct (item_text it (hd_error args)); [|discriminate].
  destruct (texts r _) as [ts'|] eqn:E; [|discriminate].
  inversion H. simpl. f_equal. eapply IH, E.
Qed.

Lemma texts_too_few : forall items args, length args < nconsumers items -> texts items args = None.
Proof.
  induction items as [|it r IH]; intros args H; unfold nconsumers in H; cbn [filter] in H.
  - inversion H.
  - rewrite texts_cons. destruct (consumes it) eqn:C, args as [|a args]; cbn [tl hd_error length] in *.
    1: destruct it; try discriminate C; reflexivity.
    all: rewrite IH by (unfold nconsumers; cbn [length]; lia); destruct (item_text it _); reflexivity.
Qed.

(* with a libc that never fails and enough arguments there is a text for every item *)
Lemma texts_enough : forall items args,
  (forall p kd v, render p kd v <> None) -> nconsumers items <= length args ->
  exists ts, texts items args = Some ts.
Proof.
  intros items args Hr. revert args. induction items as [|it r IH]; intros args H; [exists []; reflexivity|].
  unfold nconsumers in H. cbn [filter] in H. rewrite texts_cons.
  destruct (IH (if consumes it then tl args else args)) as [ts ->].
  { unfold nconsumers. destruct (consumes it), args; simpl in *; lia. }
  destruct it as [| |f w p l c|], args as [|a args]; simpl in H; try lia; cbn [item_text hd_error]; eauto.
  specialize (Hr (unparse_item (Conv f w p l c)) (conv_kind c) a). destruct (render _ _ a); [eauto|contradiction].
Qed.

Lemma then_print_writes : forall o k pos ts0 items args ts,
  writes o k pos ts0 -> wf_items items = true -> texts items args = Some ts ->
  writes (then_print o (unparse items) args) k pos (ts0 ++ ts).
Proof.
  intros o k pos ts0 items args ts [st [-> [A B]]] Hwf Ht. eexists.
  split; [exact (print_from_spec _ _ (mkP (p_sink st) (p_pos st) 0 (p_calls st)) _ Hwf eq_refl Ht)|].
  cbn [p_sink p_pos]. rewrite write_all_app, concat_app, app_length, A, B. split; [reflexivity|lia].
Qed.

(* the texts of the calls Array_Show makes for its elements: show e1, ", ", show e2, ... *)
Fixpoint sep_texts (elems : list V) : list (list byte) :=
  match elems with
  | [] => []
  | e :: rest => show e :: match rest with [] => [] | _ => SEP :: sep_texts rest end
  end.

Lemma sep_texts_join : forall elems, concat (sep_texts elems) = join SEP (map show elems).
Proof.
  induction elems as [|e rest IH]; [reflexivity|].
  cbn [sep_texts map join concat]. destruct rest as [|e2 rest'].
  - cbn [concat map]. apply app_nil_r.
  - cbn [map]. cbn [map] in IH. rewrite <- IH. reflexivity.
Qed.

Lemma show_elems_writes : forall elems o k pos ts0,
  writes o k pos ts0 -> writes (show_elems V render show o elems) k pos (ts0 ++ sep_texts elems).
Proof.
  induction elems as [|e rest IH]; intros o k pos ts0 H; cbn [show_elems sep_texts].
  - rewrite app_nil_r. exact H.
  - apply (then_print_writes _ _ _ _ [ShowDollar] [e] [show e]) in H; [|reflexivity..].
    destruct rest as [|e2 rest']; [exact H|].
    apply (then_print_writes _ _ _ _ [Lit SEP] [] [SEP]) in H; [|reflexivity..].
    apply IH in H. rewrite <- !app_assoc in H. exact H.
Qed.

(* show k1, ":", show v1, ", ", show k2, ":", show v2, ... *)
Fixpoint pair_texts (elems : list (V * V)) : list (list byte) :=
  match elems with
  | [] => []
  | (key, val) :: rest =>
    show key :: COLON :: show val :: match rest with [] => [] | _ => SEP :: pair_texts rest end
  end.

Lemma pair_texts_join : forall elems,
  concat (pair_texts elems) = join SEP (map (fun kv => show (fst kv) ++ COLON ++ show (snd kv)) elems).
Proof.
  induction elems as [|[key val] rest IH]; [reflexivity|].
  cbn [pair_texts map join concat fst snd]. destruct rest as [|e2 rest'].
  - cbn [concat map]. rewrite app_nil_r. reflexivity.
  - cbn [map]. cbn [map] in IH. rewrite <- IH. cbn [concat]. rewrite <- ?app_assoc. reflexivity.
Qed.

Lemma show_pairs_writes : forall elems o k pos ts0,
  writes o k pos ts0 -> writes (show_pairs V render show o elems) k pos (ts0 ++ pair_texts elems).
Proof.
  induction elems as [|[key val] rest IH]; intros o k pos ts0 H; cbn [show_pairs pair_texts].
  - rewrite app_nil_r. exact H.
  - apply (then_print_writes _ _ _ _ [ShowDollar; Lit COLON; ShowDollar] [key; val] [show key; COLON; show val]) in H;
      [|reflexivity..].
    destruct rest as [|e2 rest']; [exact H|].
    apply (then_print_writes _ _ _ _ [Lit SEP] [] [SEP]) in H; [|reflexivity..].
    apply IH in H. rewrite <- !app_assoc in H. exact H.
Qed.

End PrintProofs.
(* a concrete instance: the hypotheses of the theorems are satisfiable *)
Definition ex_render (p : list byte) (k : ckind) (v : nat) : option (list byte) := Some [v; v].
Definition ex_show (v : nat) : list byte := [v].
(* "%-5ld%.2f a%%%$%s" : specifications at the very start and the very end, adjacent ones, %%, %$ *)
Definition ex_items : list item :=
  [Conv [45] [53] [] [108] 100; Conv [] [] [46; 50] [] 102; Lit [32; 97]; Percent; ShowDollar; Conv [] [] [] [] 115].
Definition ex_fmt : list byte := [37; 45; 53; 108; 100; 37; 46; 50; 102; 32; 97; 37; 37; 37; 36; 37; 115].

Lemma ex_texts : texts nat ex_render ex_show ex_items [1; 2; 3; 4] = Some [[1; 1]; [2; 2]; [32; 97]; [37]; [3]; [4; 4]].
Proof. reflexivity. Qed.

Lemma ex_print_string :
  print_to nat ex_render ex_show (SString [104; 105; 33]) 2 ex_fmt [1; 2; 3; 4]
  = ODone (mkP (SString [104; 105; 1; 1; 2; 2; 32; 97; 37; 3; 4; 4]) 12 4
               [CFmt 10 [37; 115] (Some (KStr, 3)); CShow 9 2; CFmt 8 [37; 37] None; CFmt 6 [32; 97] None;
                CFmt 4 [37; 46; 50; 102] (Some (KFloat, 1)); CFmt 2 [37; 45; 53; 108; 100] (Some (KInt, 0))]).
Proof. vm_compute. reflexivity. Qed.

(* a lone '%' : with malloc(strlen+1) the NUL write of the piece buffer lands one byte behind it; with a
   roomier buffer the unfinished specification swallows the terminator and the scanner walks past it *)
Lemma lone_percent_crashes : forall k pos a, print_to nat ex_render ex_show k pos [PCT] [a] = OCrash.
Proof. intros k pos a. destruct k; reflexivity. Qed.

Lemma lone_percent_overruns_tight_buffer :
  (print_buf_extra =? 1) && (print_buf_stack_cap =? 0) = true -> buf_put [PCT] 0 2 = None.
Proof.
  intros H. apply buf_put_refuses. revert H. vm_compute.
  (* whichever way the generated constants evaluate: the hypothesis is false = true, or the bound is closed *)
  intros H. first [discriminate H | lia].
Qed.

(* when the unfinished specification is not the whole text, the scanner walks past the NUL
   (provided libc does not fail on the incomplete specification) *)
Lemma trailing_percent_crashes :
  print_to nat (fun _ _ _ => Some []) ex_show (SFile []) 0 [97; PCT] [1] = OCrash
  /\ (print_dispatch_nul_hits = true ->
      print_to nat (fun _ _ _ => None) ex_show (SFile []) 0 [97; PCT] [1] = ORaise (mkP (SFile [97]) 1 1 [CFmt 0 [97] None])).
Proof.
  split; [vm_compute; reflexivity|]. vm_compute.
  (* whichever way print_dispatch_nul_hits evaluates: the run is as stated, or the hypothesis is false = true *)
  intros H. first [reflexivity | discriminate H].
Qed.

(* Array_Show's opener "<'Array' At 0x%p [" and closer "]>" *)
Definition array_open : list item :=
  [Lit [60; 39; 65; 114; 114; 97; 121; 39; 32; 65; 116; 32; 48; 120]; Conv [] [] [] [] 112; Lit [32; 91]].
Definition array_close : list item := [Lit [93; 62]].

Lemma ex_array_show :
  wf_items array_open = true /\ wf_items array_close = true
  /\ texts nat ex_render ex_show array_open [9] = Some [[60; 39; 65; 114; 114; 97; 121; 39; 32; 65; 116; 32; 48; 120]; [9; 9]; [32; 91]]
  /\ texts nat ex_render ex_show array_close [] = Some [[93; 62]]
  /\ exists st, show_seq nat ex_render ex_show (unparse array_open) (unparse array_close) 9 [5; 6; 7] (SFile []) 0 = ODone st
       /\ p_sink st = SFile ([60; 39; 65; 114; 114; 97; 121; 39; 32; 65; 116; 32; 48; 120; 9; 9; 32; 91] ++ [5; 44; 32; 6; 44; 32; 7] ++ [93; 62]).
Proof. repeat apply conj; [..|apply done_with]; vm_compute; reflexivity. Qed.

(* Table_Show's opener "<'Table' At 0x%p {" and closer "}>" *)
Definition table_open : list item :=
  [Lit [60; 39; 84; 97; 98; 108; 101; 39; 32; 65; 116; 32; 48; 120]; Conv [] [] [] [] 112; Lit [32; 123]].
Definition table_close : list item := [Lit [125; 62]].

Lemma ex_table_show :
  exists st, show_map nat ex_render ex_show (unparse table_open) (unparse table_close) 9 [(1, 2); (3, 4)] (SFile []) 0 = ODone st
    /\ p_sink st = SFile ([60; 39; 84; 97; 98; 108; 101; 39; 32; 65; 116; 32; 48; 120; 9; 9; 32; 123] ++ [1; 58; 2; 44; 32; 3; 58; 4] ++ [125; 62]).
Proof. apply done_with. vm_compute. reflexivity. Qed.

(* the format strings the built-in Show functions use (re-extracted from Array.c, List.c, Tuple.c,
   Table.c, Tree.c, Num.c) are texts of well-formed item lists, so the theorems above apply to them
   (Properties_C14.builtin_show_formats_wellformed) *)
Definition list_open : list item :=
  [Lit [60; 39; 76; 105; 115; 116; 39; 32; 65; 116; 32; 48; 120]; Conv [] [] [] [] 112; Lit [32; 91]].
Definition tuple_open : list item := [Lit [116; 117; 112; 108; 101; 40]].
Definition tuple_close : list item := [Lit [41]].
Definition tree_open : list item :=
  [Lit [60; 39; 84; 114; 101; 101; 39; 32; 65; 116; 32; 48; 120]; Conv [] [] [] [] 112; Lit [32; 123]].
Definition int_show_items : list item := [Conv [] [] [] [108] 105].      (* %li *)
Definition float_show_items : list item := [Conv [] [] [] [] 102].       (* %f *)

Definition show_format_ok (items : list item) (text : list byte) : Prop :=
  wf_items items = true /\ unparse items = text.

