(* Properties_C06_glue.v — the abstract registry of the life-cycle machine (C06) is a sound abstraction of
   the concrete robin-hood registry of C17 (the theorems of coq/LifecycleGlue.v, closed over `boxlike d`).
   Re-checked by props/C06.py on every run in which C17's model (coq/RegistryModel.v, parameterised by
   what tools/genx_gcreg.py reads off src/GC.c) can be regenerated from the working tree. *)
From CelloV Require Import Generated Lifecycle LifecycleProofs LifecycleGlue.
From Coq Require Import List.
Import ListNotations.

(* Vocabulary (coq/LifecycleGlue.v; RM, RP = RegistryModel, RegistryProofs): abs_reg / abs_pend = a C17
   state seen as registry list (slot order, root flags) and pending list; Rel d g s = the C17 state g and the life-cycle state s show
   the same registered set with the same root flags, the same pending list entry by entry, the same
   running flag and mitems, the same number of destructor calls per address, the same ownership;
   Tab / TabM = table part of C17's invariant; c_order g / c_marks g = the order in which C17's
   compaction loop hands entries to the pending list / its mark bits; crun = both machines driven by
   one history of C17 operations, the life-cycle machine started in cinit d (init with the ownership map of
   d); boxlike d = a destructor deletes at most one object and allocates nothing; gadm_run = addresses are
   not reused; idn = N.to_nat, from addresses to identities; cnt_fin p log = destructor calls of p in C17's log;
   c17_rule = the collection threshold rule C17's generator reads off the source; Mono g g' = every address
   that occurs in g's log occurs in g''s; GL g s = the invariant between two operations: C17's Inv with an
   empty pending list, Rel, GInv [] s, and every identity s knows is an address of g's log. *)

(* GC_Sweep on the concrete table (compaction loop with wrap-around, GC_Resize_Less, finaliser loop
   with destructor-issued removals) IS the sweep of the life-cycle machine for order := c_order g,
   marks := c_marks g — so everything proved for all orders and marks holds for the table's *)
Theorem lifecycle_glue_sweep : forall hashf d, boxlike d -> forall A g s g',
  TabM hashf g -> RM.pending g = [] -> Rel d g s -> GInv A s ->
  RP.Gsweep hashf d true true g = Some g' ->
  Tab hashf g' /\ Rel d g' (sweep c17_rule true (fin_top c17_rule true true true nopro) (c_order g) (c_marks g) s) /\
  RM.pending g' = [] /\ Mono g g'.
Proof. exact glue_sweep_thm. Qed.
Print Assumptions lifecycle_glue_sweep.

(* GC_Rem on the concrete table — del, del_root, and the del a destructor issues while a sweep is in
   progress (g may have a non-empty pending list) — is GC_Rem of the life-cycle machine *)
Theorem lifecycle_glue_rem : forall hashf d, boxlike d -> forall f A g s p g',
  Tab hashf g -> Rel d g s -> GInv A s ->
  RP.Grem hashf d true f g p = Some g' ->
  Tab hashf g' /\ Rel d g' (gc_rem c17_rule true (fin_top c17_rule true true true nopro) s (idn p)) /\ Mono g g'.
Proof. exact glue_rem_thm. Qed.
Print Assumptions lifecycle_glue_rem.

(* every admissible history of C17 operations (alloc/alloc_root with threshold collections, del,
   del_raw, collections, sweeps, stop/start) without address reuse: the concrete registry and the
   life-cycle machine stay related *)
Theorem lifecycle_glue_history : forall hashf d, boxlike d -> RP.dtors_ok d -> forall ops,
  RP.Gadm hashf d true true ops RM.gc_init -> gadm_run hashf d ops RM.gc_init ->
  let gs := crun hashf d ops RM.gc_init (cinit d) in
  fst gs = RP.Grun hashf d true true ops RM.gc_init /\ GL hashf d (fst gs) (snd gs).
Proof. exact glue_history_thm. Qed.
Print Assumptions lifecycle_glue_history.

(* C06 on the run whose registry IS the concrete robin-hood table, read off C17's own event log:
   no address finalised twice; teardown finalises every registered non-root address exactly once;
   del of a registered address finalises it exactly once.
   `_partial`: a fragment — Box-like destructors that allocate nothing, no address reuse.  FULL STATEMENT
   still open: the same with destructors that allocate (C17's d_spawns, `allocation_during_sweep`), i.e.
   for every dtors_ok d whose d_owns is Box-like and whose d_spawns yields non-root objects; what is
   missing is the simulation of C17's spawn_set by alloc_child (C17 runs the deletions of a destructor
   before its allocations and only flags a threshold crossing outside a sweep, the life-cycle machine
   allocates first and runs that collection), and identities for re-used addresses. *)
Theorem lifecycle_over_concrete_registry_partial : forall hashf d, boxlike d -> RP.dtors_ok d -> forall ops,
  RP.Gadm hashf d true true ops RM.gc_init -> gadm_run hashf d ops RM.gc_init ->
  (forall p, cnt_fin p (RM.evs (RP.Grun hashf d true true ops RM.gc_init)) <= 1) /\
  (forall ops' p, ops = ops' ++ [RM.OSweep] ->
     RP.Regs (RM.slots (RP.Grun hashf d true true ops' RM.gc_init)) p false ->
     cnt_fin p (RM.evs (RP.Grun hashf d true true ops RM.gc_init)) = 1) /\
  (forall ops' p r, ops = ops' ++ [RM.ORem p] ->
     RM.running (RP.Grun hashf d true true ops' RM.gc_init) = true ->
     RP.Regs (RM.slots (RP.Grun hashf d true true ops' RM.gc_init)) p r ->
     cnt_fin p (RM.evs (RP.Grun hashf d true true ops RM.gc_init)) = 1).
Proof. exact over_concrete_registry_partial. Qed.
Print Assumptions lifecycle_over_concrete_registry_partial.

(* non-vacuity: a Box and the object it owns reclaimed by the same sweep of a table with colliding
   addresses, a root, an explicit del, teardown *)
Example lifecycle_glue_inhabited :
  boxlike gx_d /\ RP.dtors_ok gx_d /\
  RP.Gadm gx_hash gx_d true true gx_ops RM.gc_init /\ gadm_run gx_hash gx_d gx_ops RM.gc_init /\
  cnt_fin gx_owned (RM.evs (RP.Grun gx_hash gx_d true true gx_ops RM.gc_init)) = 1.
Proof.
  exact (conj gx_boxlike (conj gx_dok (conj (proj1 gx_admissible) (conj (proj2 gx_admissible) gx_owned_once)))).
Qed.
