(* LifecycleProofs.v — proofs about the life-cycle machine of Lifecycle.v (property C06).
   The positive results are about the repaired machine (rem_fix = sweep_fix = defer_fix = true); the
   pinned variants are refuted by computation after Section Rule. *)
From Coq Require Import List Arith Bool PeanoNat Lia.
From CelloV Require Import ListFacts Generated Lifecycle.
Import ListNotations.

Definition regids (s : st) : list id := map fst (reg s).
Definition somes (l : list (option id)) : list id :=
  flat_map (fun x => match x with Some y => [y] | None => [] end) l.
Definition pids (s : st) : list id := somes (pend s).
(* the model's potential phi, under the name the invariants and LifecycleGlue.v use *)
Definition measure (s : st) : nat := phi s.
Definition done (s : st) (x : id) : Prop := fin_count s x = 1 /\ free_count s x = 1.

Lemma lev_eqb_refl e : lev_eqb e e = true.
Proof. destruct e; simpl; apply Nat.eqb_refl. Qed.

Lemma count_cons e a l : count e (a :: l) = (if lev_eqb e a then 1 else 0) + count e l.
Proof. unfold count. simpl. destruct (lev_eqb e a); reflexivity. Qed.

Lemma count_zero e l : count e l = 0 <-> existsb (lev_eqb e) l = false.
Proof.
  induction l as [|a l IH]; [tauto|]. rewrite count_cons. simpl.
  destruct (lev_eqb e a); [split; discriminate | exact IH].
Qed.

Lemma fin_started_spec s x : fin_started s x = false <-> fin_count s x = 0.
Proof. symmetry. apply count_zero. Qed.

Lemma fin_add_fin s o x : fin_count (add_log (LFin o) s) x = (if x =? o then 1 else 0) + fin_count s x.
Proof. apply count_cons. Qed.
Lemma fin_add_free s o x : fin_count (add_log (LFree o) s) x = fin_count s x.
Proof. apply count_cons. Qed.
Lemma free_add_fin s o x : free_count (add_log (LFin o) s) x = free_count s x.
Proof. apply count_cons. Qed.
Lemma free_add_free s o x : free_count (add_log (LFree o) s) x = (if x =? o then 1 else 0) + free_count s x.
Proof. apply count_cons. Qed.

Lemma somes_in l x : In x (somes l) <-> In (Some x) l.
Proof.
  unfold somes. rewrite in_flat_map. split.
  - intros [[y|] [H1 H2]]; simpl in H2; [destruct H2 as [->|[]]; exact H1 | destruct H2].
  - intros H. exists (Some x). split; [exact H | simpl; auto].
Qed.

Lemma live_pend_somes s : live_pend s = length (pids s).
Proof.
  unfold live_pend, pids, somes. induction (pend s) as [|[y|] l IH]; simpl; auto.
Qed.

Lemma somes_null o l : somes (null_pend o l) = filter (fun y => negb (y =? o)) (somes l).
Proof.
  unfold null_pend, somes. induction l as [|[y|] l IH]; simpl; auto.
  destruct (y =? o) eqn:E; simpl; rewrite IH; reflexivity.
Qed.

Lemma somes_map_Some l : somes (map Some l) = l.
Proof. unfold somes. induction l; simpl; auto. rewrite IHl. reflexivity. Qed.

Lemma nth_in_somes l j o : nth j l None = Some o -> In o (somes l).
Proof.
  intros H. apply somes_in. destruct (Nat.lt_ge_cases j (length l)) as [Hl|Hl].
  - rewrite <- H. apply nth_In. exact Hl.
  - rewrite nth_overflow in H by exact Hl. discriminate.
Qed.

Lemma all_none_somes (l : list (option id)) :
  (forall j, j < length l -> nth j l None = None) -> somes l = [].
Proof.
  induction l as [|a l IH]; intros H; [reflexivity|].
  pose proof (H 0 ltac:(simpl; lia)) as H0. simpl in H0. subst a. simpl.
  apply IH. intros j Hj. apply (H (S j)). simpl. lia.
Qed.

Lemma null_pend_length o l : length (null_pend o l) = length l.
Proof. unfold null_pend. apply map_length. Qed.

(* ListFacts.filter_length_lt with g := fun _ => true, under the same short name *)
Lemma filter_length_lt {A} (f : A -> bool) l x : In x l -> f x = false -> length (filter f l) < length l.
Proof.
  intros Hx Hf. rewrite <- (filter_all (fun _ => true) l) at 2 by reflexivity.
  now apply (ListFacts.filter_length_lt f _ l x).
Qed.

Lemma filter_neq_In o l x : In x (filter (fun y => negb (y =? o)) l) <-> In x l /\ x <> o.
Proof. rewrite filter_In, negb_true_iff, Nat.eqb_neq. tauto. Qed.

Lemma map_fst_filter {B} (f : nat -> bool) (l : list (nat * B)) :
  map fst (filter (fun e => f (fst e)) l) = filter f (map fst l).
Proof. induction l as [|[a b] l IH]; simpl; auto. destruct (f a); simpl; rewrite IH; reflexivity. Qed.

Lemma existsb_eqb_in x l : existsb (Nat.eqb x) l = true <-> In x l.
Proof.
  rewrite existsb_exists. split.
  - intros [y [H1 H2]]. apply Nat.eqb_eq in H2. subst. exact H1.
  - intros H. exists x. split; auto. apply Nat.eqb_refl.
Qed.

Lemma notin_spec x l : negb (existsb (Nat.eqb x) l) = true <-> ~ In x l.
Proof. rewrite negb_true_iff, <- not_true_iff_false, existsb_eqb_in. tauto. Qed.

Lemma in_without d l x : In x (filter (fun y => negb (existsb (Nat.eqb y) d)) l) <-> In x l /\ ~ In x d.
Proof. rewrite filter_In, notin_spec. tauto. Qed.

Lemma in_reg_spec s o : in_reg s o = true <-> In o (regids s).
Proof.
  unfold in_reg, regids. rewrite existsb_exists, in_map_iff. split.
  - intros [e [H1 H2]]. apply Nat.eqb_eq in H2. exists e; auto.
  - intros [e [H1 H2]]. exists e. split; auto. apply Nat.eqb_eq; auto.
Qed.

Lemma is_root_spec s o : is_root s o = true <-> In (o, true) (reg s).
Proof.
  unfold is_root. rewrite existsb_exists. split.
  - intros [[y r] [Hin Hb]]. apply andb_true_iff in Hb. destruct Hb as [Hy Hr]. apply Nat.eqb_eq in Hy. simpl in *. subst. exact Hin.
  - intros H. exists (o, true). split; [exact H | simpl; rewrite Nat.eqb_refl; reflexivity].
Qed.

Lemma in_pend_spec s o : in_pend s o = true <-> In o (pids s).
Proof.
  unfold in_pend, pids. rewrite somes_in, existsb_exists. split.
  - intros [[y|] [H1 H2]]; simpl in H2; [|discriminate]. apply Nat.eqb_eq in H2. subst. exact H1.
  - intros H. exists (Some o). split; auto. simpl. apply Nat.eqb_refl.
Qed.

(* A = objects whose destructor is running (Fin logged, memory not yet released) *)
Record GInv (A : list id) (s : st) : Prop := {
  g_reg_nodup : NoDup (regids s);
  g_pend_nodup : NoDup (pids s);
  g_disj : forall x, In x (regids s) -> ~ In x (pids s);
  g_fresh : forall x, In x (regids s) \/ In x (pids s) -> fin_count s x = 0;
  g_prog : forall x, In x A -> fin_count s x = 1 /\ free_count s x = 0;
  g_rest : forall x, ~ In x A -> free_count s x = fin_count s x /\ fin_count s x <= 1;
  g_info : forall x, In x (regids s) \/ In x (pids s) -> info s x <> None;
  g_alloc : forall x, info s x = None -> fin_count s x = 0;
  g_ids_nodup : NoDup (ids s);
  g_ids : forall x, In x (ids s) <-> info s x <> None;
  g_spawn : forall x, info s x = None -> spawns s x = []
}.

Lemma ginv_fresh_notin A s o : GInv A s -> fin_count s o = 0 -> ~ In o A.
Proof. intros G Hf HA. destruct (g_prog _ _ G o HA). lia. Qed.

(* s' extends s: what was allocated stays as it was; objects allocated in between (by destructors)
   are managed plain objects, registered if the collector runs *)
Record Ext (s s' : st) : Prop := {
  e_running : running s' = running s;
  e_info : forall x, info s x <> None -> info s' x = info s x;
  e_torn : torn s' = torn s;
  e_oof : oof s' = oof s;
  e_fin : forall x, fin_count s x <= fin_count s' x;
  e_free : forall x, free_count s x <= free_count s' x;
  e_reg : forall e, In e (reg s') -> In e (reg s) \/ (info s (fst e) = None /\ snd e = false);
  e_pend : Forall2 (fun a b => a = b \/ a = None) (pend s') (pend s);
  e_regdone : forall x, In x (regids s) -> ~ In x (regids s') -> done s' x;
  e_penddone : forall x, In x (pids s) -> ~ In x (pids s') -> done s' x;
  e_done : forall x, done s x -> done s' x;
  e_owned : forall y, fin_count s' y = 0 -> owned s' y = owned s y;
  e_spawns : forall x, info s x <> None -> spawns s' x = spawns s x;
  e_prog_owned : forall y, 0 < fin_count s y -> free_count s' y = 0 -> owned s' y = owned s y;
  e_new : forall x, info s x = None -> info s' x <> None ->
            info s' x = Some (KManaged, false) /\ spawns s' x = [] /\
            (running s = true -> In x (regids s') \/ In x (pids s') \/ done s' x)
}.

(* the invariant reads the registry and the pending list only as sets of entries: it passes to a state
   whose entries are entries of s *)
Lemma GInv_sub A s s' :
  GInv A s -> NoDup (regids s') -> NoDup (pids s') -> (forall x, In x (regids s') -> ~ In x (pids s')) ->
  (forall x, In x (regids s') \/ In x (pids s') -> In x (regids s) \/ In x (pids s)) ->
  log s' = log s -> info s' = info s -> ids s' = ids s -> spawns s' = spawns s -> GInv A s'.
Proof.
  intros G Hr Hp Hd Hsub Hl Hi Hids Hs.
  constructor; unfold fin_count, free_count; rewrite ?Hl, ?Hi, ?Hids, ?Hs; try assumption; try apply G.
  - intros x Hx. apply (g_fresh _ _ G), Hsub, Hx.
  - intros x Hx. apply (g_info _ _ G), Hsub, Hx.
Qed.

Lemma GInv_same A s s' :
  GInv A s -> reg s' = reg s -> pend s' = pend s -> log s' = log s -> info s' = info s -> ids s' = ids s ->
  spawns s' = spawns s -> GInv A s'.
Proof.
  intros G Hr Hp Hl Hi Hids Hs. apply (GInv_sub A s s' G); unfold regids, pids; rewrite ?Hr, ?Hp; auto; apply G.
Qed.

(* Forall2 (fun a b => a = b \/ a = None) l' l: the pending list l of s and l' of a later s'; entries are
   cleared, never added or moved *)
Lemma cleared_refl {A} (l : list (option A)) : Forall2 (fun a b => a = b \/ a = None) l l.
Proof. induction l; constructor; auto. Qed.

Lemma cleared_trans {A} (l1 l2 l3 : list (option A)) :
  Forall2 (fun a b => a = b \/ a = None) l1 l2 -> Forall2 (fun a b => a = b \/ a = None) l2 l3 ->
  Forall2 (fun a b => a = b \/ a = None) l1 l3.
Proof.
  intros H. revert l3. induction H; intros l3 H3; inversion H3; subst; constructor.
  - destruct H as [-> | ->]; auto.
  - apply IHForall2; assumption.
Qed.

Lemma cleared_somes_incl (l1 l2 : list (option id)) :
  Forall2 (fun a b => a = b \/ a = None) l1 l2 -> incl (somes l1) (somes l2).
Proof.
  induction 1; simpl; [apply incl_refl|].
  destruct H as [-> | ->]; simpl.
  - apply incl_app; [apply incl_appl, incl_refl | apply incl_appr; assumption].
  - apply incl_appr; assumption.
Qed.

Lemma cleared_null o l : Forall2 (fun a b => a = b \/ a = None) (null_pend o l) l.
Proof. unfold null_pend. induction l; simpl; constructor; auto. destruct (opt_is o a); auto. Qed.

Lemma Forall2_same_length {A B} (R : A -> B -> Prop) l1 l2 : Forall2 R l1 l2 -> length l1 = length l2.
Proof. induction 1; simpl; auto. Qed.

Lemma cleared_nth (l1 l2 : list (option id)) j :
  Forall2 (fun a b => a = b \/ a = None) l1 l2 -> nth j l1 None = nth j l2 None \/ nth j l1 None = None.
Proof.
  intros H. revert j. induction H; intros j; [destruct j; auto|].
  destruct j; simpl; auto.
Qed.

Lemma Ext_refl s : Ext s s.
Proof.
  constructor; auto; try tauto.
  apply cleared_refl.
Qed.

Lemma Ext_regids s s' x : Ext s s' -> info s x <> None -> In x (regids s') -> In x (regids s).
Proof.
  intros H Hi Hx. unfold regids in *. apply in_map_iff in Hx. destruct Hx as [e [<- He]].
  destruct (e_reg _ _ H e He) as [Hin|[Hn _]]; [apply in_map; exact Hin | contradiction].
Qed.

Lemma Ext_pids s s' : Ext s s' -> incl (pids s') (pids s).
Proof. intros H. apply cleared_somes_incl. apply H. Qed.

(* an entry is still there or has been dealt with *)
Lemma Ext_entry s s' x :
  Ext s s' -> In x (regids s) \/ In x (pids s) \/ done s x -> In x (regids s') \/ In x (pids s') \/ done s' x.
Proof.
  intros E [H|[H|H]].
  - destruct (in_dec Nat.eq_dec x (regids s')); [tauto | right; right; apply (e_regdone _ _ E); assumption].
  - destruct (in_dec Nat.eq_dec x (pids s')); [tauto | right; right; apply (e_penddone _ _ E); assumption].
  - right; right. apply (e_done _ _ E), H.
Qed.

Lemma Ext_still s s' x :
  Ext s s' -> In x (regids s) \/ In x (pids s) -> (In x (regids s') \/ In x (pids s')) \/ done s' x.
Proof.
  intros E H. destruct (Ext_entry s s' x E) as [H'|[H'|H']]; [destruct H; auto | auto ..].
Qed.

(* e_owned / e_prog_owned compose because the counts are monotone; e_new splits on whether x was allocated
   before or after s2, and Ext_entry carries "registered or pending or done" from s2 to s3 *)
Lemma Ext_trans s1 s2 s3 : Ext s1 s2 -> Ext s2 s3 -> Ext s1 s3.
Proof.
  intros H1 H2.
  assert (Hi : forall x, info s1 x <> None -> info s2 x <> None) by (intros x Hx; rewrite (e_info _ _ H1 x Hx); exact Hx).
  constructor.
  1,3,4: etransitivity; [apply H2 | apply H1].
  2,3: intros x; etransitivity; [apply H1 | apply H2].
  - intros x Hx. rewrite (e_info _ _ H2 x (Hi x Hx)). apply H1, Hx.
  - intros e He. destruct (e_reg _ _ H2 e He) as [Hin|[Hn Hf]]; [apply (e_reg _ _ H1 e Hin)|].
    right. split; [|exact Hf]. destruct (info s1 (fst e)) eqn:Hi1; [|reflexivity].
    exfalso. apply (Hi (fst e)); congruence.
  - eapply cleared_trans; [apply H2 | apply H1].
  - intros x Hin Hnot. destruct (in_dec Nat.eq_dec x (regids s2)).
    + apply (e_regdone _ _ H2); assumption.
    + apply (e_done _ _ H2), (e_regdone _ _ H1); assumption.
  - intros x Hin Hnot. destruct (in_dec Nat.eq_dec x (pids s2)).
    + apply (e_penddone _ _ H2); assumption.
    + apply (e_done _ _ H2), (e_penddone _ _ H1); assumption.
  - intros x Hd. apply (e_done _ _ H2), (e_done _ _ H1), Hd.
  - intros y Hy. rewrite (e_owned _ _ H2 y Hy). apply (e_owned _ _ H1).
    pose proof (e_fin _ _ H2 y). lia.
  - intros x Hx. rewrite (e_spawns _ _ H2 x (Hi x Hx)). apply H1, Hx.
  - intros y Hy Hf. rewrite (e_prog_owned _ _ H2 y); [apply (e_prog_owned _ _ H1 y Hy)| |exact Hf].
    + pose proof (e_free _ _ H2 y). lia.
    + pose proof (e_fin _ _ H1 y). lia.
  - intros x Hn Hs. destruct (info s2 x) eqn:Hi2.
    + (* allocated between s1 and s2 *)
      assert (Hi2' : info s2 x <> None) by congruence.
      destruct (e_new _ _ H1 x Hn Hi2') as (Ha & Hb & Hc).
      rewrite (e_info _ _ H2 x Hi2'), (e_spawns _ _ H2 x Hi2'). repeat split; auto.
      intros Hrun. apply (Ext_entry s2 s3 x H2), Hc, Hrun.
    + rewrite <- (e_running _ _ H1). apply (e_new _ _ H2 x Hi2 Hs).
Qed.

Lemma ginv_done_mono A s s' x :
  GInv A s' -> ~ In x A -> fin_count s x <= fin_count s' x -> free_count s x <= free_count s' x ->
  done s x -> done s' x.
Proof.
  intros G Hn H1 H2 [Hd1 Hd2]. destruct (g_rest _ _ G x Hn) as [Ha Hb]. unfold done. lia.
Qed.

(* Ext between states that differ only in fields the relation does not look at, or in the ledger *)
Lemma Ext_same s s' :
  running s' = running s -> info s' = info s -> torn s' = torn s -> oof s' = oof s ->
  reg s' = reg s -> pend s' = pend s -> owned s' = owned s -> spawns s' = spawns s ->
  (forall x, fin_count s x <= fin_count s' x) -> (forall x, free_count s x <= free_count s' x) ->
  (forall x, done s x -> done s' x) -> Ext s s'.
Proof.
  intros Hr Hi Ht Ho Hg Hp Hw Hs Hf Hfr Hd.
  constructor; unfold regids, pids; rewrite ?Hi, ?Hg, ?Hp, ?Hw, ?Hs; auto using cleared_refl; intros x H1 H2; contradiction.
Qed.

Lemma phi_add_free s o : phi (add_log (LFree o) s) = phi s.
Proof. reflexivity. Qed.

Definition weight (s : st) (x : id) : nat := if fin_started s x then 0 else S (length (spawns s x)).

Lemma list_sum_map_upd {A} (f g : A -> nat) l o :
  NoDup l -> In o l -> (forall x, x <> o -> g x = f x) -> list_sum (map g l) + f o = list_sum (map f l) + g o.
Proof.
  intros Hnd Hin Hfg. induction Hnd as [|a l Ha Hnd IH]; [destruct Hin|]. simpl.
  destruct Hin as [->|Hin].
  - rewrite (map_ext_in g f l); [lia|]. intros x Hx. apply Hfg. intros ->. contradiction.
  - rewrite (Hfg a) by (intros ->; contradiction). specialize (IH Hin). lia.
Qed.

(* logging the destructor call of o takes o's weight out of the potential *)
Lemma phi_add_fin s o :
  NoDup (ids s) -> In o (ids s) -> fin_count s o = 0 ->
  measure (add_log (LFin o) s) + S (length (spawns s o)) = measure s.
Proof.
  intros Hnd Hin H0. apply fin_started_spec in H0.
  assert (Hw : forall x, weight (add_log (LFin o) s) x = if x =? o then 0 else weight s x)
    by (intros x; unfold weight, fin_started; simpl; destruct (x =? o); reflexivity).
  pose proof (list_sum_map_upd (weight s) (weight (add_log (LFin o) s)) (ids s) o Hnd Hin) as H.
  assert (Ho : weight s o = S (length (spawns s o))) by (unfold weight; rewrite H0; reflexivity).
  rewrite (Hw o), Nat.eqb_refl, Ho, Nat.add_0_r in H. apply H.
  intros x Hx. rewrite Hw. apply Nat.eqb_neq in Hx. rewrite Hx. reflexivity.
Qed.

Lemma phi_add_obj s c k b : fin_count s c = 0 -> measure (add_obj c k b s) = S (length (spawns s c)) + measure s.
Proof.
  intros H0. apply fin_started_spec in H0. unfold measure, phi. simpl. change (fin_started (add_obj c k b s) c) with (fin_started s c).
  rewrite H0. reflexivity.
Qed.

Lemma add_fin_ok A s o :
  GInv A s -> ~ In o (regids s) -> ~ In o (pids s) -> fin_count s o = 0 -> info s o <> None ->
  GInv (o :: A) (add_log (LFin o) s) /\ Ext s (add_log (LFin o) s) /\
  measure (add_log (LFin o) s) + S (length (spawns s o)) = measure s.
Proof.
  intros G Hr Hp Hf Hinfo. pose proof (ginv_fresh_notin A s o G Hf) as HoA.
  assert (Hfree : free_count s o = 0). { destruct (g_rest _ _ G o HoA). lia. }
  split; [|split].
  - constructor; try apply G; intros x Hx; rewrite fin_add_fin, ?free_add_fin;
      destruct (Nat.eqb_spec x o) as [->|Hne]; simpl.
    + tauto.
    + apply (g_fresh _ _ G), Hx.
    + lia.
    + destruct Hx as [<-|Hx]; [congruence | apply (g_prog _ _ G), Hx].
    + exfalso. apply Hx. left. reflexivity.
    + apply (g_rest _ _ G). intros HA. apply Hx. right. exact HA.
    + contradiction.
    + apply (g_alloc _ _ G), Hx.
  - apply Ext_same; try reflexivity; unfold done; intros x; rewrite ?fin_add_fin, ?free_add_fin;
      destruct (Nat.eqb_spec x o) as [->|]; simpl; lia.
  - apply phi_add_fin; [apply G | apply (g_ids _ _ G); exact Hinfo | exact Hf].
Qed.

Lemma add_free_ok A s o :
  GInv (o :: A) s -> ~ In o A -> ~ In o (regids s) -> ~ In o (pids s) ->
  GInv A (add_log (LFree o) s) /\ Ext s (add_log (LFree o) s) /\ done (add_log (LFree o) s) o /\
  measure (add_log (LFree o) s) = measure s.
Proof.
  intros G HoA Hr Hp.
  destruct (g_prog _ _ G o (or_introl eq_refl)) as [Hf1 Hf0].
  split; [|split; [|split; [|reflexivity]]].
  - constructor; try apply G; intros x Hx; rewrite fin_add_free, ?free_add_free;
      try (apply G; exact Hx); destruct (Nat.eqb_spec x o) as [->|Hne]; simpl.
    + contradiction.
    + apply (g_prog _ _ G). right. exact Hx.
    + lia.
    + apply (g_rest _ _ G). intros [<-|HA]; [congruence | contradiction].
  - apply Ext_same; try reflexivity; unfold done; intros x; rewrite ?fin_add_free, ?free_add_free;
      destruct (Nat.eqb_spec x o) as [->|]; simpl; lia.
  - unfold done. rewrite fin_add_free, free_add_free, Nat.eqb_refl. lia.
Qed.

(* the end of o's destructor: its Box pointer is cleared, its memory released *)
Lemma finish_ok A s o :
  GInv (o :: A) s -> ~ In o A -> ~ In o (regids s) -> ~ In o (pids s) ->
  let s' := add_log (LFree o) (set_owned (upd_owned (owned s) o None) s) in
  GInv A s' /\ Ext s s' /\ done s' o /\ measure s' = measure s.
Proof.
  intros G HoA Hr Hp s'.
  destruct (add_free_ok A (set_owned (upd_owned (owned s) o None) s) o) as (G1 & E1 & D1 & M1); auto.
  { apply (GInv_same _ s); auto. }
  fold s' in G1, E1, D1.
  (* the pointer changes only at o, which is done *)
  assert (Hown : forall y, fin_count s' y = 0 \/ free_count s' y = 0 -> owned s' y = owned s y).
  { intros y Hy. cbn. unfold upd_owned. destruct (Nat.eqb_spec y o) as [->|]; [destruct D1; lia | reflexivity]. }
  split; [exact G1|]. split; [|split; [exact D1 | exact M1]].
  destruct E1. constructor; auto.
Qed.

(* closure under ownership: with the collector running, whenever the destructor of y ran between
   s and s', the object y owned in s — if it was registered or pending in s — is done in s' *)
Definition Clo (s s' : st) : Prop :=
  running s = true ->
  forall y p, fin_count s y = 0 -> 0 < fin_count s' y -> owned s y = Some p ->
              In p (regids s) \/ In p (pids s) -> done s' p.

Lemma Clo_refl s : Clo s s.
Proof. intros _ y p H0 H1. lia. Qed.

Lemma Clo_same_fin s s' : (forall y, fin_count s' y = fin_count s y) -> Clo s s'.
Proof. intros Hl _ y p H0 H1. rewrite Hl in H1. lia. Qed.

Lemma Clo_trans s1 s2 s3 : Ext s1 s2 -> Ext s2 s3 -> Clo s1 s2 -> Clo s2 s3 -> Clo s1 s3.
Proof.
  intros E1 E2 C1 C2 Hrun y p H0 H3 Hown Hin.
  destruct (Nat.eq_dec (fin_count s2 y) 0) as [Hz|Hnz].
  - (* the destructor of y runs after s2, where y still owns p: p is still an entry, or done already *)
    assert (Hrun2 : running s2 = true) by (rewrite (e_running _ _ E1); exact Hrun).
    assert (Hown2 : owned s2 y = Some p) by (rewrite (e_owned _ _ E1 y Hz); exact Hown).
    destruct (Ext_still s1 s2 p E1 Hin) as [H|H]; [exact (C2 Hrun2 y p Hz H3 Hown2 H) | apply (e_done _ _ E2), H].
  - apply (e_done _ _ E2), (C1 Hrun y p H0); [lia | exact Hown | exact Hin].
Qed.

(* what a finaliser `fin` achieves on states of measure below n *)
Definition FinOK (fin : st -> id -> st) (n : nat) : Prop :=
  forall A s o, GInv A s -> ~ In o (regids s) -> ~ In o (pids s) -> fin_count s o = 0 -> info s o <> None -> measure s < n ->
    GInv A (fin s o) /\ Ext s (fin s o) /\ done (fin s o) o /\ Clo s (fin s o) /\ measure (fin s o) <= measure s.

(* s1 = s with the entry of p taken out of the registry or out of the pending list; once p is
   done, everything that followed extends s itself *)
Lemma Ext_from_removed s s1 s3 p :
  running s1 = running s -> info s1 = info s -> torn s1 = torn s -> oof s1 = oof s ->
  log s1 = log s -> incl (reg s1) (reg s) -> Forall2 (fun a b => a = b \/ a = None) (pend s1) (pend s) ->
  (forall x, In x (regids s) -> x <> p -> In x (regids s1)) ->
  (forall x, In x (pids s) -> x <> p -> In x (pids s1)) ->
  owned s1 = owned s -> spawns s1 = spawns s ->
  Ext s1 s3 -> done s3 p -> Ext s s3.
Proof.
  intros Hr Hi Ht Ho Hl Hreg Hpend Kr Kp Hown Hsp E Dn.
  constructor; unfold done, fin_count, free_count; rewrite <- ?Hr, <- ?Hi, <- ?Ht, <- ?Ho, <- ?Hl, <- ?Hown, <- ?Hsp;
    try apply E.
  - intros e He. destruct (e_reg _ _ E e He); [left; apply Hreg|right]; assumption.
  - eapply cleared_trans; [apply E | exact Hpend].
  - intros x Hx Hnx. destruct (Nat.eq_dec x p) as [->|Hne]; [exact Dn | apply (e_regdone _ _ E); auto].
  - intros x Hx Hnx. destruct (Nat.eq_dec x p) as [->|Hne]; [exact Dn | apply (e_penddone _ _ E); auto].
Qed.

(* The entry of p taken out of the registry and cleared in the pending list.  GC_Rem and the finaliser
   loop do the one of the two that applies; an object is never both registered and pending, so the other
   changes nothing. *)
Definition detach (p : id) (s : st) : st := set_pend (null_pend p (pend s)) (set_reg (rem_reg p (reg s)) s).

Lemma null_pend_notin o l : ~ In o (somes l) -> null_pend o l = l.
Proof.
  unfold null_pend. induction l as [|[y|] l IH]; simpl; intros H; auto.
  - destruct (Nat.eqb_spec y o) as [->|Hne]; [tauto|]. rewrite IH; auto.
  - rewrite IH; auto.
Qed.

Lemma rem_reg_notin o r : ~ In o (map fst r) -> rem_reg o r = r.
Proof.
  unfold rem_reg. induction r as [|[y b] r IH]; simpl; intros H; [reflexivity|].
  destruct (Nat.eqb_spec y o) as [->|Hne]; [tauto|]. simpl. rewrite IH; auto.
Qed.

Lemma detach_pending A s p : GInv A s -> In p (pids s) -> set_pend (null_pend p (pend s)) s = detach p s.
Proof.
  intros G H. unfold detach. rewrite rem_reg_notin; [reflexivity|]. intros Hr. exact (g_disj _ _ G p Hr H).
Qed.

Lemma detach_registered A s p : GInv A s -> In p (regids s) -> set_reg (rem_reg p (reg s)) s = detach p s.
Proof.
  intros G H. unfold detach. rewrite null_pend_notin; [reflexivity|]. exact (g_disj _ _ G p H).
Qed.

Lemma regids_detach p s : regids (detach p s) = filter (fun y => negb (y =? p)) (regids s).
Proof. apply (map_fst_filter (fun y => negb (y =? p))). Qed.

Lemma pids_detach p s : pids (detach p s) = filter (fun y => negb (y =? p)) (pids s).
Proof. apply somes_null. Qed.

(* the detached state is ready for the destructor of p *)
Lemma detach_ok A s p :
  GInv A s -> In p (regids s) \/ In p (pids s) ->
  GInv A (detach p s) /\ ~ In p (regids (detach p s)) /\ ~ In p (pids (detach p s)) /\
  fin_count (detach p s) p = 0 /\ info (detach p s) p <> None.
Proof.
  intros G Hin.
  assert (Hout : forall l, ~ In p (filter (fun y => negb (y =? p)) l))
    by (intros l H; apply filter_neq_In in H; apply (proj2 H); reflexivity).
  split; [|rewrite regids_detach, pids_detach;
           split; [apply Hout | split; [apply Hout | split; [apply (g_fresh _ _ G), Hin | apply (g_info _ _ G), Hin]]]].
  apply (GInv_sub A s _ G); try reflexivity; rewrite ?regids_detach, ?pids_detach.
  - apply NoDup_filter, G.
  - apply NoDup_filter, G.
  - intros x Hx Hx'. apply filter_neq_In in Hx, Hx'. exact (g_disj _ _ G x (proj1 Hx) (proj1 Hx')).
  - intros x [Hx|Hx]; apply filter_neq_In in Hx; [left | right]; apply Hx.
Qed.

(* a good finaliser run on p once its entry is out achieves what FinOK says, from the state that still had
   the entry *)
Lemma fin_detached fin n : FinOK fin n -> forall A s p,
  GInv A s -> In p (regids s) \/ In p (pids s) -> measure s < n ->
  let s' := fin (detach p s) p in
  GInv A s' /\ Ext s s' /\ done s' p /\ Clo s s' /\ measure s' <= measure s.
Proof.
  intros HF A s p G Hin Hm s'. destruct (detach_ok A s p G Hin) as (G1 & N1 & N2 & F0 & I1).
  destruct (HF A (detach p s) p G1 N1 N2 F0 I1 Hm) as (G2 & E2 & Dn & C2 & M2).
  split; [exact G2|]. split; [|split; [exact Dn | split; [|exact M2]]].
  - apply (Ext_from_removed s (detach p s) s' p); try reflexivity; try assumption.
    + apply incl_filter.
    + apply cleared_null.
    + intros x Hx Hne. rewrite regids_detach. apply filter_neq_In. split; assumption.
    + intros x Hx Hne. rewrite pids_detach. apply filter_neq_In. split; assumption.
  - intros Hrun y q H0 H3 Ho Hq. destruct (Nat.eq_dec q p) as [->|Hne]; [exact Dn|].
    apply (C2 Hrun y q H0 H3 Ho). rewrite regids_detach, pids_detach.
    destruct Hq as [Hq|Hq]; [left | right]; apply filter_neq_In; split; assumption.
Qed.

Lemma arrange_spec order s :
  NoDup (regids s) -> NoDup (arrange order s) /\ (forall x, In x (arrange order s) <-> In x (regids s)).
Proof.
  intros Hnd. unfold arrange. fold (regids s).
  set (o1 := filter (in_reg s) (nodup Nat.eq_dec order)).
  assert (Ho1 : forall x, In x o1 -> In x (regids s)) by (intros x Hx; apply filter_In in Hx; apply in_reg_spec, Hx).
  split.
  - apply NoDup_app_intro; [apply NoDup_filter, NoDup_nodup | apply NoDup_filter, Hnd |].
    intros x Hx Hx'. apply in_without in Hx'. tauto.
  - intros x. rewrite in_app_iff, in_without. destruct (in_dec Nat.eq_dec x o1); [|tauto].
    split; auto.
Qed.

Definition dead_of (order marks : list id) (s : st) : list id :=
  filter (fun o => negb (is_root s o) && negb (existsb (Nat.eqb o) marks)) (arrange order s).

(* the state of a sweep when it has moved `dead` to the pending list (before the mitems rule and the
   finaliser loop) *)
Definition compact_st (dead : list id) (s : st) : st :=
  set_pend (map Some dead) (set_reg (filter (fun e => negb (existsb (Nat.eqb (fst e)) dead)) (reg s)) s).

Lemma regids_compact dead s : regids (compact_st dead s) = filter (fun x => negb (existsb (Nat.eqb x) dead)) (regids s).
Proof. apply (map_fst_filter (fun x => negb (existsb (Nat.eqb x) dead))). Qed.

Lemma pids_compact dead s : pids (compact_st dead s) = dead.
Proof. apply somes_map_Some. Qed.

Lemma compact_ginv A s dead : GInv A s -> NoDup dead -> incl dead (regids s) -> GInv A (compact_st dead s).
Proof.
  intros G Hnd Hin. apply (GInv_sub A s); try reflexivity; try exact G; rewrite ?regids_compact, ?pids_compact.
  - apply NoDup_filter, G.
  - exact Hnd.
  - intros x Hx. apply in_without in Hx. tauto.
  - intros x [Hx|Hx]; left; [apply in_without in Hx; tauto | apply Hin, Hx].
Qed.

Lemma add_obj_ginv A s c k b : GInv A s -> info s c = None -> GInv A (add_obj c k b s).
Proof.
  intros G Hn. constructor; try apply G.
  1,2,5: intros x; simpl; destruct (x =? c); [discriminate | apply G].
  - simpl. constructor; [|apply G]. intros Hin. apply (g_ids _ _ G) in Hin. contradiction.
  - intros x. simpl. destruct (Nat.eqb_spec x c) as [->|Hne].
    + split; [discriminate | intros _; left; reflexivity].
    + rewrite <- (g_ids _ _ G). split; [intros [Hx|Hx]; [congruence | exact Hx] | intros Hx; right; exact Hx].
Qed.

Lemma register_ginv A s c (r : bool) :
  GInv A s -> ~ In c (regids s) -> ~ In c (pids s) -> fin_count s c = 0 -> info s c <> None ->
  GInv A (set_reg ((c, r) :: reg s) s).
Proof.
  intros G Hnr Hnp Hf Hi. constructor; try apply G.
  - simpl. constructor; [exact Hnr | apply G].
  - intros x [<-|Hx]; [exact Hnp | apply (g_disj _ _ G); exact Hx].
  - intros x [[<-|Hx]|Hx]; [exact Hf | apply (g_fresh _ _ G); auto ..].
  - intros x [[<-|Hx]|Hx]; [exact Hi | apply (g_info _ _ G); auto ..].
Qed.

(* the allocation part of GC_Set for a fresh managed plain object c: registered if the collector runs *)
Lemma child_alloc_ok A s c :
  GInv A s -> info s c = None ->
  let s1 := add_obj c KManaged false s in
  let s2 := set_reg ((c, false) :: reg s1) s1 in
  GInv A s1 /\ GInv A s2 /\ measure s1 = S (measure s) /\ (running s = false -> Ext s s1) /\ Ext s s2.
Proof.
  intros G Hn s1 s2.
  assert (Hsp : spawns s c = []) by apply (g_spawn _ _ G), Hn.
  assert (Hf0 : fin_count s c = 0) by apply (g_alloc _ _ G), Hn.
  pose proof (add_obj_ginv A s c KManaged false G Hn : GInv A s1) as G1.
  split; [exact G1|]. split; [|split].
  - apply register_ginv; auto.
    + intros Hin. apply (g_info _ _ G c (or_introl Hin)), Hn.
    + intros Hin. apply (g_info _ _ G c (or_intror Hin)), Hn.
    + simpl. rewrite Nat.eqb_refl. discriminate.
  - unfold s1. rewrite (phi_add_obj s c _ _ Hf0), Hsp. reflexivity.
  - assert (Hi : forall x, info s x <> None -> info s1 x = info s x).
    { intros x Hx. simpl. destruct (Nat.eqb_spec x c) as [->|]; [contradiction | reflexivity]. }
    assert (Hnew : forall x, info s x = None -> info s1 x <> None -> x = c /\ info s1 x = Some (KManaged, false) /\ spawns s1 x = []).
    { intros x Hx. simpl. destruct (Nat.eqb_spec x c) as [->|]; [auto | contradiction]. }
    split; [intros Hrun|]; constructor; auto using cleared_refl; try (intros x Hx Hnx; contradiction).
    + intros x Hx Hx1. destruct (Hnew x Hx Hx1) as (_ & H1 & H2). repeat split; auto. congruence.
    + intros e [<-|He]; auto.
    + intros x Hx Hnx. exfalso. apply Hnx. right. exact Hx.
    + intros x Hx Hx1. destruct (Hnew x Hx Hx1) as (-> & H1 & H2). repeat split; auto. intros _. left. left. reflexivity.
Qed.

(* the destructor of o runs between s and s': Clo may be taken from the state after its call was
   logged, once what o owned is known to be done *)
Lemma Clo_after_fin s o s' :
  Clo (add_log (LFin o) s) s' ->
  (running s = true -> forall p, owned s o = Some p -> In p (regids s) \/ In p (pids s) -> done s' p) ->
  Clo s s'.
Proof.
  intros C Ho Hrun y q H0 H3 Hoy Hin.
  destruct (Nat.eq_dec y o) as [->|Hne]; [exact (Ho Hrun q Hoy Hin)|].
  apply (C Hrun y q); auto. rewrite fin_add_fin. apply Nat.eqb_neq in Hne. rewrite Hne. exact H0.
Qed.

Lemma live_spec s o : live s o = true <-> info s o <> None /\ fin_count s o = 0.
Proof.
  unfold live. destruct (info s o); [rewrite negb_true_iff, fin_started_spec|]; intuition congruence.
Qed.

Lemma kind_of_info s o k : kind_of s o = Some k -> exists b, info s o = Some (k, b).
Proof.
  unfold kind_of. destruct (info s o) as [[k' b]|]; [|discriminate]. intros H. injection H as ->. exists b. reflexivity.
Qed.

Lemma freed_of_done s x : done s x -> freed s x = true.
Proof.
  intros [_ Hf]. unfold freed. destruct (existsb (lev_eqb (LFree x)) (log s)) eqn:E; [reflexivity|].
  apply count_zero in E. unfold free_count in Hf. lia.
Qed.

Lemma sp_run_snoc h e : sp_run (h ++ [e]) = sp_step (sp_run h) e.
Proof. unfold sp_run. rewrite fold_left_app. reflexivity. Qed.

Lemma s_in_spec l o : s_in l o = true <-> In o l.
Proof. unfold s_in. apply existsb_eqb_in. Qed.

Lemma s_live_info p x : s_live p x = true -> s_info p x <> None.
Proof. unfold s_live. destruct (s_info p x); discriminate. Qed.

Lemma sp_ids_info h x : s_info (sp_run h) x <> None -> In x (s_ids (sp_run h)).
Proof.
  induction h as [|e h IH] using rev_ind; [intros H; exfalso; apply H; reflexivity|].
  rewrite sp_run_snoc. set (p := sp_run h) in *. unfold sp_step.
  destruct (s_torn p); [exact IH|].
  destruct e as [k isbox o order marks | b [o|] | k o | order marks | | | order | o cs | q]; cbn [s_info s_ids];
    try exact IH; try (destruct (_ && _); exact IH).
  destruct (s_info p o) eqn:Hi; [exact IH|]. cbn [s_info s_ids].
  destruct (Nat.eqb_spec x o) as [->|Hne]; [intros _; left; reflexivity | intros H; right; apply IH; exact H].
Qed.

(* the live identities the chain has not met yet: each step of the chain takes one out *)
Definition chain_rem (ids : list id) (alive : id -> bool) (acc : list id) : list id :=
  filter (fun x => alive x && negb (s_in acc x)) ids.

Lemma chain_rem_cons ids alive acc o :
  chain_rem ids alive (o :: acc) = filter (fun x => negb (x =? o)) (chain_rem ids alive acc).
Proof.
  unfold chain_rem, s_in. cbn [existsb]. induction ids as [|a l IH]; [reflexivity|]. cbn [filter]. rewrite IH.
  destruct (alive a), (a =? o) eqn:E, (existsb (Nat.eqb a) acc); simpl; rewrite ?E; reflexivity.
Qed.

Lemma chain_stable ids own alive :
  (forall x, alive x = true -> In x ids) ->
  forall f acc o, length (chain_rem ids alive acc) < f ->
    chain (S f) own acc alive o = chain f own acc alive o.
Proof.
  intros Hal. induction f as [|f IH]; intros acc o Hlt; [lia|].
  cbn [chain]. destruct (s_in acc o || negb (alive o)) eqn:Hstop; [reflexivity|].
  destruct (own o) as [p|]; [|reflexivity].
  apply orb_false_iff in Hstop. destruct Hstop as [Hnin Hao]. apply negb_false_iff in Hao.
  apply (IH (o :: acc) p). rewrite chain_rem_cons.
  assert (Hin : In o (chain_rem ids alive acc)) by (apply filter_In; rewrite Hao, Hnin; auto).
  pose proof (filter_length_lt (fun x => negb (x =? o)) _ o Hin) as H. cbv beta in H. rewrite Nat.eqb_refl in H.
  specialize (H eq_refl). lia.
Qed.

(* a fuel above the number of identities is never the reason the chain stops: any larger fuel
   yields the same set *)
Lemma chain_fuel_adequate ids own must alive o k :
  (forall x, alive x = true -> In x ids) ->
  chain (S (length ids) + k) own must alive o = chain (S (length ids)) own must alive o.
Proof.
  intros Hal. induction k as [|k IH]; [rewrite Nat.add_0_r; reflexivity|].
  rewrite <- IH, <- plus_n_Sm. apply (chain_stable ids own alive Hal).
  pose proof (filter_length_le (fun x => alive x && negb (s_in must x)) ids). unfold chain_rem. lia.
Qed.

(* a sweep seen from the state s it starts in: `dead` is moved to the pending list, that list is worked off
   (up to s2) and reset *)
Lemma Ext_from_compact s dead m s2 :
  pend s = [] -> Ext (set_mitems m (compact_st dead s)) s2 -> pids s2 = [] -> Ext s (set_pend [] s2).
Proof.
  intros Hpe E2 P2. set (s1 := set_mitems m (compact_st dead s)) in *.
  pose proof (regids_compact dead s : regids s1 = _) as Hr1. pose proof (pids_compact dead s : pids s1 = _) as Hp1.
  constructor; try apply E2.
  - intros e He. destruct (e_reg _ _ E2 e He) as [Hin|Hnew]; [left; apply (incl_filter _ _ _ Hin) | right; exact Hnew].
  - rewrite Hpe. constructor.
  - intros x Hx Hnx. destruct (in_dec Nat.eq_dec x dead) as [Hd|Hnd].
    + apply (e_penddone _ _ E2); rewrite ?Hp1, ?P2; auto.
    + apply (e_regdone _ _ E2); [rewrite Hr1; apply in_without; auto | exact Hnx].
  - unfold pids at 1. rewrite Hpe. intros x [].
  - intros x Hn Hs. destruct (e_new _ _ E2 x Hn Hs) as (Ha & Hb & Hc). repeat split; auto.
    intros Hrun. destruct (Hc Hrun) as [Hr|[Hp|Hd]]; auto. rewrite P2 in Hp. destruct Hp.
Qed.

Section Rule.
  (* the collection threshold rule (gc->mitems = mrule gc->nitems): WHEN a collection runs is tuning;
     everything below holds for every rule *)
  Variable mrule : nat -> nat.

(* GC_Rem (repaired) with a good finaliser *)
Lemma gc_rem_ok fin n :
  FinOK fin n -> forall A s p, GInv A s -> measure s < n ->
    GInv A (gc_rem mrule true fin s p) /\ Ext s (gc_rem mrule true fin s p) /\
    (running s = true -> In p (regids s) \/ In p (pids s) -> done (gc_rem mrule true fin s p) p) /\
    Clo s (gc_rem mrule true fin s p) /\ measure (gc_rem mrule true fin s p) <= measure s.
Proof.
  intros HF A s p G Hm. unfold gc_rem.
  destruct (running s) eqn:Hrun; simpl negb; cbv iota.
  2:{ split; [exact G|]. split; [apply Ext_refl|]. split; [discriminate |]. split; [apply Clo_refl | lia]. }
  (* the threshold set at the end is a field nothing here looks at *)
  set (s1 := if in_pend s p then _ else _).
  cut (GInv A s1 /\ Ext s s1 /\ (In p (regids s) \/ In p (pids s) -> done s1 p) /\ Clo s s1 /\ measure s1 <= measure s).
  { intros (G1 & E1 & D1 & C1 & M1). split; [apply (GInv_same A s1 _ G1); reflexivity|]. split; [destruct E1; constructor; assumption|]. auto. }
  subst s1. destruct (in_pend s p) eqn:Hp; [|destruct (in_reg s p) eqn:Hr]; cbv zeta iota.
  - apply in_pend_spec in Hp. rewrite (detach_pending A s p G Hp).
    destruct (fin_detached fin n HF A s p G (or_intror Hp) Hm) as (G2 & E & Dn & C & M).
    exact (conj G2 (conj E (conj (fun _ => Dn) (conj C M)))).
  - apply in_reg_spec in Hr. rewrite (detach_registered A s p G Hr).
    destruct (fin_detached fin n HF A s p G (or_introl Hr) Hm) as (G2 & E & Dn & C & M).
    exact (conj G2 (conj E (conj (fun _ => Dn) (conj C M)))).
  - split; [exact G|]. split; [apply Ext_refl|]. split; [|split; [apply Clo_refl | lia]].
    intros [H|H]; [apply in_reg_spec in H | apply in_pend_spec in H]; congruence.
Qed.

Lemma sweep_loop_ok fin n : FinOK fin n -> forall k i A s,
  GInv A s -> measure s < n -> (forall j, j < i -> nth j (pend s) None = None) -> i + k = length (pend s) ->
  let s' := sweep_loop true fin k i s in
  GInv A s' /\ Ext s s' /\ pids s' = [] /\ Clo s s' /\ measure s' <= measure s.
Proof using mrule. (* an argument as for the rest of the section, though nothing here mentions the rule *)
  intros HF. induction k as [|k IH]; intros i A s G Hm Hnone Hlen; cbn [sweep_loop].
  - split; [exact G|]. split; [apply Ext_refl|]. split; [|split; [apply Clo_refl | lia]].
    apply all_none_somes. intros j Hj. apply Hnone. lia.
  - destruct (nth i (pend s) None) as [o|] eqn:Hnth.
    + pose proof (nth_in_somes _ _ _ Hnth : In o (pids s)) as Hin. rewrite (detach_pending A s o G Hin).
      destruct (fin_detached fin n HF A s o G (or_intror Hin) Hm) as (G2 & E & Dn & C & M2).
      destruct (IH (S i) A _ G2) as (G3 & E3 & P3 & C3 & M3).
      * lia.
      * intros j Hj. destruct (cleared_nth _ _ j (e_pend _ _ E)) as [H|H]; [|exact H]. rewrite H.
        destruct (Nat.eq_dec j i) as [->|Hne]; [|apply Hnone; lia].
        (* slot i held o: had it kept it, o would be pending still, and not done *)
        rewrite Hnth in H. pose proof (g_fresh _ _ G2 o (or_intror (nth_in_somes _ _ _ H))). destruct Dn. lia.
      * rewrite (Forall2_same_length _ _ _ (e_pend _ _ E)). lia.
      * split; [exact G3|]. split; [eapply Ext_trans; eassumption |]. split; [exact P3|].
        split; [eapply Clo_trans; eassumption | lia].
    + apply IH; auto. intros j Hj. destruct (Nat.eq_dec j i) as [->|Hne]; [exact Hnth | apply Hnone; lia].
      lia.
Qed.

(* GC_Sweep (repaired) started outside any sweep: every unmarked non-root entry is finalised exactly
   once, nothing else changes hands, and the pending list is empty again afterwards *)
Lemma sweep_ok fin n : FinOK fin n -> forall order marks A s,
  GInv A s -> pend s = [] -> measure s < n ->
  let s' := sweep mrule true fin order marks s in
  GInv A s' /\ pend s' = [] /\ Ext s s' /\
  (forall x, In x (regids s) -> is_root s x = false -> ~ In x marks -> done s' x) /\ Clo s s' /\
  measure s' <= measure s.
Proof.
  intros HF order marks A s G Hpe Hm. unfold sweep. fold (dead_of order marks s).
  set (dead := dead_of order marks s). fold (compact_st dead s).
  set (s1 := set_mitems _ (compact_st dead s)).
  destruct (arrange_spec order s (g_reg_nodup _ _ G)) as [Hand Hain].
  assert (Hdead : incl dead (regids s)) by (intros x Hx; apply filter_In in Hx; apply Hain, Hx).
  (* the entries of s, split into those that stay registered and the pending ones *)
  pose proof (regids_compact dead s : regids s1 = _) as Hr1. pose proof (pids_compact dead s : pids s1 = _) as Hp1.
  assert (G1 : GInv A s1) by (apply (GInv_same A _ s1 (compact_ginv A s dead G (NoDup_filter _ Hand) Hdead)); reflexivity).
  destruct (sweep_loop_ok fin n HF (length dead) 0 A s1 G1 Hm) as (G2 & E2 & P2 & C2 & M2).
  { intros j Hj. lia. }
  { simpl. rewrite map_length. reflexivity. }
  set (s2 := sweep_loop true fin (length dead) 0 s1) in *.
  split; [|split; [reflexivity|split; [|split; [|split; [|exact M2]]]]].
  - apply (GInv_sub A s2); try reflexivity; try apply G2; [constructor | intros x _ [] | intros x [Hx|[]]; left; exact Hx].
  - exact (Ext_from_compact s dead _ s2 Hpe E2 P2).
  - intros x Hx Hroot Hmk. apply (e_penddone _ _ E2); [rewrite Hp1 | rewrite P2; auto].
    apply filter_In. split; [apply Hain, Hx|]. rewrite Hroot. apply notin_spec, Hmk.
  - intros Hrun y p H0 H3 Hoy [Hin|Hin]; [|unfold pids in Hin; rewrite Hpe in Hin; destruct Hin].
    apply (C2 Hrun y p H0 H3 Hoy). rewrite Hr1, Hp1, in_without.
    destruct (in_dec Nat.eq_dec p dead); auto.
Qed.

Notation finF := (finalise mrule true true true nopro).
Notation childF := (alloc_child mrule true true).

Lemma child_ok fin n : FinOK fin n -> forall A s c,
  GInv A s -> S (measure s) < n ->
  let s' := childF fin s c in
  GInv A s' /\ Ext s s' /\ Clo s s' /\ measure s' <= S (measure s).
Proof.
  intros HF A s c G Hm.
  (* what is claimed of the resulting state, under a name: the case analysis on the tests of alloc_child
     then does not carry its text along *)
  set (P := fun s' => GInv A s' /\ Ext s s' /\ Clo s s' /\ measure s' <= S (measure s)).
  change (P (childF fin s c)). unfold alloc_child.
  destruct (info s c) as [ib|] eqn:Hn.
  { split; [apply (GInv_same A s); auto|]. split; [apply Ext_same; auto|]. split; [apply Clo_same_fin; reflexivity | apply Nat.le_succ_diag_r]. }
  destruct (child_alloc_ok A s c G Hn) as (G1 & G2 & Hm1 & E1 & E2).
  set (s1 := add_obj c KManaged false s) in *.
  change (running s1) with (running s).
  destruct (running s) eqn:Hrun; simpl negb; cbv iota.
  2:{ split; [exact G1|]. split; [exact (E1 eq_refl)|]. split; [apply Clo_same_fin; reflexivity | lia]. }
  set (s2 := set_reg ((c, false) :: reg s1) s1) in *.
  assert (C2 : Clo s s2) by (apply Clo_same_fin; reflexivity).
  simpl andb. destruct (in_sweep s2) eqn:Hsw; [|destruct (mitems s2 <? nitems s2)];
    try (split; [exact G2|]; split; [exact E2|]; split; [exact C2 | change (measure s2) with (measure s1); lia]).
  (* the collection starts from s2 with the head of the queue taken off: a field nothing here looks at *)
  set (s3 := set_obsq (tl (obsq s2)) s2).
  assert (E3 : Ext s s3) by (destruct E2; constructor; assumption).
  assert (Hpe3 : pend s3 = []) by (unfold in_sweep in Hsw; change (pend s3) with (pend s2); destruct (pend s2); [reflexivity | discriminate]).
  destruct (sweep_ok fin n HF (fst (hd ([], []) (obsq s2))) (c :: snd (hd ([], []) (obsq s2))) A s3 ltac:(apply (GInv_same A s2); auto) Hpe3 ltac:(change (measure s3) with (measure s1); lia))
    as (G4 & _ & E4 & _ & C4 & M4).
  split; [exact G4|]. split; [exact (Ext_trans _ _ _ E3 E4)|]. split; [exact (Clo_trans _ _ _ E3 E4 C2 C4)|].
  change (measure s3) with (measure s1) in M4. lia.
Qed.

Lemma children_ok fin n : FinOK fin n -> forall cs A s,
  GInv A s -> length cs + measure s < n ->
  let s' := fold_left (childF fin) cs s in
  GInv A s' /\ Ext s s' /\ Clo s s' /\ measure s' <= length cs + measure s.
Proof.
  intros HF. induction cs as [|c cs IH]; intros A s G Hm; simpl fold_left.
  - split; [exact G|]. split; [apply Ext_refl|]. split; [apply Clo_refl | simpl; lia].
  - simpl length in Hm.
    destruct (child_ok fin n HF A s c G ltac:(lia)) as (G1 & E1 & C1 & M1).
    destruct (IH A (childF fin s c) G1 ltac:(lia)) as (G2 & E2 & C2 & M2).
    split; [exact G2|]. split; [eapply Ext_trans; eassumption|]. split; [eapply Clo_trans; eassumption | simpl length; lia].
Qed.

(* induction on the fuel; the measure drops by 1 + #spawns when the call is logged (add_fin_ok), which pays
   for the children and the nested GC_Rem *)
Lemma finalise_ok f : FinOK (finF f) f.
Proof.
  induction f as [|f IH]; intros A s o G Hr Hp Hf Hinfo Hm; [lia|].
  pose proof (ginv_fresh_notin A s o G Hf) as HoA.
  set (P := fun s' => GInv A s' /\ Ext s s' /\ done s' o /\ Clo s s' /\ measure s' <= measure s).
  change (P (finF (S f) s o)). cbn [finalise].
  destruct (add_fin_ok A s o G Hr Hp Hf Hinfo) as (G1 & E1 & M1).
  set (s1 := add_log (LFin o) s) in *.
  change (spawns s1 o) with (spawns s o).
  destruct (children_ok _ _ IH (spawns s o) (o :: A) s1 G1 ltac:(lia)) as (G1a & E1a & C1a & M1a).
  set (s1a := fold_left (childF (finF f)) (spawns s o) s1) in *.
  (* o's destructor is still running in s1a: its pointer is what it was *)
  assert (Hown1a : owned s1a o = owned s o).
  { destruct (g_prog _ _ G1a o (or_introl eq_refl)) as [_ Hfr]. destruct (g_prog _ _ G1 o (or_introl eq_refl)) as [Hf1 _].
    apply (e_prog_owned _ _ E1a o); [lia | exact Hfr]. }
  rewrite Hown1a.
  destruct (owned s o) as [p|] eqn:Hown.
  - destruct (gc_rem_ok _ _ IH (o :: A) s1a p G1a ltac:(lia)) as (G2 & E2 & D2 & C2 & M2).
    set (s2 := gc_rem mrule true (finF f) s1a p) in *.
    assert (E12 := Ext_trans _ _ _ E1a E2).
    destruct (finish_ok A s2 o G2 HoA) as (G4 & E4 & Dn & M4).
    { intros H. apply Hr, (Ext_regids _ _ o E12 Hinfo H). }
    { intros H. apply Hp, (Ext_pids _ _ E12), H. }
    split; [exact G4|]. split; [exact (Ext_trans _ _ _ E1 (Ext_trans _ _ _ E12 E4))|]. split; [exact Dn|]. split; [|lia].
    apply (Clo_after_fin s o).
    + apply (Clo_trans _ _ _ E12 E4 (Clo_trans _ _ _ E1a E2 C1a C2)), Clo_same_fin. intros y. exact (fin_add_free _ o y).
    + (* what o owned: still an entry when GC_Rem is called on it, or done before *)
      intros Hrun q Hq Hin. assert (q = p) by congruence. subst q. apply (e_done _ _ E4).
      destruct (Ext_still s1 s1a p E1a Hin) as [H|H]; [|apply (e_done _ _ E2), H].
      apply D2; [rewrite (e_running _ _ E1a); exact Hrun | exact H].
  - destruct (add_free_ok A s1a o G1a HoA) as (G5 & E5 & D5 & M5).
    { intros H. apply Hr, (Ext_regids _ _ o E1a Hinfo H). }
    { intros H. apply Hp, (Ext_pids _ _ E1a), H. }
    split; [exact G5|]. split; [exact (Ext_trans _ _ _ E1 (Ext_trans _ _ _ E1a E5))|]. split; [exact D5|]. split; [|lia].
    apply (Clo_after_fin s o); [|intros _ q Hq; congruence].
    apply (Clo_trans _ _ _ E1a E5 C1a), Clo_same_fin. intros y. apply fin_add_free.
Qed.

(* the finaliser the events use computes its fuel from the state: good at every bound *)
Notation finT := (fin_top mrule true true true nopro).
Lemma fin_top_ok n : FinOK finT n.
Proof.
  intros A s o G Hr Hp Hf Hi _. unfold fin_top.
  apply (finalise_ok (fuel_of s) A s o G Hr Hp Hf Hi). unfold fuel_of, measure. lia.
Qed.

Notation stepF := (step mrule true true true nopro).
Notation runF := (run mrule true true true nopro).
Notation step1F := (step1 mrule true true true nopro).
Notation sweepT := (sweep mrule true finT).
Notation remT := (gc_rem mrule true finT).

(* between events: GInv with no destructor running, no pending list, fuel never exhausted; a registered entry
   with root flag r was allocated as KRoot / KManaged; what an object still to be finalised owns is allocated
   and not raw; unallocated identities own nothing *)
Record SInv (s : st) : Prop := {
  si_g : GInv [] s;
  si_pend : pend s = [];
  si_oof : oof s = false;
  si_reginfo : forall x r, In (x, r) (reg s) -> exists b, info s x = Some ((if r then KRoot else KManaged), b);
  si_own : forall b p, fin_count s b = 0 -> owned s b = Some p ->
                       exists k bb, info s p = Some (k, bb) /\ k <> KRaw;
  si_own_none : forall b, info s b = None -> owned s b = None
}.

(* between events and before teardown, every managed or root object whose destructor has not
   run is registered — this is what allocation in a stop window breaks (F2) *)
Definition RegAll (s : st) : Prop :=
  torn s = false -> forall x k b, info s x = Some (k, b) -> k <> KRaw -> fin_count s x = 0 -> In x (regids s).

Lemma SInv_ext s s' : SInv s -> GInv [] s' -> Ext s s' -> SInv s'.
Proof.
  intros S G E.
  assert (Hold : forall x, info s x <> None -> info s' x = info s x) by apply E.
  constructor.
  - exact G.
  - pose proof (e_pend _ _ E) as H. rewrite (si_pend _ S) in H. inversion H. reflexivity.
  - rewrite (e_oof _ _ E). apply S.
  - intros x r Hx. destruct (e_reg _ _ E _ Hx) as [Hin|[Hn Hr]].
    + destruct (si_reginfo _ S x r Hin) as [b Hb]. exists b. rewrite Hold; congruence.
    + simpl in Hn, Hr. subst r. exists false. apply (e_new _ _ E x Hn), (g_info _ _ G). left. apply (in_map fst _ _ Hx).
  - intros b p Hfb Hown. rewrite (e_owned _ _ E b Hfb) in Hown.
    destruct (info s b) eqn:Hib; [|rewrite (si_own_none _ S b Hib) in Hown; discriminate].
    destruct (si_own _ S b p) as (k1 & bb & Hi & Hk); [pose proof (e_fin _ _ E b); lia | exact Hown |].
    exists k1, bb. rewrite Hold; [auto | congruence].
  - intros b Hb. rewrite (e_owned _ _ E b (g_alloc _ _ G b Hb)). apply (si_own_none _ S).
    destruct (info s b) eqn:Hi; [|reflexivity]. rewrite <- Hb, Hold; congruence.
Qed.

(* registration of all live objects passes to an extension with no sweep under way, provided what was
   allocated in between was registered: the collector runs, or nothing was allocated *)
Lemma RegAll_ext s s' :
  Ext s s' -> pend s' = [] -> RegAll s -> (running s = true \/ forall x, info s x = None -> info s' x = None) -> RegAll s'.
Proof.
  intros E Hpe R Hra Ht x k b Hi Hk Hf. rewrite (e_torn _ _ E) in Ht.
  destruct (info s x) eqn:Hix.
  - (* known to s: registered there, and still, since its destructor has not run *)
    assert (Hin : In x (regids s)).
    { apply (R Ht x k b); [rewrite <- Hi; symmetry; apply (e_info _ _ E); congruence | exact Hk | pose proof (e_fin _ _ E x); lia]. }
    destruct (in_dec Nat.eq_dec x (regids s')) as [|Hn]; [assumption|].
    destruct (e_regdone _ _ E x Hin Hn). lia.
  - destruct Hra as [Hrun|Hno]; [|rewrite (Hno x Hix) in Hi; discriminate].
    destruct (e_new _ _ E x Hix) as (_ & _ & Hc); [congruence|].
    destruct (Hc Hrun) as [Hr|[Hp|[Hd _]]]; [exact Hr | unfold pids in Hp; rewrite Hpe in Hp; destruct Hp | lia].
Qed.

(* the invariants do not look at running, mitems, bad, obsq.  P stands for the `alloc_ok` premise of
   step1_ok / step_ok, which these cases do not need: the statement then applies to their goals as it is *)
Lemma same_core_ok s s' (P : Prop) :
  reg s' = reg s -> pend s' = pend s -> log s' = log s -> info s' = info s -> ids s' = ids s -> spawns s' = spawns s ->
  owned s' = owned s -> oof s' = oof s -> torn s' = torn s ->
  SInv s -> SInv s' /\ (RegAll s -> P -> RegAll s').
Proof.
  intros Hr Hp Hl Hi Hd Hs Hw Ho Ht S. split.
  - constructor; unfold fin_count; rewrite ?Hr, ?Hp, ?Hl, ?Hi, ?Hw, ?Ho; try apply S.
    apply (GInv_same [] s _ (si_g _ S)); assumption.
  - intros R _. unfold RegAll, regids, fin_count. rewrite Hr, Hl, Hi, Ht. exact R.
Qed.

Lemma SInv_init : SInv init /\ RegAll init.
Proof using.
  clear mrule. (* tauto would take it into the proof *)
  split; [|intros _ y k b H; discriminate].
  constructor; try reflexivity; try discriminate; [|intros y r []].
  constructor; cbn; try apply NoDup_nil; intros y; try tauto. auto.
Qed.

Lemma is_root_false s x :
  SInv s -> (exists b, info s x = Some (KManaged, b)) -> is_root s x = false.
Proof.
  intros S [b Hb]. apply not_true_is_false. intros H. apply is_root_spec in H.
  destruct (si_reginfo _ S x true H) as [b' Hb']. congruence.
Qed.

Lemma raw_not_reg s o : SInv s -> kind_of s o = Some KRaw -> ~ In o (regids s).
Proof.
  intros S Hk Hin. apply in_map_iff in Hin. destruct Hin as [[y r] [Hy Hin]]. simpl in Hy. subst y.
  destruct (si_reginfo _ S o r Hin) as [b' Hb']. unfold kind_of in Hk. rewrite Hb' in Hk. destruct r; discriminate.
Qed.

Lemma add_obj_ok s o k b : SInv s -> info s o = None -> SInv (add_obj o k b s).
Proof.
  intros S Hinfo. pose proof (si_g _ S) as G.
  assert (Hi : forall x, info (add_obj o k b s) x = if x =? o then Some (k, b) else info s x) by reflexivity.
  constructor; try apply S.
  - apply add_obj_ginv; assumption.
  - intros x r Hx. rewrite Hi. destruct (Nat.eqb_spec x o) as [->|Hne]; [|apply (si_reginfo _ S), Hx].
    destruct (g_info _ _ G o); [left; apply (in_map fst _ _ Hx) | exact Hinfo].
  - intros b' p Hfb Hown. destruct (si_own _ S b' p Hfb Hown) as (k1 & bb & Hp & Hk1).
    exists k1, bb. rewrite Hi. destruct (Nat.eqb_spec p o) as [->|]; [congruence | auto].
  - intros b' Hb. rewrite Hi in Hb. destruct (b' =? o); [discriminate | apply (si_own_none _ S), Hb].
Qed.

(* a state that knows the new object o beside those of s, registered unless it is raw *)
Lemma RegAll_add s o k b t :
  RegAll s -> info t = info (add_obj o k b s) -> log t = log s -> torn t = torn s ->
  incl (regids s) (regids t) -> (k = KRaw \/ In o (regids t)) -> RegAll t.
Proof.
  intros R Hi Hl Ht Hreg Ho Ht' x k' b' Hx Hk' Hf.
  rewrite Hi in Hx. simpl in Hx. unfold fin_count in Hf. rewrite Hl in Hf. rewrite Ht in Ht'.
  destruct (Nat.eqb_spec x o) as [->|Hne].
  - destruct Ho as [->|Ho]; [congruence | exact Ho].
  - apply Hreg, (R Ht' x k' b' Hx Hk' Hf).
Qed.

Lemma new_reg_ok s k isbox o :
  SInv s -> info s o = None -> k <> KRaw ->
  let s1 := add_obj o k isbox s in
  let s2 := set_reg ((o, kind_eqb k KRoot) :: reg s1) s1 in
  SInv s2 /\ (RegAll s -> RegAll s2).
Proof.
  intros S Hinfo Hk s1 s2. pose proof (si_g _ S) as G. pose proof (add_obj_ok s o k isbox S Hinfo : SInv s1) as S1.
  assert (Hi1 : info s1 o = Some (k, isbox)) by (simpl; rewrite Nat.eqb_refl; reflexivity).
  split.
  - constructor; try apply S1.
    + apply register_ginv; [apply S1 | | unfold pids; rewrite (si_pend _ S1); intros [] | apply (g_alloc _ _ G), Hinfo | congruence].
      intros Hin. apply (g_info _ _ G o (or_introl Hin)), Hinfo.
    + intros x r [Hx|Hx]; [|apply (si_reginfo _ S1), Hx].
      injection Hx as <- <-. exists isbox. destruct k; [exact Hi1 | exact Hi1 | contradiction].
  - intros R. apply (RegAll_add s o k isbox); auto; [intros x Hx; right; exact Hx | right; left; reflexivity].
Qed.

(* destructors that run while the collector is stopped and have nothing to allocate leave the
   set of allocated objects alone *)
Lemma fin_top_stopped s o :
  running s = false -> spawns s o = [] ->
  info (finT s o) = info s /\ running (finT s o) = false /\ spawns (finT s o) = spawns s /\
  pend (finT s o) = pend s.
Proof.
  intros Hr Hs. unfold fin_top, fuel_of. cbn [finalise].
  change (spawns (add_log (LFin o) s) o) with (spawns s o). rewrite Hs. simpl fold_left.
  destruct (owned (add_log (LFin o) s) o); [|auto].
  unfold gc_rem. change (running (add_log (LFin o) s)) with (running s). rewrite Hr. simpl. auto.
Qed.

Lemma no_spawners_spec s x : no_spawners s = true -> In x (ids s) -> fin_count s x = 0 -> spawns s x = [].
Proof.
  unfold no_spawners. rewrite forallb_forall. intros H Hin Hf. specialize (H x Hin).
  destruct (spawns s x); [reflexivity|]. apply fin_started_spec in Hf. congruence.
Qed.

Lemma sweep_loop_stopped k : forall i s,
  running s = false -> (forall x, In x (pids s) -> spawns s x = []) ->
  let s' := sweep_loop true finT k i s in
  info s' = info s /\ running s' = false /\ spawns s' = spawns s.
Proof.
  induction k as [|k IH]; intros i s Hr Hsp; cbn [sweep_loop]; [auto|].
  destruct (nth i (pend s) None) as [o|] eqn:Hn; [|apply IH; assumption].
  set (s0 := set_pend (null_pend o (pend s)) s).
  destruct (fin_top_stopped s0 o Hr) as (Hi & Hr' & Hs' & Hp').
  { apply Hsp. eapply nth_in_somes. exact Hn. }
  destruct (IH (S i) (finT s0 o) Hr') as (A1 & A2 & A3).
  - intros x Hx. rewrite Hs'. apply Hsp. unfold pids in Hx. rewrite Hp' in Hx.
    unfold s0 in Hx. simpl pend in Hx. rewrite somes_null in Hx. apply filter_neq_In in Hx. tauto.
  - rewrite A1, A3, Hi, Hs'. auto.
Qed.

(* a sweep while the collector is stopped, when no object that is still to be finalised has an
   allocating destructor, allocates nothing *)
Lemma sweep_stopped order marks s :
  SInv s -> running s = false -> no_spawners s = true ->
  forall x, info s x = None -> info (sweepT order marks s) x = None.
Proof.
  intros S Hr Hns x Hx. pose proof (si_g _ S) as G. unfold sweep. cbn [info set_pend].
  match goal with |- info (sweep_loop true finT ?k 0 ?s1) x = None => destruct (sweep_loop_stopped k 0 s1 Hr) as (A1 & _) end;
    [|rewrite A1; exact Hx].
  intros y Hy. unfold pids in Hy. cbn in Hy. rewrite somes_map_Some in Hy. apply filter_In in Hy.
  destruct Hy as [Hy _]. apply (proj2 (arrange_spec order s (g_reg_nodup _ _ G))) in Hy.
  apply (no_spawners_spec s y Hns); [apply (g_ids _ _ G), (g_info _ _ G) | apply (g_fresh _ _ G)]; left; exact Hy.
Qed.

Lemma sweepT_ok order marks s :
  SInv s ->
  let s' := sweepT order marks s in
  SInv s' /\ Ext s s' /\ Clo s s' /\
  (forall x, In x (regids s) -> is_root s x = false -> ~ In x marks -> done s' x) /\
  (RegAll s -> running s = true \/ no_spawners s = true -> RegAll s').
Proof.
  intros S s'.
  destruct (sweep_ok finT (1 + measure s) (fin_top_ok _) order marks [] s (si_g _ S) (si_pend _ S) (Nat.lt_succ_diag_r _))
    as (G' & _ & E & D & C & _).
  pose proof (SInv_ext s s' S G' E) as S'. split; [exact S'|]. split; [exact E|]. split; [exact C|]. split; [exact D|].
  intros R Hc. apply (RegAll_ext s s' E (si_pend _ S') R). destruct (running s) eqn:Hrun; [left; reflexivity | right].
  destruct Hc as [Hc|Hc]; [discriminate | apply sweep_stopped; assumption].
Qed.

(* del / del_root (GC_Rem) and del_raw (the destructor at once) of a live object *)
Lemma del_ok s k o :
  SInv s -> live s o = true -> kind_of s o = Some k ->
  let s' := match k with KRaw => finT s o | _ => remT s o end in
  SInv s' /\ Ext s s' /\ Clo s s' /\
  (k = KRaw \/ running s = true /\ In o (regids s) -> done s' o) /\
  (RegAll s -> alloc_ok s (EDel k o) = true -> RegAll s').
Proof.
  intros S Hlive Hk s'. pose proof (si_g _ S) as G. apply live_spec in Hlive. destruct Hlive as [Hinf Hf0].
  assert (H : GInv [] s' /\ Ext s s' /\ Clo s s' /\ (k = KRaw \/ running s = true /\ In o (regids s) -> done s' o)).
  { destruct k; subst s'.
    1-2: destruct (gc_rem_ok finT (1 + measure s) (fin_top_ok _) [] s o G (Nat.lt_succ_diag_r _)) as (G' & E & D & C & _);
      (split; [exact G'|]; split; [exact E|]; split; [exact C|]); intros [Hr|[Hr Hin]]; [discriminate | apply D; auto].
    destruct (fin_top_ok (1 + measure s) [] s o G) as (G' & E & D & C & _); auto using raw_not_reg, Nat.lt_succ_diag_r.
    unfold pids. rewrite (si_pend _ S). intros []. }
  destruct H as (G' & E & C & D). pose proof (SInv_ext s s' S G' E) as S'.
  split; [exact S'|]. split; [exact E|]. split; [exact C|]. split; [exact D|].
  intros R Hc. apply (RegAll_ext s s' E (si_pend _ S') R). destruct (running s) eqn:Hrun; [left; reflexivity | right].
  unfold alloc_ok in Hc. rewrite Hrun in Hc. subst s'. destruct k; try (unfold gc_rem; rewrite Hrun; auto).
  destruct (spawns s o) eqn:Hsp; [|discriminate].
  destruct (fin_top_stopped s o Hrun Hsp) as (Hi & _).
  intros x Hx. rewrite Hi. exact Hx.
Qed.

Lemma kind_eqb_eq k k' : kind_eqb k k' = true <-> k = k'.
Proof. destruct k, k'; split; (reflexivity || discriminate). Qed.

Lemma del_guard s k o :
  live s o && match kind_of s o with Some k' => kind_eqb k k' | None => false end = true <->
  live s o = true /\ kind_of s o = Some k.
Proof.
  rewrite andb_true_iff. destruct (kind_of s o) as [k'|].
  - rewrite kind_eqb_eq. split; intros [Hl Hk]; (split; [exact Hl | congruence]).
  - split; intros [_ Hk]; discriminate Hk.
Qed.

Lemma step1_del s k o :
  live s o = true -> kind_of s o = Some k ->
  step1F s (EDel k o) = match k with KRaw => finT s o | _ => remT s o end.
Proof. intros Hl Hk. cbn [step1]. rewrite Hl, Hk. destruct k; reflexivity. Qed.

(* GC_Del frees the table after its sweep *)
Lemma torn_ok s : SInv s -> SInv (set_torn (set_reg [] s)).
Proof.
  intros S. pose proof (si_g _ S) as G. constructor; try apply S; [|intros x r []].
  apply (GInv_sub [] s); try reflexivity; [exact G | apply NoDup_nil | apply G | intros x [] | intros x [[]|Hx]; right; exact Hx].
Qed.

(* what one event can do *)
Inductive Shape (s : st) : ev -> st -> Prop :=
| sh_new k b o order marks :
    info s o = None -> k = KRaw \/ running s = false -> Shape s (ENew k b o order marks) (add_obj o k b s)
| sh_new_reg k b o order marks :
    info s o = None -> k <> KRaw -> running s = true ->
    let s1 := add_obj o k b s in let s2 := set_reg ((o, kind_eqb k KRoot) :: reg s1) s1 in
    Shape s (ENew k b o order marks) (if mitems s2 <? nitems s2 then sweepT order (o :: marks) s2 else s2)
| sh_link b v :
    live s b = true -> (forall o, v = Some o -> live s o = true /\ kind_of s o <> Some KRaw) ->
    Shape s (ELink b v) (set_owned (upd_owned (owned s) b v) s)
| sh_del k o :
    live s o = true -> kind_of s o = Some k ->
    Shape s (EDel k o) (match k with KRaw => finT s o | _ => remT s o end)
| sh_collect order marks : Shape s (ECollect order marks) (sweepT order marks s)
| sh_stop : Shape s EStop (set_running false s)
| sh_start : Shape s EStart (set_running true s)
| sh_teardown order : Shape s (ETeardown order) (set_torn (set_reg [] (sweepT order [] s)))
| sh_spawn o cs :
    live s o = true -> Shape s (ESpawn o cs) (set_spawns (fun x => if x =? o then cs else spawns s x) s)
| sh_obs q : Shape s (EObs q) (set_obsq q s)
| sh_bad e : Shape s e (set_bad s).

Lemma step1_shape s e : Shape s e (step1F s e).
Proof.
  destruct e as [k b o order marks | b [o|] | k o | order marks | | | order | o cs | q]; cbn [step1]; try constructor.
  - destruct (info s o) eqn:Hinfo; [apply sh_bad|].
    destruct k; [| |apply sh_new; auto];
      change (running (add_obj o _ b s)) with (running s);
      (destruct (running s) eqn:Hrun; simpl negb; cbv iota; [apply sh_new_reg; auto; discriminate | apply sh_new; auto]).
  - destruct (_ && _) eqn:Hc; [|apply sh_bad]. rewrite !andb_true_iff in Hc. destruct Hc as ((((Hlb & _) & Hlo) & Hraw) & _).
    apply sh_link; [exact Hlb|]. intros o' [= <-]. split; [exact Hlo|]. intros Hk. rewrite Hk in Hraw. discriminate.
  - destruct (_ && _) eqn:Hc; [|apply sh_bad]. apply andb_true_iff in Hc. apply sh_link; [apply Hc | discriminate].
  - destruct (_ && _) eqn:Hc; [|apply sh_bad]. apply del_guard in Hc. destruct Hc as [Hl Hk].
    replace (match k with KRaw => _ | _ => _ end) with (match k with KRaw => finT s o | _ => remT s o end) by (destruct k; reflexivity).
    apply sh_del; assumption.
  - destruct (live s o) eqn:Hl; [apply sh_spawn; exact Hl | apply sh_bad].
Qed.

Lemma link_core s b v :
  SInv s -> info s b <> None -> (forall p, v = Some p -> exists k bb, info s p = Some (k, bb) /\ k <> KRaw) ->
  SInv (set_owned (upd_owned (owned s) b v) s).
Proof.
  intros S Hb Hv. constructor; try apply S.
  - apply (GInv_same [] s); auto. apply S.
  - intros b' p Hfb Hown. cbn in Hown. unfold upd_owned in Hown.
    destruct (b' =? b); [apply Hv, Hown | apply (si_own _ S b' p Hfb Hown)].
  - intros b' Hb'. cbn. unfold upd_owned.
    destruct (Nat.eqb_spec b' b) as [->|]; [contradiction | apply (si_own_none _ S), Hb'].
Qed.

Lemma step1_ok s e :
  SInv s -> torn s = false ->
  SInv (step1F s e) /\ (RegAll s -> alloc_ok s e = true -> RegAll (step1F s e)).
Proof.
  intros S _.
  destruct (step1_shape s e) as [k b o order marks Hinfo Hk | k b o order marks Hinfo Hk Hrun s1 s2 | b v Hlb Hv | k o Hl Hk
                                | order marks | | | order | o cs Hl | q | e].
  (* stop, start, the observation queue and the flag are fields the invariants do not look at *)
  6,7,10,11: apply same_core_ok; auto.
  - split; [apply add_obj_ok; assumption|]. intros R Hc. apply (RegAll_add s o k b); auto using incl_refl.
    destruct Hk as [->|Hrun]; [auto|]. unfold alloc_ok in Hc. rewrite Hrun in Hc. destruct k; try discriminate. auto.
  - destruct (new_reg_ok s k b o S Hinfo Hk) as [S2 R2]. destruct (_ <? _); [|split; auto].
    destruct (sweepT_ok order (o :: marks) _ S2) as (S3 & _ & _ & _ & R3). split; [exact S3|].
    intros R _. apply R3; [apply R2, R | left; exact Hrun].
  - split; [|intros R _; exact R]. apply link_core; [exact S | apply live_spec, Hlb|].
    intros p Hp. destruct (Hv p Hp) as [Hlp Hraw]. apply live_spec in Hlp. unfold kind_of in Hraw.
    destruct (info s p) as [[k1 bb]|]; [|destruct (proj1 Hlp eq_refl)]. exists k1, bb. split; [reflexivity|]. intros ->. apply Hraw. reflexivity.
  - destruct (del_ok s k o S Hl Hk) as (S' & _ & _ & _ & R'). split; assumption.
  - destruct (sweepT_ok order marks s S) as (S' & _ & _ & _ & R'). split; [exact S'|].
    intros R Hc. apply R'; [exact R | apply orb_true_iff, Hc].
  - split; [exact (torn_ok _ (proj1 (sweepT_ok order [] s S))) | intros _ _ Hc; discriminate].
  - apply live_spec in Hl. split; [|intros R _; exact R]. constructor; try apply S. constructor; try apply (si_g _ S).
    intros x Hx. cbn. destruct (Nat.eqb_spec x o) as [->|]; [destruct (proj1 Hl Hx) | apply (g_spawn _ _ (si_g _ S)), Hx].
Qed.

Lemma step_ok s e :
  SInv s -> SInv (stepF s e) /\ (RegAll s -> alloc_ok s e = true -> RegAll (stepF s e)).
Proof.
  intros S. unfold step. destruct (torn s) eqn:Ht; [apply same_core_ok; auto|].
  destruct (step1_ok s e S Ht) as [S1 R1].
  destruct (dangling (step1F s e)); [|split; assumption].
  destruct (same_core_ok (step1F s e) (set_bad (step1F s e)) True) as [S2 R2]; auto.
Qed.

Lemma run_snoc h e : runF (h ++ [e]) = stepF (runF h) e.
Proof. unfold run. rewrite fold_left_app. reflexivity. Qed.

Lemma all_from_snoc c h e s :
  all_from mrule true true true nopro c s (h ++ [e]) = all_from mrule true true true nopro c s h && c (fold_left stepF h s) e.
Proof.
  revert s. induction h as [|a h IH]; intros s; simpl.
  - rewrite andb_true_r. reflexivity.
  - rewrite IH. rewrite andb_assoc. reflexivity.
Qed.

Lemma run_inv h : SInv (runF h).
Proof.
  induction h as [|e h IH] using rev_ind.
  - apply SInv_init.
  - rewrite run_snoc. apply step_ok. exact IH.
Qed.

Lemma run_at_most_once h x : fin_count (runF h) x <= 1 /\ free_count (runF h) x = fin_count (runF h) x.
Proof. destruct (g_rest _ _ (si_g _ (run_inv h)) x (fun f => f)); auto. Qed.

(* fuel adequacy: the recursion of destructors through owning Boxes always terminates within
   the fuel the machine supplies, and no sweep is left unfinished *)
Lemma fuel_adequate h : oof (runF h) = false /\ pend (runF h) = [].
Proof. split; apply (run_inv h). Qed.

Lemma run_regall h : no_alloc_in_stop_window mrule true true true nopro h = true -> RegAll (runF h).
Proof.
  induction h as [|e h IH] using rev_ind; intros Hc.
  - apply SInv_init.
  - unfold no_alloc_in_stop_window in Hc. rewrite all_from_snoc in Hc. apply andb_true_iff in Hc.
    destruct Hc as [Hc1 Hc2]. rewrite run_snoc. apply step_ok; [apply run_inv | apply IH; exact Hc1 | exact Hc2].
Qed.

Lemma stop_ok_alloc_ok s e : stop_ok s e = true -> alloc_ok s e = true.
Proof.
  unfold stop_ok, alloc_ok. destruct (running s); simpl; auto.
  destruct e as [[| |] ? ? ? ?| ? ? | [| |] o | ? ? | | | ? | ? ? | ?]; auto; try discriminate.
  destruct (owned s o); [discriminate|]. destruct (spawns s o); auto.
Qed.

Lemma all_from_weaken (c1 c2 : st -> ev -> bool) :
  (forall s e, c1 s e = true -> c2 s e = true) ->
  forall h s, all_from mrule true true true nopro c1 s h = true -> all_from mrule true true true nopro c2 s h = true.
Proof.
  intros Hc. induction h as [|e h IH]; intros s H; simpl in *; auto.
  apply andb_true_iff in H. destruct H as [H1 H2]. rewrite (Hc _ _ H1). simpl. apply IH. exact H2.
Qed.

Lemma log_set_bad s : log (set_bad s) = log s. Proof. reflexivity. Qed.

(* what an event achieves from the state a history leads to holds of the history with that event added *)
Lemma run_snoc_done h e x : torn (runF h) = false -> done (step1F (runF h) e) x -> done (runF (h ++ [e])) x.
Proof.
  intros Ht Hd. rewrite run_snoc. unfold step. rewrite Ht. destruct (dangling _); exact Hd.
Qed.

(* an explicit del / del_root (collector running) or del_raw finalises the object, once, now *)
Lemma del_done s k o :
  SInv s -> RegAll s -> torn s = false -> live s o = true -> kind_of s o = Some k ->
  k = KRaw \/ running s = true -> done (step1F s (EDel k o)) o.
Proof.
  intros S R Ht Hlive Hk Hrun. rewrite (step1_del s k o Hlive Hk). apply (del_ok s k o S Hlive Hk).
  destruct (kind_of_info s o k Hk) as [b Hi]. apply live_spec in Hlive.
  destruct Hrun as [->|Hrun]; [left; reflexivity|].
  destruct k; [right | right | left; reflexivity];
    (split; [exact Hrun | apply (R Ht o _ b Hi); [discriminate | apply Hlive]]).
Qed.

(* the chain of ownership that starts at o, through registered objects *)
Inductive Reach (s : st) : id -> id -> Prop :=
| reach_refl o : Reach s o o
| reach_step o p x : owned s o = Some p -> In p (regids s) -> Reach s p x -> Reach s o x.

Lemma clo_reach s s' :
  GInv [] s -> Clo s s' -> running s = true ->
  forall y x, Reach s y x -> fin_count s y = 0 -> done s' y -> done s' x.
Proof.
  intros G C Hrun y x HR. induction HR as [o | o p x Hown Hin HR IH]; intros H0 Hd; [exact Hd|].
  apply IH.
  - apply (g_fresh _ _ G). left. exact Hin.
  - apply (C Hrun o p H0); [destruct Hd; lia | exact Hown | left; exact Hin].
Qed.

(* a delete runs down the whole chain of owning Boxes: with the collector running, del /
   del_root / del_raw of o finalises, exactly once and at once, every object reachable from o
   through ownership of registered objects *)
Lemma del_reach s k o x :
  SInv s -> RegAll s -> torn s = false -> live s o = true -> kind_of s o = Some k ->
  running s = true -> Reach s o x -> done (step1F s (EDel k o)) x.
Proof.
  intros S R Ht Hlive Hk Hrun HR.
  pose proof (del_done s k o S R Ht Hlive Hk (or_intror Hrun)) as Hdo. rewrite (step1_del s k o Hlive Hk) in *.
  destruct (del_ok s k o S Hlive Hk) as (_ & _ & C & _).
  apply (clo_reach s _ (si_g _ S) C Hrun o x HR); [apply live_spec, Hlive | exact Hdo].
Qed.

(* a collection that reclaims a Box (unmarked, not a root) finalises, exactly once, everything
   the Box reaches through ownership — whatever the order in which the sweep meets owner and owned,
   and whether or not the owned objects were marked *)
Lemma collect_reach s order marks b x :
  SInv s -> running s = true -> In b (regids s) -> is_root s b = false -> ~ In b marks ->
  Reach s b x -> done (sweepT order marks s) x.
Proof.
  intros S Hrun Hin Hroot Hm HR. destruct (sweepT_ok order marks s S) as (_ & _ & C & D & _).
  apply (clo_reach s _ (si_g _ S) C Hrun b x HR); [apply (g_fresh _ _ (si_g _ S)); left; exact Hin | auto].
Qed.

(* teardown (thread exit, Cello_Exit) leaves no managed object behind: each one has been
   finalised exactly once, by a collection, a del, an owning Box, or now *)
Lemma teardown_done s order x b :
  SInv s -> RegAll s -> torn s = false -> info s x = Some (KManaged, b) -> done (sweepT order [] s) x.
Proof.
  intros S R Ht Hi. destruct (sweepT_ok order [] s S) as (_ & E & _ & D & _).
  destruct (Nat.eq_dec (fin_count s x) 0) as [Hz|Hnz].
  - apply D; [apply (R Ht x KManaged b Hi); [discriminate | exact Hz] | apply is_root_false; eauto | intros []].
  - apply (e_done _ _ E). destruct (g_rest _ _ (si_g _ S) x (fun f => f)). unfold done. lia.
Qed.

(* the specification knows the objects the program allocates; the machine may know more (those
   allocated by destructors) *)
Record Sim (p : sp) (s : st) : Prop := {
  sm_info : forall x, s_info p x <> None -> info s x = s_info p x;
  sm_owned : forall x, s_info p x <> None -> fin_count s x = 0 -> s_owned p x = owned s x;
  sm_must : forall x, In x (s_must p) -> done s x;
  sm_torn : s_torn p = torn s;
  (* the specification never gives a pointer to an identity it has not allocated *)
  sm_unalloc : forall x, s_info p x = None -> s_owned p x = None
}.

Lemma Sim_ext p s s' : Sim p s -> Ext s s' -> Sim p s'.
Proof.
  intros M E. constructor; try apply M.
  - intros x Hx. rewrite (e_info _ _ E x); [apply M, Hx | rewrite (sm_info _ _ M x Hx); exact Hx].
  - intros x Hx Hf. rewrite (e_owned _ _ E x Hf). apply (sm_owned _ _ M x Hx). pose proof (e_fin _ _ E x). lia.
  - intros x Hx. apply (e_done _ _ E), (sm_must _ _ M), Hx.
  - rewrite (e_torn _ _ E). apply M.
Qed.

Lemma done_fin1 s x : done s x -> fin_count s x = 1.
Proof. intros [H _]; exact H. Qed.

(* everything the specification's chain adds lies on the model's chain of ownership *)
Lemma chain_reach p s :
  Sim p s -> SInv s -> RegAll s -> torn s = false -> dangling s = false ->
  forall f acc o x,
    (s_live p o = true -> fin_count s o = 0) ->
    In x (chain f (s_owned p) acc (s_live p) o) -> In x acc \/ Reach s o x.
Proof.
  intros M S R Ht Hdang. induction f as [|f IH]; intros acc o x Ho Hx; simpl in Hx; [left; exact Hx|].
  destruct (s_in acc o || negb (s_live p o)) eqn:Hstop; [left; exact Hx|].
  apply orb_false_iff in Hstop. destruct Hstop as [_ Hal]. apply negb_false_iff in Hal.
  pose proof (Ho Hal) as Hfo. pose proof (s_live_info _ _ Hal) as Hso.
  assert (Hio : info s o <> None) by (rewrite (sm_info _ _ M o Hso); exact Hso).
  rewrite (sm_owned _ _ M o Hso Hfo) in Hx.
  destruct (owned s o) as [q|] eqn:Hown; [|destruct Hx as [<-|Hx]; [right; apply reach_refl | left; exact Hx]].
  destruct (si_own _ S o q Hfo Hown) as (k1 & bb & Hiq & Hk1).
  (* the destructor of q has not run: else the live Box o would point at released memory *)
  assert (Hfq : fin_count s q = 0).
  { destruct (Nat.eq_dec (fin_count s q) 0) as [Hz|Hnz]; [exact Hz|].
    enough (dangling s = true) by congruence. apply existsb_exists. exists o.
    split; [apply (g_ids _ _ (si_g _ S)), Hio|]. rewrite (proj2 (live_spec s o) (conj Hio Hfo)), Hown.
    apply freed_of_done. destruct (g_rest _ _ (si_g _ S) q (fun f => f)). unfold done. lia. }
  destruct (IH (o :: acc) q x (fun _ => Hfq) Hx) as [[<-|Hin]|HR].
  - right. apply reach_refl.
  - left. exact Hin.
  - right. apply (reach_step s o q x Hown); [apply (R Ht q k1 bb Hiq Hk1 Hfq) | exact HR].
Qed.

(* the flag `bad` is never taken back (structural: no invariant needed) *)
Definition BM (fin : st -> id -> st) : Prop := forall s o, bad s = true -> bad (fin s o) = true.

Lemma bad_gc_rem r fin s p : BM fin -> bad s = true -> bad (gc_rem mrule r fin s p) = true.
Proof.
  intros Hf Hb. unfold gc_rem. destruct (negb (running s)); [exact Hb|].
  destruct (in_pend s p).
  - destruct r; cbn [bad set_mitems]; [apply Hf; exact Hb|].
    match goal with |- context [if ?c then _ else _] => destruct c end; [apply Hf|]; exact Hb.
  - destruct (in_reg s p); cbn [bad set_mitems]; [apply Hf|]; exact Hb.
Qed.

Lemma bad_sweep_loop w fin k : BM fin -> forall i s, bad s = true -> bad (sweep_loop w fin k i s) = true.
Proof.
  intros Hf. induction k as [|k IH]; intros i s Hb; cbn [sweep_loop]; [exact Hb|].
  apply IH. destruct (nth i (pend s) None); [|exact Hb].
  apply Hf. destruct w; exact Hb.
Qed.

Lemma bad_sweep w fin order marks s : BM fin -> bad s = true -> bad (sweep mrule w fin order marks s) = true.
Proof. intros Hf Hb. unfold sweep. cbn [bad set_pend]. apply bad_sweep_loop; [exact Hf | exact Hb]. Qed.

Lemma bad_alloc_child w d fin s c : BM fin -> bad s = true -> bad (alloc_child mrule w d fin s c) = true.
Proof.
  intros Hf Hb. unfold alloc_child. destruct (info s c); [reflexivity|].
  destruct (negb _); [exact Hb|]. destruct (_ && _); [exact Hb|]. destruct (_ <? _); [|exact Hb].
  apply bad_sweep; [exact Hf | exact Hb].
Qed.

Lemma bad_children w d fin cs : BM fin -> forall s, bad s = true -> bad (fold_left (alloc_child mrule w d fin) cs s) = true.
Proof.
  intros Hf. induction cs as [|c cs IH]; intros s Hb; simpl; [exact Hb|].
  apply IH. apply bad_alloc_child; assumption.
Qed.

Lemma bad_finalise r w d f : BM (finalise mrule r w d nopro f).
Proof.
  induction f as [|f IH]; intros s o Hb; cbn [finalise bad add_log]; [exact Hb|].
  destruct (owned _ o); cbn [bad set_owned]; [apply bad_gc_rem; [exact IH|]|]; apply bad_children; assumption.
Qed.

Lemma bad_fin_top r w d : BM (fin_top mrule r w d nopro).
Proof. intros s o Hb. unfold fin_top. apply bad_finalise. exact Hb. Qed.

Lemma step_bad_mono s e : bad s = true -> bad (stepF s e) = true.
Proof.
  intros Hb. unfold step. destruct (torn s); [reflexivity|].
  destruct (dangling (step1F s e)); [reflexivity|].
  pose proof (bad_fin_top true true true) as HT.
  destruct (step1_shape s e) as [| | | [| |] | | | | | | |];
    cbn [bad set_torn set_reg]; try destruct (_ <? _); auto using bad_sweep, bad_gc_rem.
Qed.

Lemma sp_bad_mono p e : s_bad p = true -> s_bad (sp_step p e) = true.
Proof.
  intros Hb. unfold sp_step. destruct (s_torn p); [reflexivity|].
  destruct e as [k isbox o order marks | b [o|] | k o | order marks | | | order | o cs | q]; cbn [s_bad]; try exact Hb.
  - destruct (s_info p o); [reflexivity | exact Hb].
  - destruct (_ && _); [exact Hb | reflexivity].
  - destruct (_ && _); [exact Hb | reflexivity].
  - destruct (_ && _); [exact Hb | reflexivity].
Qed.

(* an event that is not flagged passed its guard *)
Lemma if_bad {A} (f : A -> bool) (c : bool) (t u : A) : f u = true -> f (if c then t else u) = false -> c = true.
Proof. destruct c; [reflexivity | congruence]. Qed.

Lemma sim_link p s b v t :
  Sim p s -> s_info p b <> None -> t = torn s ->
  Sim (mksp (s_info p) (s_ids p) (upd_owned (s_owned p) b v) (s_must p) (s_bad p) t)
      (set_owned (upd_owned (owned s) b v) s).
Proof.
  intros M Hb Ht. constructor; cbn -[fin_count done]; unfold upd_owned.
  - apply M.
  - intros x Hx Hf. destruct (x =? b); [reflexivity | apply (sm_owned _ _ M); assumption].
  - apply M.
  - exact Ht.
  - intros x Hx. destruct (Nat.eqb_spec x b) as [->|]; [contradiction | apply M, Hx].
Qed.

Lemma sim_torn p s order :
  Sim p s -> SInv s -> RegAll s -> torn s = false ->
  Sim (mksp (s_info p) (s_ids p) (s_owned p)
            (filter (fun o => match s_info p o with Some (KManaged, _) => negb (s_in (s_must p) o) | _ => false end) (s_ids p) ++ s_must p)
            (s_bad p) true)
      (step1F s (ETeardown order)).
Proof.
  intros M S R Ht. pose proof (fun x b => teardown_done s order x b S R Ht) as D.
  pose proof (Sim_ext p s _ M (proj1 (proj2 (sweepT_ok order [] s S)))) as M2.
  (* the state after the sweep as a variable: what is left only reads fields of it *)
  cbn [step1]. generalize dependent (sweepT order [] s). intros s2 D [Mi Mo Mm _ Mu].
  constructor; [exact Mi | exact Mo | | reflexivity | exact Mu].
  intros x Hx. apply in_app_iff in Hx. destruct Hx as [Hx|Hx]; [|exact (Mm x Hx)].
  apply filter_In in Hx. destruct Hx as [_ Hx]. destruct (s_info p x) as [[[] bb]|] eqn:Hi; try discriminate.
  apply (D x bb). rewrite (sm_info _ _ M x); rewrite Hi; [reflexivity | discriminate].
Qed.

(* what the specification's chain from o adds lies on the model's chain of ownership, which the delete runs down *)
Lemma sim_del p s k o f :
  Sim p s -> SInv s -> RegAll s -> torn s = false -> dangling s = false ->
  live s o = true -> kind_of s o = Some k -> stop_ok s (EDel k o) = true ->
  Sim (mksp (s_info p) (s_ids p) (s_owned p) (chain f (s_owned p) (s_must p) (s_live p) o) (s_bad p) false)
      (step1F s (EDel k o)).
Proof.
  intros M S R Ht Hdg Hlive Hk Hce.
  destruct (del_ok s k o S Hlive Hk) as (_ & E & _). rewrite <- (step1_del s k o Hlive Hk) in E.
  destruct (Sim_ext p s _ M E) as [Mi Mo Mm _ Mu].
  constructor; [exact Mi | exact Mo | | rewrite (e_torn _ _ E); auto | exact Mu]. intros x Hx.
  destruct (chain_reach p s M S R Ht Hdg _ _ o x (fun _ => proj2 (proj1 (live_spec s o) Hlive)) Hx) as [Hin|HR]; [auto|].
  destruct (running s) eqn:Hrun; [apply del_reach; assumption|].
  unfold stop_ok in Hce. rewrite Hrun in Hce. simpl in Hce. destruct k; try discriminate.
  destruct (owned s o) eqn:Hown; [discriminate|]. inversion HR; subst; [|congruence].
  apply del_done; auto.
Qed.

Lemma sim_add p s k b o t :
  Sim p s -> SInv s -> info s o = None -> s_info p o = None -> t = torn s ->
  Sim (mksp (fun x => if x =? o then Some (k, b) else s_info p x) (o :: s_ids p) (s_owned p) (s_must p) (s_bad p) t)
      (add_obj o k b s).
Proof.
  intros M S Hinfo Hsi Ht. constructor; cbn -[fin_count done].
  - intros x. destruct (x =? o); [reflexivity | apply M].
  - intros x Hx Hf. destruct (Nat.eq_dec x o) as [->|Hne].
    + rewrite (si_own_none _ S o Hinfo). apply (sm_unalloc _ _ M), Hsi.
    + apply Nat.eqb_neq in Hne. rewrite Hne in Hx. apply M; assumption.
  - apply M.
  - exact Ht.
  - intros x. destruct (x =? o); [discriminate | apply M].
Qed.

Lemma sim_step p s e :
  Sim p s -> SInv s -> RegAll s -> torn s = false -> dangling s = false ->
  bad (step1F s e) = false -> s_bad (sp_step p e) = false -> stop_ok s e = true ->
  Sim (sp_step p e) (step1F s e).
Proof.
  intros M S R Ht Hdg Hbad Hsb Hce.
  assert (Hpt : s_torn p = false) by (rewrite (sm_torn _ _ M); exact Ht).
  unfold sp_step in *. rewrite Hpt in *.
  destruct (step1_shape s e) as [k b o order marks Hinfo Hk | k b o order marks Hinfo Hk Hrun s1 s2 | b v Hlb Hv | k o Hl Hk
                                | order marks | | | order | o cs Hl | q | e]; [| | | | | | | | | |discriminate].
  (* stop, start, ESpawn and the observation queue: the specification ignores them, Sim does not look at them *)
  6,7,9,10: destruct M; constructor; assumption.
  1,2: destruct (s_info p o) eqn:Hsi; [discriminate|]; pose proof (sim_add p s k b o _ M S Hinfo Hsi (eq_sym Ht)) as M1.
  - exact M1.
  - destruct (_ <? _); [|destruct M1; constructor; assumption]. apply Sim_ext with (s := s2);
      [destruct M1; constructor; assumption | apply sweepT_ok, new_reg_ok; assumption].
  - (* ELink, either form: both sides update the pointer of a Box the specification knows *)
    destruct v; apply (if_bad s_bad) in Hsb; try reflexivity; rewrite Hsb; (apply sim_link; [exact M | | exact (eq_sym Ht)]);
      repeat (apply andb_prop in Hsb; destruct Hsb as [Hsb _]); apply s_live_info, Hsb.
  - apply (if_bad s_bad) in Hsb; [|reflexivity]. rewrite Hsb, <- (step1_del s k o Hl Hk). apply sim_del; assumption.
  - apply (Sim_ext p s _ M), sweepT_ok, S.
  - apply sim_torn; assumption.
Qed.

(* the machine refines the specification (the oracle of the check): along every history in which
   neither the machine nor the specification flags a misuse and whose stop windows are clean, every
   object the specification demands to be finalised by now has been finalised exactly once *)
Theorem refines_spec_sim h :
  bad (runF h) = false -> s_bad (sp_run h) = false -> no_alloc_or_del_in_stop_window mrule true true true nopro h = true ->
  Sim (sp_run h) (runF h) /\ dangling (runF h) = false.
Proof.
  induction h as [|e h IH] using rev_ind; intros Hbad Hsb Hclean.
  { split; [constructor; try reflexivity; intros x [] | reflexivity]. }
  unfold no_alloc_or_del_in_stop_window in Hclean. rewrite all_from_snoc in Hclean.
  apply andb_true_iff in Hclean. destruct Hclean as [Hc0 Hce].
  rewrite sp_run_snoc in *. rewrite run_snoc in *.
  (* neither flag is ever taken back: the history before e was not flagged *)
  destruct IH as [M Hdg]; [| |exact Hc0|].
  { destruct (bad (runF h)) eqn:E; [|reflexivity]. rewrite (step_bad_mono _ e E) in Hbad. discriminate. }
  { destruct (s_bad (sp_run h)) eqn:E; [|reflexivity]. rewrite (sp_bad_mono _ e E) in Hsb. discriminate. }
  pose proof (all_from_weaken _ _ stop_ok_alloc_ok h _ Hc0) as Hca.
  unfold step in Hbad |- *. destruct (torn (runF h)) eqn:Ht; [discriminate|]. destruct (dangling _) eqn:Hnd; [discriminate|].
  split; [|exact Hnd]. apply sim_step; auto using run_inv, run_regall.
Qed.

(* with the wrapper that registers Cello_Exit with atexit (and does not call it a second time), and
   Exception_Error leaving only through exit(): EVERY termination route runs the teardown, once —
   every managed object allocated before has been finalised exactly once when the process is gone *)
Lemma terminate_done ra ca ee rt s order x b :
  ra = true -> ca = false -> ee = true ->
  SInv s -> RegAll s -> torn s = false -> info s x = Some (KManaged, b) ->
  done (terminate mrule true true true nopro ra ca ee rt order s) x /\
  torn (terminate mrule true true true nopro ra ca ee rt order s) = true.
Proof.
  intros -> -> -> S R Ht Hi. unfold terminate. rewrite andb_false_r. simpl andb. cbv iota.
  pose proof (teardown_done s order x b S R Ht Hi) as D.
  (* the state after the sweep as a variable: what is left only reads fields of it *)
  unfold step. rewrite Ht. cbn [step1]. set (s2 := sweepT order [] s) in *. clearbody s2.
  destruct (dangling _); (split; [exact D | reflexivity]).
Qed.

Theorem terminate_at_most_once ra ca ee r h order x :
  fin_count (terminate mrule true true true nopro ra ca ee r order (runF h)) x <= 1 /\
  free_count (terminate mrule true true true nopro ra ca ee r order (runF h)) x = fin_count (terminate mrule true true true nopro ra ca ee r order (runF h)) x.
Proof.
  unfold terminate. destruct (via_error r && negb ee); [apply run_at_most_once|].
  destruct (ca && returns r); destruct ra; rewrite <- ?run_snoc; apply run_at_most_once.
Qed.

End Rule.

(* Refutations and non-vacuity, computed with the threshold rule of the pinned tree (Lifecycle.mitems_rule). *)
Local Notation runF := (run mitems_rule true true true nopro).

(* D18: the pinned GC_Rem_Ptr only clears the pending entry.  Box 1 owns object 2, both become
   unreachable, the sweep meets the Box first: object 2 is never finalised, not even at teardown. *)
Definition d18_history : list ev :=
  [ENew KManaged true 1 [] []; ENew KManaged false 2 [] [1]; ELink 1 (Some 2); ECollect [1; 2] []; ETeardown []].

Theorem lifecycle_d18_refuted_pinned :
  let s := run mitems_rule false false true nopro d18_history in
  no_alloc_or_del_in_stop_window mitems_rule false false true nopro d18_history = true /\ bad s = false /\ torn s = true /\
  info s 2 = Some (KManaged, false) /\ fin_count s 2 = 0 /\ free_count s 2 = 0.
Proof. vm_compute. repeat split; reflexivity. Qed.

(* the same history on the repaired machine *)
Example d18_history_repaired :
  let s := runF d18_history in bad s = false /\ fin_count s 1 = 1 /\ fin_count s 2 = 1 /\ free_count s 2 = 1.
Proof. vm_compute. repeat split; reflexivity. Qed.

(* only GC_Rem_Ptr repaired, the sweep still calls the destructor before clearing the entry: a Box
   that owns itself is finalised twice *)
Definition selfbox_history : list ev := [ENew KManaged true 1 [] []; ELink 1 (Some 1); ECollect [] []].

Theorem lifecycle_sweep_order_refuted_half_repair :
  let s := run mitems_rule true false true nopro selfbox_history in bad s = false /\ fin_count s 1 = 2 /\ free_count s 1 = 2.
Proof. vm_compute. repeat split; reflexivity. Qed.

Example selfbox_history_repaired :
  let s := runF selfbox_history in bad s = false /\ fin_count s 1 = 1 /\ free_count s 1 = 1.
Proof. vm_compute. repeat split; reflexivity. Qed.

(* D22: the pinned GC_Set starts a collection from inside the running sweep when an allocation
   made by a destructor crosses the threshold; the nested sweep takes over the one pending list
   and leaves it empty.  Objects 1 and 3 each allocate two objects in their destructor; at
   teardown the sweep meets 3 first: object 1 is never finalised. *)
Definition d22_history : list ev :=
  [ENew KManaged false 1 [] []; ESpawn 1 [10; 11]; ENew KManaged false 3 [] [1]; ESpawn 3 [12; 13]; ETeardown [3; 1]].

Theorem lifecycle_d22_refuted_pinned :
  let s := run mitems_rule true true false nopro d22_history in
  no_alloc_or_del_in_stop_window mitems_rule true true false nopro d22_history = true /\ bad s = false /\ torn s = true /\
  info s 1 = Some (KManaged, false) /\ fin_count s 1 = 0 /\ free_count s 1 = 0.
Proof. vm_compute. repeat split; reflexivity. Qed.

Example d22_history_repaired :
  let s := runF d22_history in bad s = false /\ fin_count s 1 = 1 /\ fin_count s 3 = 1 /\ free_count s 1 = 1.
Proof. vm_compute. repeat split; reflexivity. Qed.

(* F2 (open finding): an object allocated in a stop window is never registered; del is a no-op
   while stopped; the object is left behind at teardown.  The hypothesis RegAll of del_done / teardown_done
   (no_alloc_in_stop_window in lifecycle_explicit_delete_finalises / lifecycle_teardown_complete) is needed. *)
Definition stop_window_history : list ev :=
  [EStop; ENew KManaged false 1 [] []; EDel KManaged 1; EStart; ETeardown []].

Theorem lifecycle_stop_window_refuted :
  let s := runF stop_window_history in
  no_alloc_in_stop_window mitems_rule true true true nopro stop_window_history = false /\ bad s = false /\ torn s = true /\
  info s 1 = Some (KManaged, false) /\ fin_count s 1 = 0.
Proof. vm_compute. repeat split; reflexivity. Qed.

(* a history with Boxes, a root, a raw object, a clean stop window and collections satisfies the
   hypotheses of del_done and teardown_done (lifecycle_explicit_delete_finalises / lifecycle_teardown_complete) *)
Definition sample_history : list ev :=
  [ENew KManaged true 1 [] []; ENew KManaged false 2 [] [1]; ELink 1 (Some 2);
   ENew KRoot true 3 [] [1; 2]; ENew KManaged false 4 [] [1; 2; 3]; ELink 3 (Some 4);
   EStop; ENew KRaw false 5 [] []; EDel KRaw 5; EStart;
   ENew KManaged true 7 [] [1; 2; 3; 4]; ENew KManaged false 8 [] [1; 2; 3; 4; 7]; ELink 7 (Some 8);
   ECollect [4; 7; 3; 8; 2; 1] [1; 2; 4]; ENew KManaged false 6 [] [1; 2; 4]].

Example sample_history_ok :
  let s := runF sample_history in
  no_alloc_or_del_in_stop_window mitems_rule true true true nopro sample_history = true /\
  no_alloc_in_stop_window mitems_rule true true true nopro sample_history = true /\
  torn s = false /\ bad s = false /\ running s = true /\
  live s 1 = true /\ kind_of s 1 = Some KManaged /\ info s 6 = Some (KManaged, false) /\
  live s 3 = true /\ kind_of s 3 = Some KRoot /\ fin_count s 7 = 1 /\ fin_count s 8 = 1.
Proof. vm_compute. repeat split; reflexivity. Qed.

(* non-vacuity: in sample_history the Box 1 owns object 2, both registered *)
Example sample_reach : Reach (runF sample_history) 1 2 /\ Reach (runF sample_history) 3 4.
Proof.
  assert (H : let s := runF sample_history in
              owned s 1 = Some 2 /\ In 2 (regids s) /\ owned s 3 = Some 4 /\ In 4 (regids s)) by (vm_compute; tauto).
  destruct H as (O1 & R1 & O3 & R3).
  split; [exact (reach_step _ 1 2 2 O1 R1 (reach_refl _ 2)) | exact (reach_step _ 3 4 4 O3 R3 (reach_refl _ 4))].
Qed.

Example sample_spec_must : In 5 (s_must (sp_run sample_history)) /\ s_bad (sp_run sample_history) = false.
Proof. vm_compute. split; [left; reflexivity | reflexivity]. Qed.

(* non-vacuity with allocating destructors: object 1 allocates 10 and 11 when it is deleted; both are
   managed objects of the machine afterwards (registered), so teardown_done speaks about them *)
Definition alloc_history : list ev :=
  [ENew KManaged false 1 [] []; ESpawn 1 [10; 11]; ENew KManaged true 2 [] [1]; ELink 2 (Some 1);
   EObs [([], [2]); ([], [2])]; EDel KManaged 2].

Example alloc_history_ok :
  let s := runF alloc_history in
  no_alloc_or_del_in_stop_window mitems_rule true true true nopro alloc_history = true /\ bad s = false /\ torn s = false /\
  fin_count s 1 = 1 /\ fin_count s 2 = 1 /\
  info s 10 = Some (KManaged, false) /\ info s 11 = Some (KManaged, false) /\
  fin_count (runF (alloc_history ++ [ETeardown []])) 11 = 1.
Proof. vm_compute. repeat split; reflexivity. Qed.

(* a Box and what it owns, both still to be finalised when the program ends *)
Definition exit_history : list ev := [ENew KManaged false 1 [] []; ENew KManaged true 2 [] [1]; ELink 2 (Some 1)].

Example exit_history_ok :
  no_alloc_in_stop_window mitems_rule true true true nopro exit_history = true /\ torn (runF exit_history) = false /\
  info (runF exit_history) 1 = Some (KManaged, false) /\
  fin_count (terminate mitems_rule true true true nopro true false true RExit [] (runF exit_history)) 2 = 1 /\
  fin_count (terminate mitems_rule true true true nopro true false true RSigUncaught [] (runF exit_history)) 2 = 1.
Proof. vm_compute. repeat split; reflexivity. Qed.

(* Destructors that open a stop/start window of their own.
   GC_Stop / GC_Start only touch gc->running (switch `keep` = true): the window is invisible to the
   machine — in particular a window opened inside a running sweep leaves that sweep's pending list
   alone — so the machine with windows IS the machine without, and every theorem carries over. *)
Lemma window_keep_id s : window true s = s.
Proof. unfold window, gc_start, gc_stop, set_running. destruct s as [a b run c e f g h i j k l m]; simpl. destruct run; reflexivity. Qed.

Lemma dwin_keep_id win s o : dwin win true s o = s.
Proof. unfold dwin. destruct (win o); [apply window_keep_id|reflexivity]. Qed.

(* a GC_Start that drops the pending list it finds: the list of the calling sweep is gone *)
Lemma window_drop_empties s : running s = true -> pend (window false s) = [].
Proof. intros H. unfold window. rewrite H. reflexivity. Qed.

Section ProExt.
  Variable mrule : nat -> nat.
  Variables r w d : bool.
  Variable pro : st -> id -> st.
  Hypothesis pro_id : forall s o, pro s o = s.

  Definition feq (f g : st -> id -> st) := forall s o, f s o = g s o.

  Lemma gc_rem_ext f g : feq f g -> forall s p, gc_rem mrule r f s p = gc_rem mrule r g s p.
  Proof.
    intros H s p. unfold gc_rem. cbv zeta. rewrite !H. reflexivity.
  Qed.

  Lemma sweep_loop_ext f g : feq f g -> forall k i s, sweep_loop w f k i s = sweep_loop w g k i s.
  Proof.
    intros H k. induction k as [|k IH]; intros i s; simpl; [reflexivity|].
    destruct (nth i (pend s) None); [rewrite H|]; apply IH.
  Qed.

  Lemma sweep_ext f g : feq f g -> forall order marks s, sweep mrule w f order marks s = sweep mrule w g order marks s.
  Proof. intros H order marks s. unfold sweep. rewrite (sweep_loop_ext f g H). reflexivity. Qed.

  Lemma alloc_child_ext f g : feq f g -> forall s c, alloc_child mrule w d f s c = alloc_child mrule w d g s c.
  Proof.
    intros H s c. unfold alloc_child. cbv zeta. rewrite (sweep_ext f g H). reflexivity.
  Qed.

  Lemma children_ext f g : feq f g -> forall l s,
    fold_left (alloc_child mrule w d f) l s = fold_left (alloc_child mrule w d g) l s.
  Proof.
    intros H l. induction l as [|c l IH]; intros s; simpl; [reflexivity|].
    rewrite (alloc_child_ext f g H). apply IH.
  Qed.

  Lemma finalise_ext : forall f, feq (finalise mrule r w d pro f) (finalise mrule r w d nopro f).
  Proof.
    induction f as [|f IH]; intros s o; cbn [finalise]; [reflexivity|].
    rewrite pro_id. rewrite (children_ext _ _ IH).
    destruct (owned _ o); [rewrite (gc_rem_ext _ _ IH)|]; reflexivity.
  Qed.

  Lemma fin_top_ext : feq (fin_top mrule r w d pro) (fin_top mrule r w d nopro).
  Proof. intros s o. unfold fin_top. apply finalise_ext. Qed.

  Lemma step1_ext s e : step1 mrule r w d pro s e = step1 mrule r w d nopro s e.
  Proof.
    pose proof (sweep_ext _ _ fin_top_ext) as Hs.
    destruct e as [k b o order marks | | k o | order marks | | | order | |]; cbn [step1];
      [rewrite Hs | | rewrite (gc_rem_ext _ _ fin_top_ext), fin_top_ext | rewrite Hs | | | rewrite Hs | | ]; reflexivity.
  Qed.

  Lemma step_ext s e : step mrule r w d pro s e = step mrule r w d nopro s e.
  Proof. unfold step. rewrite step1_ext. reflexivity. Qed.

  Lemma run_from_ext h : forall s, fold_left (step mrule r w d pro) h s = fold_left (step mrule r w d nopro) h s.
  Proof. induction h as [|e h IH]; intros s; simpl; [reflexivity|]. rewrite step_ext. apply IH. Qed.

  Lemma run_ext h : run mrule r w d pro h = run mrule r w d nopro h.
  Proof. unfold run. apply run_from_ext. Qed.

  Lemma terminate_ext ra ca ee rt order s :
    terminate mrule r w d pro ra ca ee rt order s = terminate mrule r w d nopro ra ca ee rt order s.
  Proof. unfold terminate. rewrite !step_ext. destruct (ca && returns rt); rewrite ?step_ext; reflexivity. Qed.

  Lemma all_from_ext c h : forall s, all_from mrule r w d pro c s h = all_from mrule r w d nopro c s h.
  Proof. induction h as [|e h IH]; intros s; simpl; [reflexivity|]. rewrite step_ext, IH. reflexivity. Qed.
End ProExt.
