(* RoundTripInst.v — the configuration re-extracted from the C text (Generated.v): escape tables of
   String_Show / String_Look, presence of `continue`, "%lf" in Float_Look, the sign-extension rule of
   scan_from_with; the side conditions of the C15 theorems for it, the configurations of the code as
   found, and non-vacuity witnesses.  A change of the C text that breaks a side condition makes a
   `vm_compute` proof here or in Properties_C15.v fail = broken obligation. *)
From Coq Require Export List NArith ZArith.
From Coq Require Import Bool Lia.
From CelloV Require Import Generated RoundTrip RoundTripProofs RoundTripFloat.
Import ListNotations.
Local Open Scope N_scope.

Definition rt_cfg : config :=
  {| cf_show_esc := rt_show_escapes; cf_look_esc := rt_look_escapes; cf_look_cont := rt_look_continue;
     cf_float_look_long := rt_float_look_long; cf_int_signext := rt_scan_int_signext; cf_int_signext_narrow := rt_scan_int_signext_narrow;
     cf_lit_measure := rt_scan_lit_measures; cf_pct_measure := rt_scan_pct_measures |}.

(* the shape of the surrounding C code the model encodes is still the one found by genx_rt.py; the flags
   enter no theorem: a missing or false one stops this file compiling *)
Lemma rt_shape : (rt_show_default_ok && rt_show_quotes_ok && rt_int_show_li && rt_int_look_li
                  && rt_float_show_f && rt_scan_float_l_rule)%bool = true.
Proof. vm_compute. reflexivity. Qed.

Lemma rt_cfg_ok : config_ok rt_cfg.
Proof. split; vm_compute; reflexivity. Qed.

Lemma rt_cfg_ok_float : config_ok_float rt_cfg.
Proof. split; [exact rt_cfg_ok | vm_compute; reflexivity]. Qed.

(* the `l`-less signed class is not empty for rt_cfg: the sign restoration is in the source *)
Lemma rt_signext : cf_int_signext rt_cfg = true.
Proof. vm_compute. reflexivity. Qed.

(* F6: a d directive without `l` stores 32 bits into a zeroed long; -5 comes back as 2^32 - 5 *)
Definition cfg_no_signext : config :=
  {| cf_show_esc := rt_show_escapes; cf_look_esc := rt_look_escapes; cf_look_cont := true;
     cf_float_look_long := true; cf_int_signext := false; cf_int_signext_narrow := false; cf_lit_measure := true; cf_pct_measure := true |}.

(* with the repair of F6 only: h / hh results were still zero-extended (-1 read back as 255) *)
Definition cfg_no_narrow : config :=
  {| cf_show_esc := rt_show_escapes; cf_look_esc := rt_look_escapes; cf_look_cont := true;
     cf_float_look_long := true; cf_int_signext := true; cf_int_signext_narrow := false;
     cf_lit_measure := true; cf_pct_measure := true |}.

(* D22 / D23: pos advanced by the length of a literal piece (File: the white-space directive had
   eaten the padding of the next number) and by 2 for "%%" (one character) *)
Definition cfg_old_literals : config :=
  {| cf_show_esc := rt_show_escapes; cf_look_esc := rt_look_escapes; cf_look_cont := true;
     cf_float_look_long := true; cf_int_signext := true; cf_int_signext_narrow := true; cf_lit_measure := false; cf_pct_measure := false |}.

Definition spec_d : nspec := {| n_conv := 100; n_long := false; n_plus := false; n_space := false;
                                n_zero := false; n_alt := false; n_width := 0; n_prec := None; n_short := 0 |}.

Definition spec_p08d : nspec := {| n_conv := 100; n_long := false; n_plus := true; n_space := false;
                                   n_zero := true; n_alt := false; n_width := 8; n_prec := None; n_short := 0 |}.

Definition spec_lX : nspec := {| n_conv := 88; n_long := true; n_plus := false; n_space := false;
                                 n_zero := false; n_alt := false; n_width := 0; n_prec := None; n_short := 0 |}.
Definition spec_lx : nspec := {| n_conv := 120; n_long := true; n_plus := false; n_space := false;
                                 n_zero := false; n_alt := false; n_width := 0; n_prec := None; n_short := 0 |}.

Definition spec_p020_8lf : nspec := {| n_conv := 102; n_long := true; n_plus := true; n_space := false;
                                      n_zero := true; n_alt := false; n_width := 20; n_prec := Some 8%nat; n_short := 0 |}.

Definition spec_hhd : nspec := {| n_conv := 100; n_long := false; n_plus := false; n_space := false;
                                  n_zero := false; n_alt := false; n_width := 0; n_prec := None; n_short := 2 |}.
Definition spec_hx : nspec := {| n_conv := 120; n_long := false; n_plus := false; n_space := false;
                                 n_zero := true; n_alt := false; n_width := 6; n_prec := None; n_short := 1 |}.

Definition spec_5li : nspec := {| n_conv := 105; n_long := true; n_plus := false; n_space := false;
                                  n_zero := false; n_alt := false; n_width := 5; n_prec := None; n_short := 0 |}.

(* non-vacuity witnesses *)
Definition ex_string : text := [97; 10; 34; 92; 200; 255; 7].
Definition ex_rest : text := [32; 120].
Example ex_nul_free : nul_free ex_string.
Proof. repeat constructor; discriminate. Qed.

Example ex_string_roundtrip :
  look_string rt_look_continue rt_look_escapes (show_string rt_show_escapes [97; 10; 34; 92; 200] ++ [44; 32])
  = LDone [97; 10; 34; 92; 200] 10.
Proof. vm_compute. reflexivity. Qed.

Definition ex_items : list pitem :=
  [PShow (VInt (-42)); PLit [44; 32]; PShow (VStr [97; 10; 98]); PLit [59]; PShow (VInt 9223372036854775807)].

Example ex_show_seq_ok : show_seq_ok rt_cfg ex_items ex_rest.
Proof.
  vm_compute. repeat split; try (intros; discriminate); try lia; repeat constructor; try discriminate.
Qed.

Example ex_lits_ok : lits_ok rt_cfg ex_items ex_rest.
Proof. vm_compute. repeat split; (left; reflexivity) || (right; reflexivity). Qed.

Example ex_show_seq_run :
  scan_str rt_cfg ([112; 112] ++ print_items rt_cfg ex_items ++ [32; 120]) 2 (map sitem_of ex_items) []
  = SOk [VInt (-42); VStr [97; 10; 98]; VInt 9223372036854775807] 33.
Proof. vm_compute. reflexivity. Qed.

(* literals with white space at the end and with a '%': matched by their own text when no white space follows *)
Definition ex_items_pct : list pitem :=
  [PShow (VInt 50); PLit [37; 32; 111; 102; 32]; PShow (VStr [120]); PLit [44; 32]; PShow (VInt (-1)); PLit [32; 37; 37]].

Example ex_lits_ok_pct : lits_ok rt_cfg ex_items_pct ex_rest /\ show_seq_ok rt_cfg ex_items_pct ex_rest.
Proof.
  split.
  - vm_compute. repeat split; (left; reflexivity) || (right; reflexivity).
  - vm_compute. repeat split; try (intros; discriminate); try lia; repeat constructor; try discriminate.
Qed.

Example ex_pct_run :
  scan_file rt_cfg (print_items rt_cfg ex_items_pct ++ ex_rest) 0 (map sitem_of ex_items_pct) []
  = SOk [VInt 50; VStr [120]; VInt (-1)] 17.
Proof. vm_compute. reflexivity. Qed.

Lemma rt_scan_d_repaired_example :
  scan_num rt_cfg spec_d (print_num spec_d (VInt (-5))) = Some (VInt (-5), 2%nat).
Proof. vm_compute. reflexivity. Qed.

Definition ex_items_f : list pitem :=
  [PShow (VFloat 4728057454355442549); PLit [44; 32]; PShow (VStr [97; 34]); PLit [59];
   PNum spec_li (VInt (-7)); PLit [32]; PNum (spec_f true) (VFloat 4591870180066957722); PLit [47];
   PNum spec_p08d (VInt (-2147483648)); PLit [58]; PNum spec_lX (VInt (-5)); PLit [59];
   PNum spec_p020_8lf (VFloat 4614256656552045848)].
Definition ex_sitems_f : list sitem :=
  [SLook TFloat; SLit [44; 32]; SLook TStr; SLit [59]; SNum spec_li; SLit [32]; SNum (spec_f true); SLit [47];
   SNum spec_d; SLit [58]; SNum spec_lx; SLit [59]; SNum (spec_f true)].

(* the side conditions of the examples (the conjuncts of wf_seq and int_directive_ok) are closed: each falls
   to evaluation or to naming the disjunct that holds *)
Ltac side :=
  first [ reflexivity                          (* equations and bounds between terms that evaluate; conjuncts that evaluate to True *)
        | (right; split; reflexivity) | (left; reflexivity)                   (* read back by i without zero padding; by d *)
        | (right; left; reflexivity) | (right; right; left; reflexivity)      (* conv_unsigned: x; X *)
        | (vm_compute; discriminate)                                          (* finite b; one comparison *)
        | (unfold showable, nul_free; repeat constructor; discriminate) ].    (* showable, in_range, urange, stops_*: conjunctions of comparisons *)

Example ex_wf_seq : wf_seq rt_cfg ex_items_f ex_sitems_f ex_rest.
Proof.
  (* item by item: unfolding wf_seq all the way would repeat the printed rest of every item in every goal *)
  unfold ex_items_f, ex_sitems_f.
  repeat match goal with
         | |- _ /\ _ => split
         | |- wf_seq _ (_ :: _) _ _ => split
         | |- int_directive_ok _ spec_lX _ _ _ => right
         | |- int_directive_ok _ _ _ _ _ => left
         end; side.
Qed.

Example ex_wf_seq_run :
  scan_str rt_cfg (print_items rt_cfg ex_items_f ++ ex_rest) 0 ex_sitems_f []
  = SOk [VFloat 4728057454355442563; VStr [97; 34]; VInt (-7); VFloat 4591870180066957722; VInt (-2147483648); VInt (-5); VFloat 4614256656543962353] 85.
Proof. vm_compute. reflexivity. Qed.

Example ex_int_directive_d : int_directive_ok rt_cfg spec_p08d spec_d (-2147483648) ex_rest.
Proof.
  left. repeat split; side.
Qed.

Example ex_int_directive_hhd : int_directive_ok rt_cfg spec_hhd spec_hhd (-128) ex_rest.
Proof.
  left. repeat split; side.
Qed.

Example ex_int_directive_hx : int_directive_ok rt_cfg spec_hx spec_hx 65535 ex_rest.
Proof.
  right. repeat split; side.
Qed.

Example ex_int_directive_lX : int_directive_ok rt_cfg spec_lX spec_lx (-5) ex_rest.
Proof.
  right. repeat split; side.
Qed.

Example ex_finite : finite 4728057454355442549.
Proof. vm_compute. discriminate. Qed.
