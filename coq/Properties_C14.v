(* Properties_C14.v — property C14: print formatting equals C formatting, on every sink, with exact
   positions.  Each statement is followed by Print Assumptions; it is closed by `exact` of a theorem of
   FormatProofs.v or by a few lines that instantiate the general theorems there (print_from_spec: the complete
   final state; print_to_writes / then_print_writes: a run that writes given texts; the write_all_* lemmas of
   the two sinks); most non-vacuity examples are evaluated in place.
   Model: Format.v (print_to = print_to_with of src/Show.c over byte lists with explicit indices;
   sinks = String_Format_To / File_Format_To; render/show = libc's rendering of one specification and
   the text show_to writes: Section variables, i.e. the theorems hold for EVERY such function).
   Grammar: Format.item / wf_items / unparse; texts = the text each item stands for. *)
From CelloV Require Import Generated Format FormatProofs.

(* data re-extracted from the C source is admissible: the skip after "%%" is 2; the piece buffer (heap of
   strlen+print_buf_extra bytes, or a stack array when the format is short) has room for the whole format text and
   a NUL, for EVERY format text; String_Format_To reserves the NUL; when it takes short texts from the stack buffer
   its measuring vsnprintf wrote into (size < string_fmt_stack_limit), that buffer of string_fmt_stack_cap bytes
   holds the complete text and its NUL, for every size; File_Format_To returns vfprintf's count; print_to_with
   consists of accepted statement forms *)
Theorem source_constants :
  print_pct_skip = 2 /\ (1 <= print_buf_extra /\ forall fmt, length fmt < bufsize fmt)
  /\ string_fmt_room = 1 /\ file_fmt_returns_count = true /\ print_shape_ok = true
  /\ (forall size, size < string_fmt_stack_limit -> size + string_fmt_room <= string_fmt_stack_cap).
Proof.
  exact (conj FormatProofs.pct_skip_is_2 (conj (conj (proj1 FormatProofs.buf_params) FormatProofs.bufsize_gt)
          (conj eq_refl (conj eq_refl (conj eq_refl FormatProofs.stack_buffer_holds_text))))).
Qed.
Print Assumptions source_constants.

(* the two accepted source forms of the "%%" test (with and without the `*fmt is '%'` half) are one test *)
Theorem pct_test_guard_redundant : forall fmt i fuel c0,
  rd fmt i = Some c0 -> Nat.eqb c0 0 = false -> skip_lit fmt i fuel = Ok i -> Nat.eqb c0 PCT = true.
Proof. exact FormatProofs.pct_guard_redundant. Qed.
Print Assumptions pct_test_guard_redundant.

(* every conversion character the property names ends a specification in the scanner of Show.c *)
Theorem conversions_recognised : List.forallb (fun c => memb c print_convs) std_convs = true.
Proof. exact FormatProofs.std_convs_recognised. Qed.
Print Assumptions conversions_recognised.

(* the scanner cuts the text of a well-formed item list back into exactly these items: literal runs,
   %%, one specification at a time (piece = '%' .. conversion character), wherever they stand
   (very start, very end, adjacent) *)
Theorem scanner_recovers_items : forall items,
  wf_items items = true -> scan (unparse items) = Ok (List.map tok_of items).
Proof. exact FormatProofs.scan_unparse. Qed.
Print Assumptions scanner_recovers_items.

Example scanner_recovers_items_nonvacuous :
  (wf_items ex_items = true /\ unparse ex_items = ex_fmt /\ ex_items <> nil) /\ scan ex_fmt = Ok (List.map tok_of ex_items).
Proof. split; [repeat split; discriminate|vm_compute; reflexivity]. Qed.

(* String sink, start position inside the String: the old text before pos, then the concatenation of
   the items' texts; returned position = pos + number of bytes written *)
Theorem print_to_string : forall (V : Type) (render : list byte -> ckind -> V -> option (list byte)) (show : V -> list byte)
    items args s pos ts,
  wf_items items = true -> texts V render show items args = Some ts -> items <> nil -> pos <= length s ->
  exists st, print_to V render show (SString s) pos (unparse items) args = ODone st
    /\ p_sink st = SString (List.firstn pos s ++ List.concat ts)
    /\ p_pos st = pos + length (List.concat ts).
Proof.
  intros V render show items args s pos ts Hwf Ht Hne Hp.
  rewrite <- (FormatProofs.write_all_string ts s pos); [exact (FormatProofs.print_to_writes V render show _ _ _ _ _ Hwf Ht)| |exact Hp].
  intros ->. apply FormatProofs.texts_length in Ht. destruct items; [contradiction|discriminate].
Qed.
Print Assumptions print_to_string.

Example print_to_string_nonvacuous :
  texts nat ex_render ex_show ex_items (cons 1 (cons 2 (cons 3 (cons 4 nil)))) <> None
  /\ exists st, print_to nat ex_render ex_show (SString (cons 104 (cons 105 (cons 33 nil)))) 2 ex_fmt (cons 1 (cons 2 (cons 3 (cons 4 nil)))) = ODone st.
Proof. split; [rewrite FormatProofs.ex_texts; discriminate|]. eexists. exact FormatProofs.ex_print_string. Qed.

(* String sink, start position behind the end: the text lands behind the old NUL (inside the grown
   buffer), the C string is unchanged, the returned position still counts the bytes *)
Theorem print_to_string_beyond : forall (V : Type) (render : list byte -> ckind -> V -> option (list byte)) (show : V -> list byte)
    items args s pos ts,
  wf_items items = true -> texts V render show items args = Some ts -> length s < pos ->
  exists st, print_to V render show (SString s) pos (unparse items) args = ODone st
    /\ p_sink st = SString s
    /\ p_pos st = pos + length (List.concat ts).
Proof.
  intros V render show items args s pos ts Hwf Ht Hp.
  destruct (FormatProofs.print_to_writes V render show _ _ (SString s) pos _ Hwf Ht) as [st [E [A B]]].
  rewrite (FormatProofs.write_all_string_beyond ts s pos Hp) in A. exists st. repeat split; assumption.
Qed.
Print Assumptions print_to_string_beyond.

(* File sink: the same bytes are appended, pos is ignored by the sink and the result is pos + count *)
Theorem print_to_file : forall (V : Type) (render : list byte -> ckind -> V -> option (list byte)) (show : V -> list byte)
    items args s pos ts,
  wf_items items = true -> texts V render show items args = Some ts ->
  exists st, print_to V render show (SFile s) pos (unparse items) args = ODone st
    /\ p_sink st = SFile (s ++ List.concat ts)
    /\ p_pos st = pos + length (List.concat ts).
Proof.
  intros V render show items args s pos ts Hwf Ht. rewrite <- (FormatProofs.write_all_file ts s pos).
  exact (FormatProofs.print_to_writes V render show _ _ _ _ _ Hwf Ht).
Qed.
Print Assumptions print_to_file.

(* exact positions: the sink is called once per item, in order, each call at the start position plus
   the length of the texts before it, with the item's own text as the piece and the argument in turn *)
Theorem print_to_calls_exact : forall (V : Type) (render : list byte -> ckind -> V -> option (list byte)) (show : V -> list byte)
    items args k pos ts,
  wf_items items = true -> texts V render show items args = Some ts ->
  exists st, print_to V render show k pos (unparse items) args = ODone st
    /\ List.rev (p_calls st) = calls_of items ts pos 0.
Proof.
  intros V render show items args k pos ts Hwf Ht. eexists.
  split; [exact (FormatProofs.print_from_spec V render show _ _ (mkP k pos 0 nil) _ Hwf eq_refl Ht)|].
  cbn [p_calls p_pos]. rewrite List.app_nil_r. apply List.rev_involutive.
Qed.
Print Assumptions print_to_calls_exact.

(* the empty format writes nothing and returns pos *)
Theorem print_to_empty : forall (V : Type) (render : list byte -> ckind -> V -> option (list byte)) (show : V -> list byte)
    k pos args, print_to V render show k pos nil args = ODone (mkP k pos 0 nil).
Proof. reflexivity. Qed.
Print Assumptions print_to_empty.

(* fewer arguments than specifications/%$ : FormatError, on every sink, at every position *)
Theorem too_few_arguments_raise : forall (V : Type) (render : list byte -> ckind -> V -> option (list byte)) (show : V -> list byte)
    items args k pos,
  wf_items items = true -> length args < nconsumers items ->
  exists st, print_to V render show k pos (unparse items) args = ORaise st.
Proof. intros. apply FormatProofs.print_to_raise; [assumption|]. apply FormatProofs.texts_too_few. assumption. Qed.
Print Assumptions too_few_arguments_raise.

Example too_few_arguments_nonvacuous :
  length (cons 1 (cons 2 nil)) < nconsumers ex_items
  /\ exists st, print_to nat ex_render ex_show (SFile nil) 0 ex_fmt (cons 1 (cons 2 nil)) = ORaise st
       /\ p_sink st = SFile (cons 1 (cons 1 (cons 2 (cons 2 (cons 32 (cons 97 (cons 37 nil))))))).
Proof. split; [vm_compute; repeat constructor|]. eexists. split; vm_compute; reflexivity. Qed.

(* ... and at that moment exactly the items before the first one left without argument have been
   written (the property only demands the exception; this states what the code does) *)
Theorem too_few_arguments_partial_output : forall (V : Type) (render : list byte -> ckind -> V -> option (list byte)) (show : V -> list byte)
    before it after args k pos ts,
  wf_items (before ++ it :: after) = true -> consumes it = true ->
  texts V render show before args = Some ts -> nconsumers before = length args ->
  exists st, print_to V render show k pos (unparse (before ++ it :: after)) args = ORaise st
    /\ p_sink st = write_all k pos ts
    /\ p_pos st = pos + length (List.concat ts).
Proof.
  intros V render show before it after args k pos ts Hwf Hc Ht Hn. unfold print_to.
  rewrite FormatProofs.print_to_from_items by exact Hwf.
  pose proof (FormatProofs.run_items_spec V render show before (cons it after) args (mkP k pos 0 nil) Hwf) as R.
  cbn [p_idx List.skipn] in R. rewrite Ht in R. rewrite R. cbn [List.map FormatProofs.run_toks p_sink p_pos p_idx].
  destruct it; try discriminate; cbn [tok_of]; rewrite FormatProofs.exec_noarg; try (eexists; repeat split).
  all: apply List.nth_error_None; cbn [p_idx]; rewrite Hn; apply le_n.
Qed.
Print Assumptions too_few_arguments_partial_output.

Example too_few_arguments_partial_nonvacuous :
  wf_items (List.firstn 4 ex_items ++ ShowDollar :: List.skipn 5 ex_items) = true /\ consumes ShowDollar = true
  /\ texts nat ex_render ex_show (List.firstn 4 ex_items) (cons 1 (cons 2 nil))
     = Some (cons (cons 1 (cons 1 nil)) (cons (cons 2 (cons 2 nil)) (cons (cons 32 (cons 97 nil)) (cons (cons 37 nil) nil))))
  /\ nconsumers (List.firstn 4 ex_items) = length (cons 1 (cons 2 nil)).
Proof. exact (conj eq_refl (conj eq_refl (conj eq_refl eq_refl))). Qed.

(* FormatError is raised ONLY when some item has no text (arguments ran out, or libc failed) ... *)
Theorem print_to_raises_without_text : forall (V : Type) (render : list byte -> ckind -> V -> option (list byte)) (show : V -> list byte)
    items args k pos,
  wf_items items = true -> texts V render show items args = None ->
  exists st, print_to V render show k pos (unparse items) args = ORaise st.
Proof. exact FormatProofs.print_to_raise. Qed.
Print Assumptions print_to_raises_without_text.

(* ... and with enough arguments and a libc that does not fail every item has a text *)
Theorem enough_arguments_give_text : forall (V : Type) (render : list byte -> ckind -> V -> option (list byte)) (show : V -> list byte)
    items args,
  (forall p kd v, render p kd v <> None) -> nconsumers items <= length args ->
  exists ts, texts V render show items args = Some ts.
Proof. exact FormatProofs.texts_enough. Qed.
Print Assumptions enough_arguments_give_text.

(* never outside the format text or the piece buffer: every index the scanner reads is <= strlen(fmt)
   (rd yields None beyond, which makes the model Crash) and every write into fmt_buf is < its size
   (buf_put), whatever the arguments are and whatever libc returns *)
Theorem scanner_in_bounds : forall (V : Type) (render : list byte -> ckind -> V -> option (list byte)) (show : V -> list byte)
    items args k pos,
  wf_items items = true ->
  print_to V render show k pos (unparse items) args <> OCrash /\ print_to V render show k pos (unparse items) args <> OFuel.
Proof.
  intros V render show items args k pos Hwf. unfold print_to. rewrite FormatProofs.print_to_from_items by exact Hwf.
  destruct (FormatProofs.run_toks _ _ _ _ _ _); split; discriminate.
Qed.
Print Assumptions scanner_in_bounds.

(* the bound checks of the model are not vacuous: a write at or behind the capacity of the piece buffer is
   refused, a read behind the NUL is refused, and outside the grammar they fire: a lone '%' ends in Crash (with
   malloc(strlen+1) its NUL write overruns the buffer by one byte; with a roomier buffer the scanner walks past
   the terminator), and so does "a%" unless libc refuses "%" *)
Example scanner_in_bounds_needs_wellformed :
  (forall fmt start n, bufsize fmt <= n -> buf_put fmt start n = None)
  /\ (forall fmt i, length fmt < i -> rd fmt i = None)
  /\ (forall k pos a, print_to nat ex_render ex_show k pos (cons PCT nil) (cons a nil) = OCrash)
  /\ (andb (Nat.eqb print_buf_extra 1) (Nat.eqb print_buf_stack_cap 0) = true -> buf_put (cons PCT nil) 0 2 = None)
  /\ print_to nat (fun _ _ _ => Some nil) ex_show (SFile nil) 0 (cons 97 (cons PCT nil)) (cons 1 nil) = OCrash.
Proof.
  exact (conj FormatProofs.buf_put_refuses (conj FormatProofs.rd_beyond (conj FormatProofs.lone_percent_crashes
          (conj FormatProofs.lone_percent_overruns_tight_buffer (proj1 FormatProofs.trailing_percent_crashes))))).
Qed.

(* the loops of the model never run out of fuel, for ANY format text and arguments *)
Theorem model_fuel_adequate : forall (V : Type) (render : list byte -> ckind -> V -> option (list byte)) (show : V -> list byte)
    k pos fmt args,
  print_to V render show k pos fmt args <> OFuel /\ scan fmt <> Fuel.
Proof. exact (fun V render show k pos fmt args => conj (FormatProofs.print_to_no_fuel V render show k pos fmt args) (FormatProofs.scan_no_fuel fmt)). Qed.
Print Assumptions model_fuel_adequate.

(* %$ on a sequence container (Array_Show / List_Show / Tuple_Show: opener, then "%$" per element with
   ", " between, closer): exactly the opener's text, the elements' own show texts once each in
   iteration order joined by ", ", the closer's text *)
Theorem container_show_is_elements_show : forall (V : Type) (render : list byte -> ckind -> V -> option (list byte)) (show : V -> list byte)
    oi ci self elems k pos tops tcl,
  wf_items oi = true -> wf_items ci = true ->
  texts V render show oi (cons self nil) = Some tops -> texts V render show ci nil = Some tcl ->
  exists st, show_seq V render show (unparse oi) (unparse ci) self elems k pos = ODone st
    /\ p_sink st = write_all k pos (tops ++ sep_texts V show elems ++ tcl)
    /\ p_pos st = pos + length (List.concat tops ++ join SEP (List.map show elems) ++ List.concat tcl).
Proof.
  intros V render show oi ci self elems k pos tops tcl Ho Hc Hto Htc.
  rewrite <- FormatProofs.sep_texts_join, <- !List.concat_app, List.app_assoc.
  apply FormatProofs.then_print_writes; [|assumption..].
  apply FormatProofs.show_elems_writes, FormatProofs.print_to_writes; assumption.
Qed.
Print Assumptions container_show_is_elements_show.

Example container_show_nonvacuous :
  wf_items array_open = true /\ wf_items array_close = true
  /\ texts nat ex_render ex_show array_open (cons 9 nil) <> None /\ texts nat ex_render ex_show array_close nil <> None.
Proof. repeat split; discriminate. Qed.

(* %$ on a key/value container (Table_Show / Tree_Show: opener, "%$:%$" per entry with ", " between,
   closer): the entries' key and value show texts once each, in iteration order *)
Theorem map_show_is_entries_show : forall (V : Type) (render : list byte -> ckind -> V -> option (list byte)) (show : V -> list byte)
    oi ci self elems k pos tops tcl,
  wf_items oi = true -> wf_items ci = true ->
  texts V render show oi (cons self nil) = Some tops -> texts V render show ci nil = Some tcl ->
  exists st, show_map V render show (unparse oi) (unparse ci) self elems k pos = ODone st
    /\ p_sink st = write_all k pos (tops ++ pair_texts V show elems ++ tcl)
    /\ p_pos st = pos + length (List.concat tops
                                ++ join SEP (List.map (fun kv => (show (fst kv) ++ COLON ++ show (snd kv))%list) elems)
                                ++ List.concat tcl).
Proof.
  intros V render show oi ci self elems k pos tops tcl Ho Hc Hto Htc.
  rewrite <- FormatProofs.pair_texts_join, <- !List.concat_app, List.app_assoc.
  apply FormatProofs.then_print_writes; [|assumption..].
  apply FormatProofs.show_pairs_writes, FormatProofs.print_to_writes; assumption.
Qed.
Print Assumptions map_show_is_entries_show.

Example map_show_nonvacuous :
  wf_items table_open = true /\ wf_items table_close = true
  /\ texts nat ex_render ex_show table_open (cons 9 nil) <> None /\ texts nat ex_render ex_show table_close nil <> None.
Proof. repeat split; discriminate. Qed.

(* the format strings of the built-in Show functions (taken from the C source on every run) are texts of
   well-formed item lists with the loop shape show_seq / show_map encode: the two container theorems
   apply to Array, List, Tuple, Table and Tree, and %$ of an Int / a Float is "%li" / "%f" of its C value *)
Theorem builtin_show_formats_wellformed :
  (show_format_ok array_open array_show_open /\ show_format_ok array_close array_show_close /\ array_show_shape_ok = true)
  /\ (show_format_ok list_open list_show_open /\ show_format_ok array_close list_show_close /\ list_show_shape_ok = true)
  /\ (show_format_ok tuple_open tuple_show_open /\ show_format_ok tuple_close tuple_show_close /\ tuple_show_shape_ok = true)
  /\ (show_format_ok table_open table_show_open /\ show_format_ok table_close table_show_close /\ table_show_shape_ok = true)
  /\ (show_format_ok tree_open tree_show_open /\ show_format_ok table_close tree_show_close /\ tree_show_shape_ok = true)
  /\ (show_format_ok int_show_items int_show_fmt /\ conv_kind 105 = KInt)
  /\ (show_format_ok float_show_items float_show_fmt /\ conv_kind 102 = KFloat).
Proof.
  (* each an evaluation; the cast has the VM compare the two sides without reading the texts back *)
  unfold show_format_ok. repeat apply conj; lazymatch goal with |- ?l = ?r => exact (eq_refl r <: l = r) end.
Qed.
Print Assumptions builtin_show_formats_wellformed.
