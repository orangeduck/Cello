(* ExnTie.v — the tie between the C text of src/Exception.c and the machine of Exn.v (property C07).
   tools/exn_symex.py translates exception_try, exception_try_end, exception_try_fail, exception_throw and
   exception_catch (with Exception_Len and Exception_Buffer inlined) into Gallina state transformers
   over the C view of the record (Generated.ExnTr: depth and the buffers array apart).  Here each
   translated transformer is proved to SIMULATE the model's function through the abstraction
   "the jump-buffer stack is buffers[depth-1], .., buffers[0]": statement order, temporaries and index
   arithmetic of the C text are free, its effect is not.  The second half (from minv_bufs on) shows that
   the machine never leaves the domain [minv] on which they are compared, and that a jump in flight names
   the innermost buffer of the state it carries. *)
From Coq Require Import List Arith Bool Lia ZifyBool.
From CelloV Require Import Generated Exn.
Import ListNotations.
Import ExnTr.

Definition stack (f : nat -> nat) (d : nat) : list nat := map f (rev (seq 0 d)).

Definition abs (s : cstate) : mstate :=
  MS (c_obj s) (c_msg s) (stack (c_buf s) (c_depth s)) (c_active s).

Lemma stack_S : forall f d, stack f (S d) = f d :: stack f d.
Proof. intros f d. unfold stack. rewrite seq_S, rev_app_distr. reflexivity. Qed.

Lemma stack_length : forall f d, length (stack f d) = d.
Proof. intros f d. unfold stack. now rewrite map_length, rev_length, seq_length. Qed.

Lemma stack_upd_above : forall f d v i, d <= i -> stack (upd f i v) d = stack f d.
Proof.
  intros f d v i Hle. unfold stack. apply map_ext_in. intros j Hj.
  apply in_rev, in_seq in Hj. unfold upd. destruct (j =? i) eqn:E; [|reflexivity].
  apply Nat.eqb_eq in E. lia.
Qed.

Lemma stack_push : forall f d v i, i = d -> stack (upd f i v) (S d) = v :: stack f d.
Proof.
  intros f d v i ->. rewrite stack_S. f_equal.
  - unfold upd. now rewrite Nat.eqb_refl.
  - apply stack_upd_above. lia.
Qed.

Lemma depth_abs : forall s, depth (abs s) = c_depth s.
Proof. intros s. unfold depth, abs. cbn. apply stack_length. Qed.

(* The functions are compared on states that satisfy the invariant of the record: depth within the
   array, and the live slots hold addresses of jump buffers (never NULL = 0).  On other states the C
   text is undefined (out-of-bounds access, longjmp through NULL), and equivalent rewrites differ
   there (an overflow test `>=` instead of `is`, aborts that cannot fire).  [mrun_wf] below: the
   machine never leaves this domain. *)
Definition minv (max : nat) (st : mstate) : Prop :=
  depth st <= max /\ Forall (fun t => t <> 0) (bufs st).

(* what a C function of the exception system can do, seen on the machine's state *)
Inductive mres : Type :=
| MRet (st : mstate) (v : option nat)
| MJmp (st : mstate) (t : nat)
| MDie (st : mstate)
| MAbt
| MWld
| MFmt (st : mstate) (k : mstate -> mres).

Inductive sim : cout -> mres -> Prop :=
| sim_ret : forall s st v, abs s = st -> sim (CRet s v) (MRet st v)
| sim_jump : forall s st t, abs s = st -> sim (CJump s t) (MJmp st t)
| sim_die : forall s st, abs s = st -> sim (CDie s) (MDie st)
| sim_abort : sim CAbort MAbt
| sim_wild : sim CWild MWld
| sim_fmt : forall s st k mk, abs s = st ->
            (forall s1, minv exc_max_depth (abs s1) -> sim (k s1) (mk (abs s1))) ->
            sim (CFormat s k) (MFmt st mk).

(* the model's functions in that vocabulary.  [of_out] is only applied to [jump_or_die _] and to the COut
   results of exception_catch ([jump_or_die _] or MWild), never to a normal outcome or an exit *)
Definition of_out (st : mstate) (r : mout) : mres :=
  match r with
  | MJump t => MJmp st t
  | MDied _ _ => MDie st
  | MAbort => MAbt
  | _ => MWld
  end.

Definition m_try (max : nat) (tko : bool) (env : nat) (st : mstate) : mres :=
  match exception_try max tko env st with None => MAbt | Some st' => MRet st' None end.
Definition m_try_end (st : mstate) : mres :=
  match exception_try_end st with None => MAbt | Some st' => MRet st' None end.
Definition m_try_fail (st : mstate) : mres := MRet (exception_try_fail st) None.
Definition m_catch (clr : bool) (fs : list nat) (st : mstate) : mres :=
  match exception_catch clr fs st with
  | (st', CNull) => MRet st' None
  | (st', CBind k) => MRet st' (Some k)
  | (st', COut r) => of_out st' r
  end.
Definition m_throw (oaf : bool) (o m : nat) (st : mstate) : mres :=
  MFmt (throw_pre oaf o st)
       (fun s1 => let s2 := throw_post oaf o m s1 in of_out s2 (jump_or_die s2)).

(* the invariant read on the C record *)
Lemma minv_c : forall max s, minv max (abs s) ->
  c_depth s <= max /\ (1 <= c_depth s -> c_buf s (c_depth s - 1) <> 0).
Proof.
  intros max s (Hd & Hf). rewrite depth_abs in Hd. split; [exact Hd|].
  intros H1. cbn [abs bufs] in Hf. destruct (c_depth s) as [|d]; [lia|].
  rewrite stack_S in Hf. inversion Hf; subst. replace (S d - 1) with d by lia. assumption.
Qed.

(* The translated text is whatever the C source says: conditions in any form and order, index
   arithmetic in any spelling.  The tactics fix no shape of it.  [open_sim]: the invariant in terms
   of the C record (Hle, Hnz), the record by its fields (so sm sd sa sf).  [close_sim]: every condition left on either side is
   decided ([split_ifs]); then both sides have the same outcome and the C state abstracts to the model's
   (indices brought to successor form, then stack_push / stack_upd_above / stack_S), or the combination is
   impossible and goes by [lia], which reads the boolean comparisons and connectives in the hypotheses
   through ZifyBool.  Where a proof splits on the depth first, the comparisons with 0 and 1 evaluate and
   leave no impossible combination behind. *)

Ltac split_ifs :=
  repeat match goal with
  | |- context [if ?c then _ else _] =>
      lazymatch c with
      | context [if _ then _ else _] => fail
      | _ => destruct c eqn:?
      end
  end.

Ltac close_sim :=
  split_ifs; cbn [of_out];
  first [ cbn [Nat.pred]; rewrite ?Nat.add_1_r, ?Nat.sub_succ, ?Nat.sub_0_r;
          constructor; unfold abs; cbn [c_obj c_msg c_depth c_active c_buf];
          repeat first [ rewrite stack_push by lia | rewrite stack_upd_above by lia ];
          rewrite ?stack_S; cbn [stack seq rev map]; congruence
        | exfalso; lia ].

Ltac open_sim s Hinv :=
  apply minv_c in Hinv; destruct Hinv as (Hle & Hnz); destruct s as [so sm sd sa sf]; unfold abs in *;
  cbn [c_obj c_msg c_depth c_active c_buf obj msg bufs active] in *.

Lemma tie_try : forall env s,
  minv exc_max_depth (abs s) ->
  sim (tr_exception_try env s) (m_try exc_max_depth try_keeps_obj env (abs s)).
Proof.
  intros env s Hinv. unfold tr_exception_try, m_try, exception_try, try_keeps_obj. rewrite depth_abs.
  open_sim s Hinv. close_sim.
Qed.

Lemma tie_try_end : forall s,
  minv exc_max_depth (abs s) -> sim (tr_exception_try_end s) (m_try_end (abs s)).
Proof.
  intros s Hinv. unfold tr_exception_try_end, m_try_end, exception_try_end.
  open_sim s Hinv. destruct sd; rewrite ?stack_S; cbn [stack seq rev map Nat.eqb Nat.leb]; close_sim.
Qed.

(* exception_try_fail is only reached by a jump that landed in the innermost open block
   ([mrun_wf] below: a jump in flight carries the state it started from, which has a buffer on its stack) *)
Lemma tie_try_fail : forall s,
  minv exc_max_depth (abs s) -> 1 <= c_depth s ->
  sim (tr_exception_try_fail s) (m_try_fail (abs s)).
Proof.
  intros s Hinv H1. unfold tr_exception_try_fail, m_try_fail, exception_try_fail.
  open_sim s Hinv. close_sim.
Qed.

Lemma c_exists_matches : forall fs k,
  c_exists (fun a => c_eq (fun f o => kind_of f =? kind_of o) a (Some k)) fs
  = Some (existsb (fun f => kind_of f =? kind_of k) fs).
Proof.
  induction fs as [|f r IH]; intros k; cbn [c_exists existsb c_eq]; [reflexivity|].
  destruct (kind_of f =? kind_of k); [reflexivity | apply IH].
Qed.

Lemma tie_catch : forall istuple fs s,
  minv exc_max_depth (abs s) ->
  sim (tr_exception_catch (fun f o => kind_of f =? kind_of o) istuple fs s)
      (m_catch clear_active_on_catch fs (abs s)).
Proof.
  intros istuple fs s Hinv.
  unfold tr_exception_catch, m_catch, exception_catch, clear_active, clear_active_on_catch, jump_or_die, matches.
  open_sim s Hinv. destruct sa; cbn [negb]; [|close_sim].
  destruct so as [k|], fs as [|x r]; rewrite ?c_exists_matches; cbn [length Nat.eqb c_exists c_eq]; [close_sim | | close_sim ..].
  (* an entry of the filter matches, or the exception goes outwards: to the innermost buffer, if there is one *)
  destruct sd; rewrite ?stack_S; cbn [stack seq rev map Nat.eqb Nat.leb]; close_sim.
Qed.

Lemma tie_throw : forall o m s,
  minv exc_max_depth (abs s) ->
  sim (tr_exception_throw (set_msg m) o s) (m_throw throw_records_obj_after_format o m (abs s)).
Proof.
  intros o m s Hinv.
  unfold tr_exception_throw, m_throw, throw_pre, throw_post, throw_records_obj_after_format, jump_or_die.
  constructor; [now destruct s|]. clear Hinv.
  intros s1 Hinv. open_sim s1 Hinv. destruct sd; rewrite ?stack_S; cbn [stack seq rev map Nat.eqb Nat.leb]; close_sim.
Qed.

Lemma minv_bufs : forall max a b, bufs b = bufs a -> minv max a -> minv max b.
Proof. intros max a b H (Hd & Hf). unfold minv, depth in *. now rewrite H. Qed.

Lemma minv_pop : forall max s s', exception_try_end s = Some s' -> minv max s -> minv max s'.
Proof.
  unfold exception_try_end, minv, depth. intros max s s' He (Hd & Hf).
  destruct (bufs s) as [|x l]; inversion He; subst. inversion Hf; subst. cbn in *. split; [lia | assumption].
Qed.

(* a jump in flight names the innermost buffer of the state it carries *)
Definition jump_ok (r : mout) (s : mstate) : Prop := forall t, r = MJump t -> exists b, bufs s = t :: b.

Lemma jump_or_die_ok : forall s, jump_ok (jump_or_die s) s.
Proof. intros s t H. unfold jump_or_die in H. destruct (bufs s) as [|x b]; inversion H; subst. now exists b. Qed.

Lemma fn_end_ok : forall r s, jump_ok r s -> jump_ok (fn_end r) s.
Proof. intros [| | | | |[]] s H t E; try discriminate; now apply H. Qed.

Lemma handler_end_ok : forall r s, jump_ok r s -> jump_ok (handler_end r) s.
Proof. intros [| | | | |[]] s H t E; try discriminate; now apply H. Qed.

Section MachineDomain.
Variables (max : nat) (clr oaf tko : bool).
Notation run := (mrun max clr oaf tko).

Lemma catch_wf : forall fs s, let '(s', c) := exception_catch clr fs s in
  bufs s' = bufs s /\ forall r, c = COut r -> jump_ok r s'.
Proof.
  intros fs s. unfold exception_catch, clear_active.
  destruct (negb (active s)), (obj s) as [k|]; [| |destruct (matches fs k)|destruct fs];
    (split; [now destruct clr | intros r E; inversion E; subst]).
  - apply jump_or_die_ok.
  - discriminate.
Qed.

(* Stated on the run itself: the runs in between are then taken apart where they stand in the goal,
   each with its induction hypothesis, and no equation has to be carried along and inverted. *)
Lemma mrun_domain : forall p st, let '(tr, r, st') := run p st in
  (minv max st -> minv max st') /\ jump_ok r st'.
Proof.
  induction p as [ | n | p IHp q IHq | o m f IHf | b IHb fs h IHh | k0 | p IHp ]; intros st; cbn [mrun].
  - split; [auto | discriminate].
  - split; [auto | discriminate].
  - generalize (IHp st). destruct (run p st) as [[t1 r1] s1]. intros E1. destruct r1; try exact E1.
    generalize (IHq s1). destruct (run q s1) as [[t2 r2] s2]. intros E2. split; [intros H; apply E2, E1, H | apply E2].
  - generalize (IHf (throw_pre oaf o st)). destruct (run f _) as [[t1 r1] s1]. intros (A1 & B1).
    assert (A : minv max st -> minv max s1) by (intros H; apply A1, (minv_bufs max st); [unfold throw_pre; now destruct oaf | exact H]).
    apply fn_end_ok in B1. destruct (fn_end r1); try exact (conj A B1).
    split; [intros H; now apply (minv_bufs max s1), A | apply jump_or_die_ok].
  - unfold exception_try. destruct (depth st =? max) eqn:Hd; [split; [auto | discriminate]|].
    match goal with |- context [run b ?s0] => generalize (IHb s0) end.
    destruct (run b _) as [[t1 r1] s1]. intros (A1 & B1).
    assert (A : minv max st -> minv max s1).
    { intros (Hle & Hf). apply A1. apply Nat.eqb_neq in Hd. split; [unfold depth in *; cbn; lia | now constructor]. }
    (* where the body's outcome lands: at the end of the block, or in its else branch *)
    match goal with |- context [match ?l with Some _ => _ | None => _ end] => destruct l as [s2|] eqn:EL end;
      [|exact (conj A B1)].
    assert (HL : minv max st -> minv max s2).
    { intros H. destruct r1 as [|t| | | | ]; try discriminate.
      - inversion EL; subst. auto.
      - destruct (t =? S (depth st)); inversion EL; subst. apply (minv_bufs max s1); [reflexivity | auto]. }
    destruct (exception_try_end s2) as [s3|] eqn:He; [|split; [exact HL | discriminate]].
    generalize (catch_wf fs s3). destruct (exception_catch clr fs s3) as [s4 c]. intros (Hb4 & Hj4).
    assert (A4 : minv max st -> minv max s4) by (intros H; exact (minv_bufs max s3 s4 Hb4 (minv_pop _ _ _ He (HL H)))).
    destruct c.
    + split; [exact A4 | discriminate].
    + generalize (IHh s4). destruct (run h s4) as [[t2 r2] s5]. intros E2.
      split; [intros H; apply E2, A4, H | apply handler_end_ok, E2].
    + split; [exact A4 | exact (Hj4 _ eq_refl)].
  - split; [auto | discriminate].
  - generalize (IHp st). destruct (run p st) as [[t1 r1] s1]. intros E1.
    split; [apply E1 | apply fn_end_ok, E1].
Qed.

Lemma mrun_wf : forall p st tr r st', run p st = (tr, r, st') ->
  (minv max st -> minv max st') /\ jump_ok r st'.
Proof. intros p st tr r st' Hrun. generalize (mrun_domain p st). now rewrite Hrun. Qed.

End MachineDomain.
