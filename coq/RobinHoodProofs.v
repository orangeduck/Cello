(* RobinHoodProofs.v — proofs about the raw slot array of RobinHood.v, generic in the
   entry type E, the key projection, the displacement rule and on_eq, so that Table (C02) and
   the GC registry (C17) can both use them.

   What an array holds is the list `entries l` up to permutation: `Holds` is membership in it,
   `occupied` its length, `UQ` that its keys are pairwise distinct.  The invariant `core` adds the
   robin-hood ordering RHL (local form  wt (nxt i) <= S (wt i)) and WF (stored home = hm key < n).
   find, insert, delete_at, reinsert are total under the invariant (fuel adequacy), keep it, and
   change the held entries as a finite map would. *)
From Coq Require Import List Arith Bool NArith Lia PeanoNat Permutation.
From CelloV Require Import RobinHood.
Import ListNotations.

(* slot reached from home h after k steps (k <= n), written without mod *)
Definition pos (n h k : nat) : nat := if h + k <? n then h + k else h + k - n.

Lemma nxt_eq n i : i < n -> nxt n i = if S i =? n then 0 else S i.
Proof.
  intros Hi. unfold nxt. destruct (Nat.eqb_spec (S i) n) as [->|Hne].
  - apply Nat.mod_same. lia.
  - apply Nat.mod_small. lia.
Qed.

(* nxt, pos and dist without mod, comparison or truncated subtraction: all that the cyclic
   arithmetic below needs of them, in the form lia takes *)
Lemma nxt_spec n i : i < n -> nxt n i = S i /\ S i < n \/ nxt n i = 0 /\ S i = n.
Proof. intros Hi. rewrite nxt_eq by assumption. destruct (Nat.eqb_spec (S i) n); lia. Qed.

Lemma pos_spec n h k : pos n h k = h + k /\ h + k < n \/ pos n h k + n = h + k /\ n <= h + k.
Proof. unfold pos. destruct (Nat.ltb_spec (h + k) n); lia. Qed.

Lemma dist_spec n i h : h < n -> dist n i h + h = i /\ h <= i \/ dist n i h + h = n + i /\ i < h.
Proof. intros Hh. unfold dist. destruct (Nat.leb_spec h i); lia. Qed.

Lemma nxt_lt n i : i < n -> nxt n i < n.
Proof. intros Hi. generalize (nxt_spec n i Hi). lia. Qed.

Lemma nxt_inj n i i' : i < n -> i' < n -> nxt n i = nxt n i' -> i = i'.
Proof. intros Hi Hi'. generalize (nxt_spec n i Hi) (nxt_spec n i' Hi'). lia. Qed.

Lemma pos_lt n h k : h < n -> k <= n -> pos n h k < n.
Proof. generalize (pos_spec n h k). lia. Qed.

Lemma pos_0 n h : h < n -> pos n h 0 = h.
Proof. generalize (pos_spec n h 0). lia. Qed.

Lemma nxt_pos n h k : h < n -> k < n -> nxt n (pos n h k) = pos n h (S k).
Proof.
  intros Hh Hk. generalize (nxt_spec n _ (pos_lt n h k Hh (Nat.lt_le_incl _ _ Hk))) (pos_spec n h k) (pos_spec n h (S k)). lia.
Qed.

Lemma dist_lt n i h : h < n -> i < n -> dist n i h < n.
Proof. intros Hh. generalize (dist_spec n i h Hh). lia. Qed.

Lemma dist_pos_from n i m : i < n -> m < n -> dist n (pos n i m) i = m.
Proof. intros Hi. generalize (pos_spec n i m) (dist_spec n (pos n i m) i Hi). lia. Qed.

Lemma pos_dist n i h : h < n -> i < n -> pos n h (dist n i h) = i.
Proof. intros Hh. generalize (dist_spec n i h Hh) (pos_spec n h (dist n i h)). lia. Qed.

Lemma pos_pos n h a b : h < n -> a < n -> b < n -> a + b < n -> pos n (pos n h a) b = pos n h (a + b).
Proof. generalize (pos_spec n h a) (pos_spec n (pos n h a) b) (pos_spec n h (a + b)). lia. Qed.

Lemma dist_self n i : dist n i i = 0.
Proof. unfold dist. rewrite Nat.leb_refl. apply Nat.sub_diag. Qed.

Lemma dist_0 n i h : h < n -> i < n -> dist n i h = 0 -> i = h.
Proof. intros Hh. generalize (dist_spec n i h Hh). lia. Qed.

(* one step forward increases the distance unless we arrive at home *)
Lemma dist_nxt n i h : h < n -> i < n -> S (dist n i h) < n ->
  dist n (nxt n i) h = S (dist n i h).
Proof. intros Hh Hi. generalize (nxt_spec n i Hi) (dist_spec n i h Hh) (dist_spec n (nxt n i) h Hh). lia. Qed.

Lemma dist_nxt_back n i h q : h < n -> i < n -> dist n (nxt n i) h = S q -> dist n i h = q.
Proof. intros Hh Hi. generalize (nxt_spec n i Hi) (dist_spec n i h Hh) (dist_spec n (nxt n i) h Hh). lia. Qed.

(* one step forward brings a slot z ahead one step nearer *)
Lemma dist_from_nxt n i z : i < n -> z < n -> i <> z -> dist n z i = S (dist n z (nxt n i)).
Proof. intros Hi. generalize (nxt_spec n i Hi) (dist_spec n z i Hi) (dist_spec n z _ (nxt_lt n i Hi)). lia. Qed.

Lemma pos_S_nxt n i m : i < n -> m < n -> pos n i (S m) = pos n (nxt n i) m.
Proof. intros Hi. generalize (nxt_spec n i Hi) (pos_spec n i (S m)) (pos_spec n (nxt n i) m). lia. Qed.

Lemma pos_ne_self n i m : i < n -> 0 < m -> m < n -> pos n i m <> i.
Proof. generalize (pos_spec n i m). lia. Qed.

Section RHP.
  Variables K E : Type.
  Variable keq : K -> K -> bool.
  Variable ekey : E -> K.
  Variable swap : nat -> nat -> bool.
  Variable on_eq : E -> E -> E.

  Hypothesis keq_spec : forall a b, keq a b = true <-> a = b.
  (* what the proofs need from the displacement rule; both `p <? j` and `p <=? j` satisfy it *)
  Hypothesis swap_le : forall j p, swap j p = true -> p <= j.
  Hypothesis swap_ge : forall j p, swap j p = false -> j <= p.
  (* Table: on_eq old new = new; GC: on_eq old new = old *)
  Hypothesis on_eq_key : forall e c, ekey e = ekey c -> ekey (on_eq e c) = ekey c.

  Local Notation slot := (slot E).
  Local Notation at_ := (at_ E).
  Local Notation upd := (upd E).
  Local Notation entries := (entries E).
  Local Notation occupied := (occupied E).

  Lemma upd_length i x (l : list slot) : length (upd i x l) = length l.
  Proof. revert i; induction l as [|y l IH]; intros [|i]; simpl; auto. Qed.

  Lemma at_upd_eq i x (l : list slot) : i < length l -> at_ (upd i x l) i = x.
  Proof.
    revert i; induction l as [|y l IH]; intros [|i] Hi; simpl in *; try lia; auto.
    apply IH; lia.
  Qed.

  Lemma at_upd_ne i i' x (l : list slot) : i <> i' -> at_ (upd i x l) i' = at_ l i'.
  Proof.
    revert i i'; induction l as [|y l IH]; intros [|i] [|i'] Hne; simpl; auto; try lia.
    apply IH; lia.
  Qed.

  Lemma at_upd i i' x (l : list slot) : i < length l ->
    at_ (upd i x l) i' = if i' =? i then x else at_ l i'.
  Proof.
    intros Hi. destruct (Nat.eqb_spec i' i) as [->|Hne].
    - apply at_upd_eq; assumption.
    - apply at_upd_ne; auto.
  Qed.

  Lemma at_some_lt (l : list slot) i s : at_ l i = Some s -> i < length l.
  Proof.
    intros H. destruct (Nat.lt_ge_cases i (length l)) as [|Hge]; [assumption|].
    unfold RobinHood.at_ in H. rewrite nth_overflow in H by assumption. discriminate.
  Qed.

  Lemma at_cons s (l : list slot) i : at_ (s :: l) (S i) = at_ l i.
  Proof. reflexivity. Qed.

  Lemma at_repeat n i : at_ (repeat None n) i = None.
  Proof.
    revert i; induction n as [|n IH]; intros [|i]; simpl; auto. apply IH.
  Qed.

  Definition ent (s : slot) : list E := match s with Some (_, e) => [e] | None => [] end.

  Lemma entries_ent s (l : list slot) : entries (s :: l) = ent s ++ entries l.
  Proof. reflexivity. Qed.

  Lemma entries_cons s (l : list slot) :
    entries (s :: l) = match s with Some (_, e) => e :: entries l | None => entries l end.
  Proof. rewrite entries_ent. destruct s as [[h e]|]; reflexivity. Qed.

  Lemma occupied_entries (l : list slot) : occupied l = length (entries l).
  Proof. reflexivity. Qed.

  (* overwriting a slot exchanges its old entry for the new one and touches no other *)
  Lemma entries_upd i x (l : list slot) : i < length l ->
    Permutation (ent x ++ entries l) (ent (at_ l i) ++ entries (upd i x l)).
  Proof.
    revert i; induction l as [|y l IH]; intros [|i] Hi; simpl in Hi; try lia.
    - apply Permutation_app_swap_app.
    - simpl upd. rewrite at_cons, !entries_ent, Permutation_app_swap_app, (IH i) by lia.
      apply Permutation_app_swap_app.
  Qed.

  Definition Holds (l : list slot) (x : E) : Prop := exists i h, at_ l i = Some (h, x).

  Lemma in_entries (l : list slot) x : In x (entries l) <-> Holds l x.
  Proof.
    unfold RobinHood.entries. rewrite in_flat_map. split.
    - intros [[[h e]|] [Hs Hx]]; [|destruct Hx]. destruct Hx as [<-|[]].
      destruct (In_nth _ _ None Hs) as [i [_ Hi]]. exists i, h. exact Hi.
    - intros [i [h H]]. exists (Some (h, x)). split; [|left; reflexivity].
      rewrite <- H. apply nth_In. eapply at_some_lt; eassumption.
  Qed.

  Lemma Holds_upd_some (l : list slot) i h e h' e' x : at_ l i = Some (h, e) ->
    (Holds (upd i (Some (h', e')) l) x \/ x = e <-> Holds l x \/ x = e').
  Proof.
    intros Hat. pose proof (entries_upd i (Some (h', e')) l (at_some_lt _ _ _ Hat)) as P.
    rewrite Hat in P. rewrite <- !in_entries.
    assert (Hc : forall a L, In x (a :: L) <-> In x L \/ x = a) by (split; [intros [<-|H]|intros [H| ->]]; simpl; auto).
    rewrite <- !Hc. split; apply Permutation_in; [symmetry|]; exact P.
  Qed.

  Definition occ1 (s : slot) : nat := match s with Some _ => 1 | None => 0 end.

  Lemma occupied_cons s (l : list slot) : occupied (s :: l) = occ1 s + occupied l.
  Proof. rewrite !occupied_entries, entries_cons. destruct s as [[h e]|]; reflexivity. Qed.

  Lemma occupied_repeat n : occupied (repeat None n) = 0.
  Proof. induction n as [|n IH]; [reflexivity|]. simpl repeat. rewrite occupied_cons, IH. reflexivity. Qed.

  Lemma occupied_le (l : list slot) : occupied l <= length l.
  Proof.
    induction l as [|s l IH]; [reflexivity|]. rewrite occupied_cons. simpl.
    destruct s; simpl; lia.
  Qed.

  (* a free slot exists as soon as the count says so — no pigeonhole needed *)
  Lemma empty_slot_exists (l : list slot) : occupied l < length l ->
    exists z, z < length l /\ at_ l z = None.
  Proof.
    induction l as [|s l IH]; simpl; [lia|]. rewrite occupied_cons.
    destruct s as [x|]; simpl; intros H.
    - destruct IH as [z [Hz Hn]]; [lia|]. exists (S z). split; [lia|]. exact Hn.
    - exists 0. split; [lia|reflexivity].
  Qed.

  (* 0 for an empty slot, 1 + probe distance otherwise (the C code's stored hash word plays
     the same double role) *)
  Definition wslot (n i : nat) (s : slot) : nat :=
    match s with None => 0 | Some (h, _) => S (dist n i h) end.

  Definition wt (l : list slot) (i : nat) : nat := wslot (length l) i (at_ l i).

  (* robin-hood ordering, local form: walking forward the distance grows by at most one *)
  Definition RHL (l : list slot) : Prop :=
    forall i, i < length l -> wt l (nxt (length l) i) <= S (wt l i).

  Lemma wt_upd (l : list slot) i x i' : i < length l ->
    wt (upd i x l) i' = if i' =? i then wslot (length l) i x else wt l i'.
  Proof.
    intros Hi. unfold wt. rewrite upd_length, at_upd by assumption.
    destruct (Nat.eqb_spec i' i) as [->|]; reflexivity.
  Qed.

  Lemma wt_none (l : list slot) i : at_ l i = None -> wt l i = 0.
  Proof. unfold wt; intros ->; reflexivity. Qed.

  Lemma wt_some (l : list slot) i h e : at_ l i = Some (h, e) -> wt l i = S (dist (length l) i h).
  Proof. unfold wt; intros ->; reflexivity. Qed.

  (* the ordering speaks of the weights only.  Changing one weight keeps it when the new value
     fits between its two neighbours; every operation below changes the array one slot at a time *)
  Definition RHf (n : nat) (W : nat -> nat) : Prop := forall a, a < n -> W (nxt n a) <= S (W a).

  Lemma RHf_set n W W' i v : RHf n W -> (forall a, W' a = if a =? i then v else W a) ->
    (forall a, a < n -> nxt n a = i -> v <= S (W a)) -> (nxt n i <> i -> W (nxt n i) <= S v) ->
    RHf n W'.
  Proof.
    intros HW HW' Hprev Hnext a Ha. rewrite !HW'. specialize (HW a Ha). specialize (Hprev a Ha).
    destruct (Nat.eqb_spec (nxt n a) i) as [Hn|Hn]; destruct (Nat.eqb_spec a i) as [->|]; auto; lia.
  Qed.

  (* global form: every slot on the way from an entry's home to its position is occupied
     by an entry at least as far from its own home *)
  Lemma RHL_path (l : list slot) i h e : RHL l -> h < length l -> at_ l i = Some (h, e) ->
    forall k, k <= dist (length l) i h -> k < wt l (pos (length l) h k).
  Proof.
    intros HL Hh Hat. pose proof (at_some_lt _ _ _ Hat) as Hi.
    pose proof (dist_lt _ i h Hh Hi) as Hd.
    assert (H : forall r k, k + r = dist (length l) i h -> k < wt l (pos (length l) h k)).
    { induction r as [|r IH]; intros k Hk.
      - rewrite Nat.add_0_r in Hk. rewrite Hk, pos_dist, (wt_some _ _ _ _ Hat) by assumption. lia.
      - specialize (IH (S k) ltac:(lia)).
        pose proof (HL (pos (length l) h k) ltac:(apply pos_lt; lia)) as H1.
        rewrite nxt_pos in H1 by lia. lia. }
    intros k Hk. apply (H (dist (length l) i h - k)). lia.
  Qed.

  Section Fixed.
  Variable hm : K -> nat.      (* home of a key for the current slot count *)

  Definition WF (l : list slot) : Prop :=
    forall i h e, at_ l i = Some (h, e) -> h = hm (ekey e) /\ h < length l.
  Definition UQ (l : list slot) : Prop :=
    forall i i' h h' e e', at_ l i = Some (h, e) -> at_ l i' = Some (h', e') ->
      ekey e = ekey e' -> i = i'.
  Definition core (l : list slot) : Prop := RHL l /\ WF l /\ UQ l.
  Definition Absent (l : list slot) (k : K) : Prop :=
    forall i h e, at_ l i = Some (h, e) -> ekey e <> k.

  Lemma core_repeat n : core (repeat None n).
  Proof.
    split; [|split].
    - intros i Hi. rewrite wt_none by apply at_repeat. lia.
    - intros i h e H. rewrite at_repeat in H. discriminate.
    - intros i i' h h' e e' H. rewrite at_repeat in H. discriminate.
  Qed.

  Lemma Absent_repeat n k : Absent (repeat None n) k.
  Proof. intros i h e H. rewrite at_repeat in H. discriminate. Qed.

  Lemma wt_le (l : list slot) i : WF l -> i < length l -> wt l i <= length l.
  Proof.
    intros Hwf Hi. unfold wt. destruct (at_ l i) as [[h e]|] eqn:Hat; simpl; [|lia].
    destruct (Hwf _ _ _ Hat) as [_ Hh]. pose proof (dist_lt (length l) i h Hh Hi). lia.
  Qed.

  Lemma UQ_same (l : list slot) i h e e' : UQ l -> at_ l i = Some (h, e) ->
    Holds l e' -> ekey e' = ekey e -> e' = e.
  Proof.
    intros Huq Hat [a [g Ha]] Hk. assert (a = i) by (eapply Huq; eauto). subst a. congruence.
  Qed.

  Lemma WF_upd (l : list slot) i x : WF l -> i < length l ->
    (forall h e, x = Some (h, e) -> h = hm (ekey e) /\ h < length l) -> WF (upd i x l).
  Proof.
    intros Hwf Hi Hx a h e Ha. rewrite upd_length. rewrite at_upd in Ha by assumption.
    destruct (a =? i); [apply Hx; assumption|eapply Hwf; eassumption].
  Qed.

  Lemma UQ_tail s (l : list slot) : UQ (s :: l) -> UQ l.
  Proof.
    intros Huq a b g g' x x' Ha Hb Hxx.
    assert (S a = S b) by (eapply Huq; [rewrite at_cons; exact Ha|rewrite at_cons; exact Hb|exact Hxx]). lia.
  Qed.

  (* no duplicate keys, list form: iteration yields every key once *)
  Lemma UQ_NoDup (l : list slot) : UQ l -> NoDup (map ekey (entries l)).
  Proof.
    induction l as [|s l IH]; intros Huq; [constructor|].
    rewrite entries_cons. pose proof (IH (UQ_tail _ _ Huq)) as Hnd.
    destruct s as [[h e]|]; [|exact Hnd]. simpl. constructor; [|exact Hnd].
    intros Hin. apply in_map_iff in Hin. destruct Hin as [x [Hk Hx]].
    apply in_entries in Hx. destruct Hx as [a [g Ha]].
    assert (0 = S a); [|lia]. eapply (Huq 0 (S a) h g e x); [reflexivity|rewrite at_cons; exact Ha|auto].
  Qed.

  Lemma NoDup_UQ (l : list slot) : NoDup (map ekey (entries l)) -> UQ l.
  Proof.
    intros Hnd a b g g' x x' Ha Hb Hxx. destruct (Nat.eq_dec a b) as [|Hne]; [assumption|exfalso].
    pose proof (entries_upd a None l (at_some_lt _ _ _ Ha)) as P. rewrite Ha in P.
    apply (Permutation_NoDup (Permutation_map ekey P)) in Hnd. inversion Hnd as [|? ? Hnin _].
    apply Hnin. simpl. rewrite Hxx. apply in_map, in_entries. exists b, g'. rewrite at_upd_ne by exact Hne. exact Hb.
  Qed.

  Lemma Absent_entries (l : list slot) k : Absent l k <-> ~ In k (map ekey (entries l)).
  Proof.
    rewrite in_map_iff. split.
    - intros Ha [x [Hk Hx]]. apply in_entries in Hx. destruct Hx as [i [h Hat]]. exact (Ha _ _ _ Hat Hk).
    - intros Hn i h e Hat Hk. apply Hn. exists e. split; [exact Hk|]. apply in_entries. exists i, h. exact Hat.
  Qed.

  Lemma UQ_perm (l l' : list slot) : UQ l -> Permutation (map ekey (entries l)) (map ekey (entries l')) -> UQ l'.
  Proof. intros Huq P. apply NoDup_UQ, (Permutation_NoDup P), UQ_NoDup, Huq. Qed.

  (* walking from the home of k, every holder of k is still ahead: the stop test misses nothing *)
  Lemma find_loop_spec (l : list slot) k : core l -> hm k < length l ->
    forall fuel j, j <= length l -> length l + 1 - j < fuel ->
      (forall i e, at_ l i = Some (hm k, e) -> ekey e = k -> j <= dist (length l) i (hm k)) ->
      exists r, find_loop K E keq ekey fuel l (pos (length l) (hm k) j) j k = Some r /\
        match r with
        | Some i => exists e, at_ l i = Some (hm k, e) /\ ekey e = k
        | None => Absent l k
        end.
  Proof.
    intros [HL [Hwf Huq]] Hh.
    induction fuel as [|f IH]; intros j Hj Hfuel Hfar; [lia|].
    cbn [find_loop]. set (i := pos (length l) (hm k) j).
    assert (Hi : i < length l) by (apply pos_lt; lia).
    assert (Hstop : wt l i <= j -> Absent l k).
    { intros Hw i' h e Hat Hk. destruct (Hwf _ _ _ Hat) as [Hh' _]. rewrite Hk in Hh'. subst h.
      pose proof (RHL_path l i' (hm k) e HL Hh Hat j (Hfar _ _ Hat Hk)) as Hp. fold i in Hp. lia. }
    destruct (at_ l i) as [[h e]|] eqn:Hat; [|exists None; rewrite (wt_none _ _ Hat) in Hstop; auto with arith].
    destruct (Hwf _ _ _ Hat) as [Hhe Hh']. rewrite (wt_some _ _ _ _ Hat) in Hstop.
    destruct (Nat.ltb_spec (dist (length l) i h) j) as [Hlt|Hge]; [exists None; auto|].
    destruct (keq (ekey e) k) eqn:Hk.
    - apply keq_spec in Hk. exists (Some i). split; [reflexivity|]. exists e. rewrite Hk in Hhe. subst h. auto.
    - pose proof (dist_lt _ i h Hh' Hi) as Hd.
      unfold i. rewrite nxt_pos by lia. apply IH; [lia|lia|].
      intros i' e' Hat' Hk'. specialize (Hfar i' e' Hat' Hk').
      enough (dist (length l) i' (hm k) <> j) by lia. intros <-.
      unfold i in Hat. rewrite pos_dist in Hat by (assumption || exact (at_some_lt _ _ _ Hat')). rewrite Hat' in Hat. injection Hat as _ <-.
      apply keq_spec in Hk'. congruence.
  Qed.

  (* Table_Get / Table_Mem / the search part of Table_Rem: never out of fuel, finds the key
     iff it is held *)
  Theorem find_spec (l : list slot) k : core l -> hm k < length l ->
    exists r, find K E keq ekey l (hm k) k = Some r /\
      match r with
      | Some i => exists e, at_ l i = Some (hm k, e) /\ ekey e = k
      | None => Absent l k
      end.
  Proof.
    intros Hc Hh. unfold find.
    pose proof (find_loop_spec l k Hc Hh (length l + 2) 0 ltac:(lia) ltac:(lia)) as H.
    rewrite pos_0 in H by assumption. apply H. intros; lia.
  Qed.

  Lemma core_upd_same (l : list slot) i h e e' : core l -> at_ l i = Some (h, e) ->
    ekey e' = ekey e -> core (upd i (Some (h, e')) l).
  Proof.
    intros [HL [Hwf Huq]] Hat Hk. pose proof (at_some_lt _ _ _ Hat) as Hi.
    pose proof (entries_upd i (Some (h, e')) l Hi) as P. rewrite Hat in P.
    split; [|split].
    - assert (Hw : forall a, wt (upd i (Some (h, e')) l) a = wt l a).
      { intros a. rewrite wt_upd by assumption. destruct (Nat.eqb_spec a i) as [->|]; [|reflexivity].
        symmetry. exact (wt_some _ _ _ _ Hat). }
      intros a Ha. rewrite upd_length in *. rewrite !Hw. exact (HL a Ha).
    - apply WF_upd; auto. intros ? ? [= <- <-]. rewrite Hk. eapply Hwf; eassumption.
    - apply (UQ_perm l _ Huq), Permutation_cons_inv with (a := ekey e). rewrite <- Hk at 1.
      exact (Permutation_map ekey P).
  Qed.

  (* the key is not in the table: the entry (or the one it displaces, and so on) ends in the
     first free slot; works for every displacement rule between `p < j` and `p <= j`.
     Loop state: the carried entry (home ch) is j steps from home at slot i, its key and the keys
     in the array are pairwise distinct, the slot before i weighs at least j, and j plus the way
     to the free slot z is less than once round.  A displaced resident inherits that bound: it is
     displaced only if it is no farther from its home than the entry that takes its slot. *)
  Lemma insert_loop_absent : forall fuel (l : list slot) i j ch ce z,
    RHL l -> WF l -> NoDup (map ekey (ce :: entries l)) ->
    ch = hm (ekey ce) -> ch < length l -> i < length l -> j = dist (length l) i ch ->
    (forall i', i' < length l -> nxt (length l) i' = i -> j <= wt l i') ->
    z < length l -> at_ l z = None -> j + dist (length l) z i < length l -> dist (length l) z i < fuel ->
    exists l', insert_loop K E keq ekey swap on_eq fuel l i j ch ce = Some (l', true) /\
      RHL l' /\ WF l' /\ length l' = length l /\ Permutation (entries l') (ce :: entries l).
  Proof.
    induction fuel as [|f IH]; intros l i j ch ce z HL Hwf Hnd Hhm Hch Hi Hj Hprev Hz Hzn Hjz Hfuel; [lia|].
    cbn [insert_loop].
    assert (Hplace : wt l i <= S j -> RHL (upd i (Some (ch, ce)) l) /\ WF (upd i (Some (ch, ce)) l)).
    { intros Hold. split.
      - unfold RHL. rewrite upd_length. apply (RHf_set _ (wt l) _ i (S j) HL).
        + intros a. rewrite wt_upd, Hj by assumption. reflexivity.
        + intros a Ha Hn. specialize (Hprev a Ha Hn). lia.
        + intros _. specialize (HL i Hi). lia.
      - apply WF_upd; auto. intros ? ? [= <- <-]. auto. }
    pose proof (entries_upd i (Some (ch, ce)) l Hi) as P.
    destruct (at_ l i) as [[h e]|] eqn:Hat.
    - assert (Hk : keq (ekey e) (ekey ce) = false).
      { destruct (keq (ekey e) (ekey ce)) eqn:Hk; [|reflexivity]. apply keq_spec in Hk.
        inversion Hnd as [|? ? Hnin _]. destruct Hnin. rewrite <- Hk. apply in_map, in_entries. exists i, h. exact Hat. }
      rewrite Hk.
      assert (Hiz : i <> z) by congruence.
      destruct (Hwf _ _ _ Hat) as [Hhe Hh].
      pose proof (dist_from_nxt _ i z Hi Hz Hiz) as Hdz. pose proof (nxt_lt _ i Hi) as Hni.
      destruct (swap j (dist (length l) i h)) eqn:Hsw.
      + apply swap_le in Hsw. destruct Hplace as [HL1 Hwf1]; [rewrite (wt_some _ _ _ _ Hat); lia|].
        destruct (IH (upd i (Some (ch, ce)) l) (nxt (length l) i) (S (dist (length l) i h)) h e z)
          as (l' & Hr & HL' & Hwf' & Hlen' & P'); rewrite ?upd_length; auto.
        * exact (Permutation_NoDup (Permutation_map ekey P) Hnd).
        * symmetry. apply dist_nxt; auto; lia.
        * intros a Ha Hnx. apply nxt_inj in Hnx; auto. subst a. rewrite wt_upd, Nat.eqb_refl by assumption. simpl. lia.
        * rewrite at_upd_ne; auto.
        * lia.
        * lia.
        * exists l'. rewrite upd_length in Hlen'. repeat (split; [assumption|]). rewrite P'. symmetry. exact P.
      + apply swap_ge in Hsw. apply (IH l (nxt (length l) i) (S j) ch ce z); auto.
        * subst j. symmetry. apply dist_nxt; auto; lia.
        * intros a Ha Hnx. apply nxt_inj in Hnx; auto. subst a. rewrite (wt_some _ _ _ _ Hat). lia.
        * lia.
        * lia.
    - exists (upd i (Some (ch, ce)) l). rewrite upd_length. destruct Hplace as [HL1 Hwf1]; [rewrite (wt_none _ _ Hat); lia|].
      symmetry in P. auto.
  Qed.

  (* the key is already held: under the STRICT rule nothing is displaced before the probe reaches
     it, so insertion walks exactly as find does *)
  Lemma insert_loop_found (l : list slot) ch ce i0 : (forall j p, swap j p = true -> p < j) ->
    forall f f' i j, f <= f' -> find_loop K E keq ekey f l i j (ekey ce) = Some (Some i0) ->
    exists h eold, at_ l i0 = Some (h, eold) /\
      insert_loop K E keq ekey swap on_eq f' l i j ch ce = Some (upd i0 (Some (ch, on_eq eold ce)) l, false).
  Proof.
    intros Hstrict. induction f as [|f IH]; intros [|f'] i j Hf Hfind; try discriminate; [lia|].
    cbn [find_loop insert_loop] in *. destruct (at_ l i) as [[h e]|] eqn:Hat; [|discriminate].
    destruct (Nat.ltb_spec (dist (length l) i h) j) as [Hlt|Hge]; [discriminate|].
    destruct (keq (ekey e) (ekey ce)).
    - injection Hfind as <-. eauto.
    - destruct (swap j (dist (length l) i h)) eqn:Hsw; [apply Hstrict in Hsw; lia|].
      apply (IH f'); [lia|exact Hfind].
  Qed.

  (* l' holds one entry more than l: what that says in terms of UQ, Holds and occupied; read from
     left to right for insertion, from right to left for deletion *)
  Lemma perm_cons_spec (l l' : list slot) c : Permutation (entries l') (c :: entries l) ->
    (UQ l' <-> UQ l /\ Absent l (ekey c)) /\ (forall x, Holds l' x <-> Holds l x \/ x = c) /\
    occupied l' = S (occupied l).
  Proof.
    intros P. split; [|split].
    - pose proof (Permutation_map ekey P) as Pk. split.
      + intros H. apply UQ_NoDup, (Permutation_NoDup Pk), NoDup_cons_iff in H.
        split; [apply NoDup_UQ, H|apply Absent_entries, H].
      + intros [Hu Ha]. apply NoDup_UQ, (Permutation_NoDup (Permutation_sym Pk)).
        constructor; [apply Absent_entries, Ha|apply UQ_NoDup, Hu].
    - intros x. rewrite <- !in_entries, P. simpl. intuition auto.
    - exact (Permutation_length P).
  Qed.

  (* Table_Set_Move / GC_Set_Ptr on the raw array, key absent: any admissible rule *)
  Theorem insert_absent_spec (l : list slot) ce : core l ->
    hm (ekey ce) < length l -> occupied l < length l -> Absent l (ekey ce) ->
    exists l', insert K E keq ekey swap on_eq l (hm (ekey ce)) ce = Some (l', true) /\
      core l' /\ length l' = length l /\
      (forall x, Holds l' x <-> Holds l x \/ x = ce) /\
      occupied l' = S (occupied l).
  Proof.
    intros [HL [Hwf Huq]] Hh Hocc Habs. destruct (empty_slot_exists l Hocc) as [z [Hz Hzn]].
    pose proof (dist_lt _ z (hm (ekey ce)) Hh Hz) as Hd.
    destruct (insert_loop_absent (2 * length l + 2) l (hm (ekey ce)) 0 (hm (ekey ce)) ce z)
      as (l' & Hr & HL' & Hwf' & Hlen & P); auto using dist_self; try lia.
    - constructor; [apply Absent_entries, Habs|apply UQ_NoDup, Huq].
    - destruct (perm_cons_spec l l' ce P) as [Huq' H]. exists l'. split; [exact Hr|]. split; [|split; assumption].
      split; [exact HL'|]. split; [exact Hwf'|]. apply Huq'. split; assumption.
  Qed.

  (* key present: strict rule only (the non-strict rule duplicates the key, see
     table_nonstrict_refuted) *)
  Theorem insert_present_spec (l : list slot) ce i0 h0 eold : core l ->
    (forall j p, swap j p = true -> p < j) ->
    hm (ekey ce) < length l -> at_ l i0 = Some (h0, eold) -> ekey eold = ekey ce ->
    insert K E keq ekey swap on_eq l (hm (ekey ce)) ce
      = Some (upd i0 (Some (hm (ekey ce), on_eq eold ce)) l, false) /\ h0 = hm (ekey ce).
  Proof.
    intros Hc Hstrict Hh Hat Hk.
    destruct (proj1 (proj2 Hc) _ _ _ Hat) as [Hh0 _]. rewrite Hk in Hh0. subst h0. split; [|reflexivity].
    destruct (find_spec l (ekey ce) Hc Hh) as [[i|] [Hf Hr]]; [|destruct (Hr _ _ _ Hat Hk)].
    destruct Hr as [e [Hati Hke]]. rewrite <- Hk in Hke.
    rewrite (proj2 (proj2 Hc) _ _ _ _ _ _ Hati Hat Hke) in Hf.
    destruct (insert_loop_found l (hm (ekey ce)) ce i0 Hstrict (length l + 2) (2 * length l + 2) _ _ ltac:(lia) Hf)
      as [h [eo [Hat' Hins]]].
    rewrite Hat in Hat'. injection Hat' as _ <-. exact Hins.
  Qed.

  (* both cases in one statement, finite-map reading:  the result holds exactly the old
     entries with other keys plus one entry for the key *)
  Theorem insert_spec (l : list slot) ce : core l ->
    (forall j p, swap j p = true -> p < j) ->
    hm (ekey ce) < length l -> occupied l < length l ->
    exists l' fresh newe, insert K E keq ekey swap on_eq l (hm (ekey ce)) ce = Some (l', fresh) /\
      core l' /\ length l' = length l /\
      (forall x, Holds l' x <-> x = newe \/ (Holds l x /\ ekey x <> ekey ce)) /\
      ekey newe = ekey ce /\
      (fresh = true -> Absent l (ekey ce) /\ newe = ce /\ occupied l' = S (occupied l)) /\
      (fresh = false -> (exists eold, Holds l eold /\ ekey eold = ekey ce /\ newe = on_eq eold ce)
                        /\ occupied l' = occupied l).
  Proof.
    intros Hc Hstrict Hh Hocc. pose proof Hc as [HL [Hwf Huq]].
    destruct (find_spec l (ekey ce) Hc Hh) as [[i0|] [_ Hr]].
    - destruct Hr as [eold [Hat Hk]]. pose proof (at_some_lt _ _ _ Hat) as Hi0.
      destruct (insert_present_spec l ce i0 _ eold Hc Hstrict Hh Hat Hk) as [Hins _].
      pose proof (on_eq_key eold ce Hk) as Hkn.
      exists (upd i0 (Some (hm (ekey ce), on_eq eold ce)) l), false, (on_eq eold ce).
      split; [exact Hins|]. split; [apply core_upd_same with (e := eold); congruence|].
      split; [apply upd_length|]. split; [|split; [exact Hkn|split; [discriminate|]]].
      + intros x. split.
        * intros [a [g Ha]]. rewrite at_upd in Ha by assumption.
          destruct (Nat.eqb_spec a i0) as [->|Hne]; [left; congruence|].
          right. split; [exists a, g; exact Ha|]. intros Hkx. apply Hne. eapply Huq; eauto. congruence.
        * intros [->|[[a [g Ha]] Hkx]]; [exists i0, (hm (ekey ce)); apply at_upd_eq; assumption|].
          exists a, g. rewrite at_upd_ne; [exact Ha|]. intros <-. apply Hkx. congruence.
      + intros _. split; [exists eold; split; [exists i0, (hm (ekey ce)); exact Hat|auto]|].
        pose proof (Permutation_length (entries_upd i0 (Some (hm (ekey ce), on_eq eold ce)) l Hi0)) as Hlen.
        rewrite Hat in Hlen. simpl in Hlen. rewrite !occupied_entries. lia.
    - destruct (insert_absent_spec l ce Hc Hh Hocc Hr) as [l' [Hins [Hc' [Hlen [Hh' Ho]]]]].
      exists l', true, ce. repeat (split; [assumption|]).
      split; [|split; [reflexivity|split; [auto|discriminate]]].
      intros x. rewrite Hh'. split.
      + intros [[a [g Ha]]| ->]; [|auto]. right. split; [exists a, g; exact Ha|]. eapply Hr; eauto.
      + intros [->|[Hl _]]; auto.
  Qed.

  Lemma backshift_S fuel (l : list slot) i :
    backshift E (S fuel) l i =
      match at_ l (nxt (length l) i) with
      | Some (h, e) =>
        if 0 <? dist (length l) (nxt (length l) i) h
        then backshift E fuel (upd (nxt (length l) i) None (upd i (Some (h, e)) l)) (nxt (length l) i)
        else Some l
      | None => Some l
      end.
  Proof. reflexivity. Qed.

  (* Loop state: a hole at i; away from it the weights are those of some robin-hood W ("robin-hood
     modulo one hole": W i is a virtual weight for the hole); the walk has not yet come to the free
     slot z.  One backward shift moves the entry after the hole into it, which lowers W at the old
     hole to one less than its successor's and leaves that successor as the new hole.  The walk ends
     at a slot whose successor is empty or at home: the hole's own weight 0 then fits *)
  Lemma backshift_spec : forall fuel (l : list slot) i W z,
    WF l -> i < length l -> at_ l i = None -> RHf (length l) W -> (forall a, a <> i -> wt l a = W a) ->
    z < length l -> at_ l z = None -> z <> i -> dist (length l) z i < fuel ->
    exists l', backshift E fuel l i = Some l' /\ RHL l' /\ WF l' /\ length l' = length l /\
      Permutation (entries l') (entries l).
  Proof.
    induction fuel as [|f IH]; intros l i W z Hwf Hi Hat HW Hag Hz Hzn Hzi Hfuel; [lia|].
    cbn [backshift]. set (ni := nxt (length l) i) in *.
    assert (Hni : ni < length l) by (apply nxt_lt; assumption).
    assert (Hdone : wt l ni <= 1 -> RHL l).
    { intros Hw. apply (RHf_set (length l) W _ i 0 HW).
      - intros a. destruct (Nat.eqb_spec a i) as [->|Hne]; [apply wt_none; assumption|apply Hag, Hne].
      - intros; lia.
      - intros Hne. rewrite <- Hag by exact Hne. exact Hw. }
    destruct (at_ l ni) as [[h e]|] eqn:Hnat; [|exists l; rewrite (wt_none _ _ Hnat) in Hdone; auto 7].
    pose proof (wt_some _ _ _ _ Hnat) as Hwni.
    destruct (dist (length l) ni h) as [|q] eqn:Hd; [exists l; rewrite Hwni in Hdone; auto 7|]. cbn [Nat.ltb Nat.leb].
    destruct (Hwf _ _ _ Hnat) as [Hhm Hhn].
    assert (Hne : ni <> i) by congruence. assert (Hzni : z <> ni) by congruence.
    rewrite Hag in Hwni by exact Hne.
    pose proof (entries_upd i (Some (h, e)) l Hi) as P0. rewrite Hat in P0.
    set (l0 := upd i (Some (h, e)) l) in *.
    assert (Hl0 : length l0 = length l) by apply upd_length.
    assert (Hni0 : ni < length l0) by (rewrite Hl0; exact Hni).
    pose proof (entries_upd ni None l0 Hni0) as P1. unfold l0 in P1 at 2. rewrite at_upd_ne, Hnat in P1 by auto.
    destruct (IH (upd ni None l0) ni (fun a => if a =? i then S q else W a) z) as (l' & Hr & HL' & Hwf' & Hlen' & P');
      rewrite ?upd_length, ?Hl0; auto.
    - apply WF_upd; [apply WF_upd; auto; intros ? ? [= <- <-]; auto|assumption|discriminate].
    - apply at_upd_eq; assumption.
    - apply (RHf_set (length l) W _ i (S q) HW); [reflexivity| |].
      + intros a Ha Hn. pose proof (HW a Ha) as H1. pose proof (HW i Hi) as H2. fold ni in H2. rewrite Hn in H1. lia.
      + intros _. fold ni. lia.
    - intros a Ha. rewrite wt_upd, Hl0 by assumption. unfold l0. rewrite wt_upd by assumption.
      apply Nat.eqb_neq in Ha. rewrite Ha. destruct (Nat.eqb_spec a i) as [->|Hai]; [|apply Hag, Hai].
      cbn [wslot]. rewrite (dist_nxt_back (length l) i h q) by assumption. reflexivity.
    - unfold l0. rewrite !at_upd_ne by auto. exact Hzn.
    - rewrite (dist_from_nxt _ i z) in Hfuel by auto. fold ni in Hfuel. lia.
    - exists l'. repeat (split; [assumption|]). split; [rewrite Hlen', upd_length; exact Hl0|].
      rewrite P'. apply Permutation_cons_inv with (a := e). rewrite <- P1. symmetry. exact P0.
  Qed.

  (* Table_Rem / GC_Rem_Ptr on the raw array: empty slot i and shift the cluster back *)
  Theorem delete_at_spec (l : list slot) i h e : core l -> at_ l i = Some (h, e) ->
    occupied l < length l ->
    exists l', delete_at E l i = Some l' /\ core l' /\ length l' = length l /\
      (forall x, Holds l' x <-> Holds l x /\ ekey x <> ekey e) /\
      S (occupied l') = occupied l.
  Proof.
    clear swap_le swap_ge. (* deletion does not depend on the displacement rule: tbl_delete and
                              RegistryProofs.sweep_loop_ok apply this lemma without one *)
    intros [HL [Hwf Huq]] Hat Hocc. pose proof (at_some_lt _ _ _ Hat) as Hi.
    destruct (empty_slot_exists l Hocc) as [z [Hz Hzn]].
    assert (Hzi : z <> i) by congruence.
    pose proof (dist_lt _ z i Hi Hz) as Hd.
    pose proof (entries_upd i None l Hi) as P. rewrite Hat in P. simpl in P.
    unfold delete_at.
    destruct (backshift_spec (length l + 2) (upd i None l) i (wt l) z)
      as (l' & Hr & HL' & Hwf' & Hlen' & P'); rewrite ?upd_length; auto; try lia.
    - apply WF_upd; auto. discriminate.
    - apply at_upd_eq; assumption.
    - intros a Ha. rewrite wt_upd by assumption. apply Nat.eqb_neq in Ha. rewrite Ha. reflexivity.
    - rewrite at_upd_ne by auto. exact Hzn.
    - rewrite <- P' in P. rewrite upd_length in Hlen'.
      destruct (perm_cons_spec l' l e P) as [Hu [Hh Ho]]. destruct (proj1 Hu Huq) as [Huq' Habs].
      exists l'. split; [exact Hr|]. split; [unfold core; auto|]. split; [exact Hlen'|]. split; [|auto].
      intros x. rewrite Hh. split.
      + intros Hx. split; [auto|]. destruct Hx as [a [g Ha]]. exact (Habs _ _ _ Ha).
      + intros [[Hx| ->] Hk]; [exact Hx|congruence].
  Qed.

  Section Rehash.
  Variable home_of : K -> nat -> nat.

  (* Table_Rehash / GC_Rehash: re-inserting entries with pairwise distinct keys that are not
     in the target array; every insertion is of an absent key, so ANY admissible displacement
     rule will do *)
  Lemma reinsert_spec : forall (old acc : list slot), core acc ->
    (forall k, home_of k (length acc) = hm k) -> (forall k, hm k < length acc) ->
    NoDup (map ekey (entries old)) ->
    (forall x, In x (entries old) -> Absent acc (ekey x)) ->
    occupied acc + occupied old <= length acc ->
    exists acc', reinsert K E keq ekey swap on_eq home_of old acc = Some acc' /\
      core acc' /\ length acc' = length acc /\
      (forall x, Holds acc' x <-> Holds acc x \/ In x (entries old)) /\
      occupied acc' = occupied acc + occupied old.
  Proof.
    induction old as [|s old IH]; intros acc Hc Hho Hhm Hnd Habs Hocc.
    - exists acc. simpl. split; [reflexivity|]. split; [assumption|]. split; [reflexivity|].
      split; [tauto|]. unfold RobinHood.occupied at 3; simpl. lia.
    - rewrite entries_cons in Hnd, Habs. rewrite occupied_cons in Hocc.
      destruct s as [[h0 e]|].
      + simpl in Hnd, Habs, Hocc. inversion Hnd as [|? ? Hnin Hnd']; subst.
        destruct (insert_absent_spec acc e Hc (Hhm _) ltac:(lia) (Habs e (or_introl eq_refl)))
          as [acc1 [Hins [Hc1 [Hlen1 [Hh1 Ho1]]]]].
        destruct (IH acc1) as [acc' [Hr [Hc' [Hlen' [Hh' Ho']]]]]; rewrite ?Hlen1; auto; try lia.
        * intros x Hx a g y Ha Hk.
          assert (Hy : Holds acc1 y) by (exists a, g; exact Ha).
          apply Hh1 in Hy. destruct Hy as [[a' [g' Ha']]| ->].
          -- eapply (Habs x (or_intror Hx)); eauto.
          -- apply Hnin. rewrite Hk. apply in_map. assumption.
        * exists acc'. split.
          { simpl. rewrite Hho, Hins. exact Hr. }
          split; [exact Hc'|]. split; [lia|]. split.
          -- intros x. rewrite Hh', Hh1, entries_cons. simpl. split; [intros [[H| ->]|H]|intros [H|[<-|H]]]; auto.
          -- rewrite occupied_cons. simpl. lia.
      + exact (IH acc Hc Hho Hhm Hnd Habs Hocc).
  Qed.

  Theorem rehash_spec (old : list slot) n : UQ old ->
    (forall k, home_of k n = hm k) -> (forall k, hm k < n) -> occupied old <= n ->
    exists l', rehash K E keq ekey swap on_eq home_of old n = Some l' /\
      core l' /\ length l' = n /\
      (forall x, Holds l' x <-> Holds old x) /\
      occupied l' = occupied old.
  Proof.
    intros Huq Hho Hhm Hocc. unfold rehash.
    destruct (reinsert_spec old (repeat None n)) as [l' [Hr [Hc' [Hlen' [Hh' Ho']]]]];
      rewrite ?repeat_length, ?occupied_repeat; auto using core_repeat, UQ_NoDup, Absent_repeat.
    rewrite repeat_length in Hlen'. rewrite occupied_repeat in Ho'.
    exists l'. repeat (split; [assumption|]). split; [|exact Ho'].
    intros x. rewrite Hh', in_entries. split; [intros [[a [g Ha]]|]; [rewrite at_repeat in Ha; discriminate|assumption]|auto].
  Qed.
  End Rehash.

  End Fixed.

  (* A table: a slot array kept together with the number of its entries, where the home of k among n
     slots is home_of k n.  This is what Table (TableProofs.v) and the collector's registry
     (RegistryProofs.v) both are; each primitive below keeps it and says what becomes of the entries. *)
  Section Table.
  Variable home_of : K -> nat -> nat.
  Hypothesis home_lt : forall k n, 0 < n -> home_of k n < n.

  Definition counted (l : list slot) (n : nat) : Prop :=
    core (fun k => home_of k (length l)) l /\ n = occupied l.

  (* ... with a free slot, or no slot at all *)
  Definition tbl_inv (l : list slot) (n : nat) : Prop :=
    counted l n /\ (length l = 0 \/ n < length l).

  Lemma counted_nz l n : counted l n -> n <> 0 -> length l <> 0.
  Proof. intros [_ ->]. pose proof (occupied_le l). lia. Qed.

  Lemma tbl_find l k : core (fun k => home_of k (length l)) l -> length l <> 0 ->
    exists r, find K E keq ekey l (home_of k (length l)) k = Some r /\
      match r with
      | Some i => exists e, at_ l i = Some (home_of k (length l), e) /\ ekey e = k
      | None => forall e, Holds l e -> ekey e <> k
      end.
  Proof.
    intros Hc Hnz. destruct (find_spec _ l k Hc) as [r [Hf Hr]]; [apply home_lt; lia|].
    exists r. split; [exact Hf|]. destruct r; [exact Hr|]. intros e [i [h Hat]]. exact (Hr i h e Hat).
  Qed.

  Lemma tbl_insert_absent l n ce : counted l n -> S n < length l -> (forall e, Holds l e -> ekey e <> ekey ce) ->
    exists l', insert K E keq ekey swap on_eq l (home_of (ekey ce) (length l)) ce = Some (l', true) /\
      tbl_inv l' (S n) /\ length l' = length l /\ forall x, Holds l' x <-> Holds l x \/ x = ce.
  Proof.
    intros [Hc ->] Hroom Habs.
    destruct (insert_absent_spec _ l ce Hc) as (l' & Hins & Hc' & Hlen & Hh & Ho);
      [apply home_lt; lia|lia|intros i h e Hat; apply Habs; exists i, h; exact Hat|].
    exists l'. unfold tbl_inv, counted. rewrite Hlen, Ho. auto.
  Qed.

  Lemma tbl_insert l n ce : (forall j p, swap j p = true -> p < j) -> counted l n -> n < length l ->
    exists l' fresh newe, insert K E keq ekey swap on_eq l (home_of (ekey ce) (length l)) ce = Some (l', fresh) /\
      counted l' (if fresh then S n else n) /\ length l' = length l /\
      (forall x, Holds l' x <-> x = newe \/ (Holds l x /\ ekey x <> ekey ce)) /\
      (newe = ce \/ exists eold, Holds l eold /\ ekey eold = ekey ce /\ newe = on_eq eold ce).
  Proof.
    intros Hst [Hc ->] Hroom.
    destruct (insert_spec _ l ce Hc Hst) as (l' & fresh & newe & Hins & Hc' & Hlen & Hh & _ & Hfr & Hnf);
      [apply home_lt; lia|exact Hroom|].
    exists l', fresh, newe. unfold counted. rewrite Hlen.
    destruct fresh; [destruct (Hfr eq_refl) as (_ & Hn & ->)|destruct (Hnf eq_refl) as (Ho & ->)]; auto 8.
  Qed.

  Lemma tbl_delete l n i h e : tbl_inv l n -> at_ l i = Some (h, e) ->
    exists l', delete_at E l i = Some l' /\ counted l' (pred n) /\ pred n < length l' /\ length l' = length l /\
      forall x, Holds l' x <-> Holds l x /\ ekey x <> ekey e.
  Proof.
    intros [[Hc ->] Hroom] Hat. pose proof (at_some_lt _ _ _ Hat).
    destruct (delete_at_spec _ l i h e Hc Hat) as (l' & Hd & Hc' & Hlen & Hh & Ho); [lia|].
    exists l'. unfold counted. rewrite Hlen, <- Ho. repeat (split; [auto; lia|]). exact Hh.
  Qed.

  Lemma tbl_rehash old m : UQ old -> occupied old <= m -> 0 < m ->
    exists l', rehash K E keq ekey swap on_eq home_of old m = Some l' /\ counted l' (occupied old) /\ length l' = m /\
      forall x, Holds l' x <-> Holds old x.
  Proof.
    intros Huq Hocc Hm.
    destruct (rehash_spec (fun k => home_of k m) home_of old m Huq) as (l' & Hr & Hc' & Hlen & Hh & Ho); auto.
    exists l'. unfold counted. rewrite Hlen, Ho. auto.
  Qed.
  End Table.
End RHP.

(* the home slot `hash k % nslots` of Table.c and GC.c lies in the array *)
Lemma mod_home_lt (x : N) n : 0 < n -> N.to_nat (x mod N.of_nat n) < n.
Proof. intros Hn. pose proof (N.mod_lt x (N.of_nat n) ltac:(lia)). lia. Qed.

Lemma first_ge_ge l x p : first_ge l x = Some p -> (x <= p)%N.
Proof.
  induction l as [|q l IH]; simpl; [discriminate|].
  destruct (N.leb_spec x q) as [Hle|Hgt]; intros Hs; [injection Hs as <-; assumption | auto].
Qed.

Lemma mult_ge_ge last x : (0 < last)%N -> (x <= mult_ge last x)%N.
Proof.
  intros Hl. unfold mult_ge. destruct (N.eqb_spec last 0) as [->|_]; [lia|].
  pose proof (N.div_mod (x + last - 1) last ltac:(lia)) as Hd.
  pose proof (N.mod_lt (x + last - 1) last ltac:(lia)). nia.
Qed.

Lemma ideal_N_gt primes num den n :
  (0 < num)%N -> (num < den)%N -> (0 < List.last primes 0)%N ->
  (n < ideal_size_N primes num den n)%N.
Proof.
  intros Hn Hd Hl. unfold ideal_size_N.
  assert (Hx : (n + 1 <= (n + 1) * den / num)%N).
  { apply N.div_le_lower_bound; nia. }
  destruct (first_ge primes _) eqn:Hf.
  - apply first_ge_ge in Hf. lia.
  - pose proof (mult_ge_ge (List.last primes 0%N) ((n + 1) * den / num)%N Hl). lia.
Qed.

(* Table_Ideal_Size / GC_Ideal_Size leave a free slot for every prime table with a positive last entry and every
   load factor num/den below 1 *)
Lemma ideal_size_gt primes num den :
  (0 < num)%N -> (num < den)%N -> (0 < List.last primes 0)%N ->
  forall n : nat, n < ideal_size primes num den n.
Proof.
  intros Hn Hd Hl n. unfold ideal_size.
  pose proof (ideal_N_gt primes num den (N.of_nat n) Hn Hd Hl). lia.
Qed.
