(* DispatchProofs.v — proofs about the dispatch model of Dispatch.v (property C08).

   D is the DECLARATION of the type: the (class name, instance) pairs of its record, which no lookup ever changes.
   dspec D c = the instance of the first pair whose name is the name of class c.

   step_ok: one small step of any lookup preserves the invariant of the shared words and the local invariant of the
   stepping lookup, and never touches a word outside the cache area.  From it: a lookup run alone terminates within
   its fuel and returns dspec D c (lookup_ok), so does every history of lookups from a cold or any reachable record;
   under EVERY schedule of the small steps of several threads there is no corruption, the invariant is kept, every
   logged result is the declared instance and each thread is as many of its own steps further as it had turns
   (run_sched_ok); hence a thread that is scheduled often enough, by a bound that does not depend on the other
   threads, finishes its whole script whatever the others do: lookups are wait-free (sched_complete). *)
From Coq Require Import List Arith String Bool Lia.
From CelloV Require Import Generated Dispatch.
Import ListNotations.

Lemma nth_error_set_nth : forall {A} (f : A -> A) (l : list A) (k j : nat),
  nth_error (set_nth k f l) j = if Nat.eqb j k then option_map f (nth_error l j) else nth_error l j.
Proof.
  induction l as [|x r IH]; intros k j.
  - destruct k, j; simpl; try reflexivity; destruct (Nat.eqb _ _); reflexivity.
  - destruct k, j; simpl; try reflexivity. apply IH.
Qed.

Lemma length_set_nth : forall {A} (f : A -> A) (l : list A) k, List.length (set_nth k f l) = List.length l.
Proof. induction l; intros [|k]; simpl; auto. Qed.

Lemma Forall_set_nth : forall {A} (P : A -> Prop) (l : list A) k y,
  Forall P l -> P y -> Forall P (set_nth k (fun _ => y) l).
Proof.
  induction l as [|x r IH]; intros k y H Hy; destruct k; simpl; auto;
    inversion H; subst; constructor; auto.
Qed.

Definition decl (ts : list triple) : list (string * inst) := map (fun t => (t_name t, t_inst t)) ts.

Lemma decl_set_memo : forall ts k c, decl (set_memo k c ts) = decl ts.
Proof.
  unfold set_memo. induction ts as [|t r IH]; intros [|k] c; simpl; auto. f_equal. apply IH.
Qed.

Lemma decl_length : forall ts, List.length (decl ts) = List.length ts.
Proof. intros. unfold decl. apply map_length. Qed.

Lemma decl_cold : forall n d, decl (trips (cold_type n d)) = d.
Proof.
  intros n d. unfold cold_type, decl; simpl. rewrite map_map. rewrite <- (map_id d) at 2.
  apply map_ext. intros []; reflexivity.
Qed.

Lemma opt_cls_eqb_true : forall a c, opt_cls_eqb a c = true -> a = Some c.
Proof. intros [x|] c H; [apply Nat.eqb_eq in H; subst; reflexivity | discriminate]. Qed.

Section Proofs.
  Variable cn : cls -> string.
  Variable wiring : list (nat * cls).
  Variable skipnull reread : bool.
  Variable ncache : nat.
  Hypothesis wiring_nodup : NoDup (map fst wiring).
  Hypothesis wiring_bound : forall i c, In (i, c) wiring -> i < ncache.

  Definition dspec (D : list (string * inst)) (c : cls) : option inst :=
    option_map snd (find (fun d => String.eqb (fst d) (cn c)) D).

  Lemma spec_lookup_decl : forall ts c, spec_lookup cn ts c = dspec (decl ts) c.
  Proof.
    unfold spec_lookup, dspec. induction ts as [|t r IH]; intro c; simpl; auto.
    destruct (String.eqb (t_name t) (cn c)); simpl; auto.
  Qed.

  Definition nomatch (D : list (string * inst)) (c : cls) (k : nat) : Prop :=
    forall j d, j < k -> nth_error D j = Some d -> String.eqb (fst d) (cn c) = false.

  Lemma nomatch_0 : forall D c, nomatch D c 0.
  Proof. intros D c j d H. lia. Qed.

  Lemma nomatch_S : forall D c k d, nomatch D c k -> nth_error D k = Some d -> String.eqb (fst d) (cn c) = false ->
    nomatch D c (S k).
  Proof.
    intros D c k d H Hk He j d' Hj Hd'. destruct (Nat.eq_dec j k) as [->|Hne].
    - congruence.
    - eapply H; eauto. lia.
  Qed.

  Lemma nomatch_tail : forall a D c k, nomatch (a :: D) c (S k) -> nomatch D c k.
  Proof. intros a D c k H j d Hj Hd. apply (H (S j) d); [lia | exact Hd]. Qed.

  (* the scan has reached position k without a match: the answer is decided by what stands at k *)
  Lemma dspec_first : forall D c k d, nomatch D c k -> nth_error D k = Some d -> String.eqb (fst d) (cn c) = true ->
    dspec D c = Some (snd d).
  Proof.
    unfold dspec. induction D as [|a r IH]; intros c [|k] d Hn Hk He; try discriminate; simpl in *.
    - inversion Hk; subst. rewrite He. reflexivity.
    - rewrite (Hn 0 a); [| lia | reflexivity]. eapply IH; eauto using nomatch_tail.
  Qed.

  Lemma dspec_none : forall D c k, nomatch D c k -> nth_error D k = None -> dspec D c = None.
  Proof.
    unfold dspec. induction D as [|a r IH]; intros c [|k] Hn Hk; try discriminate; simpl in *; auto.
    rewrite (Hn 0 a); [| lia | reflexivity]. eapply IH; eauto using nomatch_tail.
  Qed.

  Lemma wired_slot_In : forall w c i, wired_slot w c = Some i -> In (i, c) w.
  Proof.
    induction w as [|[j l] r IH]; intros c i H; simpl in *; [discriminate|].
    destruct (Nat.eqb_spec c l) as [->|_]; [left; congruence | right; auto].
  Qed.

  Lemma wired_unique : forall c c' i, wired_slot wiring c = Some i -> wired_slot wiring c' = Some i -> c = c'.
  Proof.
    clear wiring_bound. induction wiring as [|[j l] r IH]; simpl; intros c c' i H H'; [discriminate|].
    inversion wiring_nodup as [|? ? Hnot Hn]; subst.
    destruct (Nat.eqb_spec c l), (Nat.eqb_spec c' l); [congruence | | | eauto]; exfalso; apply Hnot.
    - apply wired_slot_In, (in_map fst) in H'. simpl in H'. congruence.
    - apply wired_slot_In, (in_map fst) in H. simpl in H. congruence.
  Qed.

  Variable D : list (string * inst).

  (* a filled cache word holds the declared instance of the class whose lookups use that slot *)
  Definition cache_ok (T : trec) : Prop :=
    List.length (cache T) = ncache /\
    forall i v c, nth_error (cache T) i = Some (Some v) -> wired_slot wiring c = Some i -> dspec D c = Some v.

  (* a memo word at triple k holds a class whose name matches triple k and no earlier triple *)
  Definition memo_ok (T : trec) : Prop :=
    forall k t c, nth_error (trips T) k = Some t -> t_memo t = Some c ->
      String.eqb (t_name t) (cn c) = true /\ nomatch D c k.

  Definition inv (T : trec) : Prop := decl (trips T) = D /\ cache_ok T /\ memo_ok T.

  Definition slot_ok (c : cls) (slot : option nat) : Prop := forall i, slot = Some i -> wired_slot wiring c = Some i.

  (* what a lookup of class c knows at program point p.  Everything but the PCacheReread clause refers to the immutable
     declaration only; the clause for the re-read says that the word about to be read again is filled when the class is
     declared -- filled words never change (filled_stays), so steps of other threads cannot disturb it *)
  Definition pc_ok (T : trec) (c : cls) (p : pc) : Prop :=
    match p with
    | PStart _ => True
    | PCacheRead i => wired_slot wiring c = Some i
    | PPtrScan _ slot => slot_ok c slot
    | PNameScan k slot => slot_ok c slot /\ nomatch D c k
    | PCacheWrite i v => wired_slot wiring c = Some i /\ v = dspec D c
    | PCacheReread i => wired_slot wiring c = Some i /\
                        forall x, dspec D c = Some x -> nth_error (cache T) i = Some (Some x)
    | PDone v => v = dspec D c
    end.

  Definition filled_stays (T T' : trec) : Prop :=
    forall i x, nth_error (cache T) i = Some (Some x) -> nth_error (cache T') i = Some (Some x).

  Lemma filled_stays_refl : forall T, filled_stays T T.
  Proof. intros T i x H; exact H. Qed.

  Lemma pc_ok_mono : forall T T' c p, filled_stays T T' -> pc_ok T c p -> pc_ok T' c p.
  Proof. intros T T' c p Hf Hp. destruct p; simpl in *; auto. destruct Hp; auto. Qed.

  Lemma inv_cold_type : inv (cold_type ncache D).
  Proof.
    split; [apply decl_cold|]. split; [split; [apply repeat_length|]|]; simpl.
    - intros i v c H. apply nth_error_In, repeat_spec in H. discriminate.
    - intros k t c H. apply nth_error_In, in_map_iff in H. destruct H as [x [<- _]]. discriminate.
  Qed.

  Lemma inv_length : forall T, inv T -> List.length (trips T) = List.length D.
  Proof. intros T [<- _]. symmetry. apply decl_length. Qed.

  Lemma inv_nth : forall T k, inv T -> nth_error D k = option_map (fun t => (t_name t, t_inst t)) (nth_error (trips T) k).
  Proof. intros T k [<- _]. apply nth_error_map. Qed.

  Lemma wired_in_cache : forall T c i, inv T -> wired_slot wiring c = Some i -> i < List.length (cache T).
  Proof. intros T c i [_ [[-> _] _]] H. eapply wiring_bound, wired_slot_In, H. Qed.

  (* termination: a measure that decreases with every step, whatever the shared words contain *)
  Definition measure (n : nat) (p : pc) : nat :=
    match p with
    | PStart _ => 2 * n + 6
    | PCacheRead _ => 2 * n + 5
    | PPtrScan k _ => (n - k) + n + 4
    | PNameScan k _ => (n - k) + 3
    | PCacheWrite _ _ => 2
    | PCacheReread _ => 1
    | PDone _ => 0
    end.

  Notation M := (measure (List.length D)).
  (* a step from T on behalf of a lookup of c went well: no word outside the cache area touched, the invariant of the
     shared words and the local invariant of the lookup hold afterwards, no filled cache word changed, and the lookup
     has come nearer its end *)
  Definition good (c : cls) (T : trec) (p : pc) (r : option (trec * pc)) : Prop :=
    exists T' p', r = Some (T', p') /\ inv T' /\ pc_ok T' c p' /\ filled_stays T T' /\ M p' < M p.

  Lemma good_intro : forall c T T' p p', inv T' -> pc_ok T' c p' -> filled_stays T T' -> M p' < M p ->
    good c T p (Some (T', p')).
  Proof. intros c T T' p p' HI Hp Hf Hm. exists T', p'. auto. Qed.

  Lemma stays : forall c T p p', inv T -> pc_ok T c p' -> M p' < M p -> good c T p (Some (T, p')).
  Proof. intros c T p p' HI Hp Hm. apply good_intro; auto using filled_stays_refl. Qed.

  Lemma measure_finish : forall slot v, M (finish slot v) <= 2.
  Proof. intros [i|] v; simpl; lia. Qed.

  Lemma measure_fetched : forall i v, M (if reread then PCacheReread i else PDone v) <= 1.
  Proof. intros i v. destruct reread; simpl; lia. Qed.

  Lemma finish_ok : forall T c slot v, slot_ok c slot -> v = dspec D c -> pc_ok T c (finish slot v).
  Proof. intros T c [i|] v Hs Hv; simpl; auto. Qed.

  (* leaving the cache entry with the value v that word i holds, or would hold *)
  Lemma fetched_ok : forall T c i v, wired_slot wiring c = Some i -> v = dspec D c ->
    (forall x, v = Some x -> nth_error (cache T) i = Some (Some x)) ->
    pc_ok T c (if reread then PCacheReread i else PDone v).
  Proof. intros T c i v Hw -> Hx. destruct reread; simpl; auto. Qed.

  (* the scan found the name of c at triple k and at no earlier one *)
  Lemma hit : forall T c k t, inv T -> nth_error (trips T) k = Some t -> String.eqb (t_name t) (cn c) = true ->
    nomatch D c k -> Some (t_inst t) = dspec D c.
  Proof.
    intros T c k t HI Hk He Hn. symmetry. apply (dspec_first D c k (t_name t, t_inst t)); auto.
    rewrite (inv_nth T k HI), Hk. reflexivity.
  Qed.

  Lemma inv_set_memo : forall T c k t, inv T -> nth_error (trips T) k = Some t -> String.eqb (t_name t) (cn c) = true ->
    nomatch D c k -> inv (mkTrec (cache T) (set_memo k c (trips T))).
  Proof.
    intros T c k t [Hd [Hc Hm]] Hk He Hn. split; [simpl; rewrite decl_set_memo; exact Hd|]. split; [exact Hc|].
    intros k' t' c' Hk' Hm'. simpl in Hk'. unfold set_memo in Hk'. rewrite nth_error_set_nth in Hk'.
    destruct (Nat.eqb_spec k' k) as [->|_]; [|eauto].
    rewrite Hk in Hk'. inversion Hk'; subst t'. inversion Hm'; subst c'. auto.
  Qed.

  (* storing the declared instance of c in the word wired to c: every other writer of that word stores the same value *)
  Lemma store_ok : forall T c i v, inv T -> wired_slot wiring c = Some i -> v = dspec D c ->
    good c T (PCacheWrite i v)
         (Some (mkTrec (set_nth i (fun _ => v) (cache T)) (trips T), if reread then PCacheReread i else PDone v)).
  Proof.
    intros T c i v HI Hw Hv. pose proof (wired_in_cache T c i HI Hw) as Hb. apply nth_error_Some in Hb.
    destruct HI as [Hd [[Hl Hc] Hm]]. apply good_intro.
    - split; [exact Hd|]. split; [|exact Hm]. split; [simpl; rewrite length_set_nth; exact Hl|].
      intros i' v' c' Hi' Hw'. simpl in Hi'. rewrite nth_error_set_nth in Hi'.
      destruct (Nat.eqb_spec i' i) as [->|_]; [|eauto].
      rewrite (wired_unique c' c i Hw' Hw). destruct (nth_error (cache T) i); [simpl in Hi'|contradiction]. congruence.
    - apply fetched_ok; auto. intros x ->. simpl. rewrite nth_error_set_nth, Nat.eqb_refl.
      destruct (nth_error (cache T) i); [reflexivity|contradiction].
    - intros j x Hj. simpl. rewrite nth_error_set_nth. destruct (Nat.eqb_spec j i) as [->|_]; [|exact Hj].
      rewrite Hj. simpl. rewrite Hv, (Hc i x c Hj Hw). reflexivity.
    - pose proof (measure_fetched i v). simpl. lia.
  Qed.

  Theorem step_ok : forall c T p, inv T -> pc_ok T c p -> (forall v, p <> PDone v) ->
    good c T p (step cn wiring skipnull reread c T p).
  Proof.
    intros c T p HI Hp Hnd. pose proof HI as [_ [[_ Hc] Hm]].
    assert (Hk : forall k t, nth_error (trips T) k = Some t -> k < List.length D)
      by (intros k t E; rewrite <- (inv_length T HI); apply nth_error_Some; congruence).
    destruct p as [k | i | k slot | k slot | i v | i | v]; simpl in *.
    - destruct k; [destruct (wired_slot wiring c) eqn:E|]; apply stays; simpl; auto; try discriminate; lia.
    - pose proof (wired_in_cache T c i HI Hp) as Hb. apply nth_error_Some in Hb.
      destruct (nth_error (cache T) i) as [[v|]|] eqn:E; [| |contradiction]; apply stays; auto.
      + apply fetched_ok; auto; [symmetry; eauto | congruence].
      + pose proof (measure_fetched i (Some v)). simpl in *. lia.
      + intros j [= <-]. exact Hp.
      + simpl. lia.
    - pose proof (measure_finish slot).
      destruct (nth_error (trips T) k) as [t|] eqn:E; [pose proof (Hk _ _ E); destruct (opt_cls_eqb (t_memo t) c) eqn:Em|]; apply stays; auto.
      + apply opt_cls_eqb_true in Em. destruct (Hm k t c E Em). apply finish_ok; eauto using hit.
      + specialize (H (Some (t_inst t))). simpl in *. lia.
      + simpl. lia.
      + split; auto using nomatch_0.
      + simpl. lia.
    - destruct Hp as [Hs Hn]. pose proof (inv_nth T k HI) as Ed. pose proof (measure_finish slot).
      destruct (nth_error (trips T) k) as [t|] eqn:E; [pose proof (Hk _ _ E); destruct (String.eqb (t_name t) (cn c)) eqn:Ee|].
      + apply good_intro; [eauto using inv_set_memo | apply finish_ok; eauto using hit | exact (filled_stays_refl T) | ].
        specialize (H (Some (t_inst t))). simpl in *. lia.
      + apply stays; auto; [split; eauto using nomatch_S | simpl; lia].
      + apply stays; auto; [apply finish_ok; auto; symmetry; eauto using dspec_none | specialize (H None); simpl in *; lia].
    - destruct Hp as [Hw Hv]. pose proof (wired_in_cache T c i HI Hw) as Hb. apply Nat.ltb_lt in Hb. rewrite Hb.
      pose proof (store_ok T c i v HI Hw Hv) as Hstore.
      destruct v; [exact Hstore|]. destruct skipnull; [|exact Hstore].
      apply stays; auto; [apply fetched_ok; auto; discriminate | pose proof (measure_fetched i None); simpl in *; lia].
    - destruct Hp as [Hw Hx]. pose proof (wired_in_cache T c i HI Hw) as Hb. apply nth_error_Some in Hb.
      destruct (nth_error (cache T) i) as [w|] eqn:E; [|contradiction]. apply stays; auto; simpl; try lia.
      destruct (dspec D c) as [x|] eqn:Ed.
      + specialize (Hx x eq_refl). congruence.
      + destruct w as [y|]; [|reflexivity]. rewrite (Hc i y c E Hw) in Ed. discriminate.
    - elim (Hnd v); reflexivity.
  Qed.

  Lemma pc_done_dec : forall p, (exists v, p = PDone v) \/ (forall v, p <> PDone v).
  Proof. destruct p; try (right; intros; discriminate). left; eexists; reflexivity. Qed.

  Lemma run_step : forall f c T p T' p', (forall v, p <> PDone v) -> step cn wiring skipnull reread c T p = Some (T', p') ->
    run cn wiring skipnull reread (S f) c T p = run cn wiring skipnull reread f c T' p'.
  Proof. intros f c T p T' p' Hnd Hs. destruct p; simpl in *; try rewrite Hs; try reflexivity. elim (Hnd v); reflexivity. Qed.

  Lemma run_ok : forall fuel c T p, inv T -> pc_ok T c p -> measure (List.length D) p <= fuel ->
    exists T', run cn wiring skipnull reread fuel c T p = ROk T' (dspec D c) /\ inv T'.
  Proof.
    induction fuel as [|f IH]; intros c T p HI Hp Hm;
      (destruct (pc_done_dec p) as [[v ->]|Hnd]; [exists T; simpl in *; subst; auto|]);
      destruct (step_ok c T p HI Hp Hnd) as [T' [p' [Hs [HI' [Hp' [_ Hlt]]]]]]; [lia|].
    rewrite (run_step f c T p T' p' Hnd Hs). apply IH; auto. lia.
  Qed.

  Theorem lookup_ok : forall k c T, inv T ->
    exists T', lookup cn wiring skipnull reread k c T = ROk T' (dspec D c) /\ inv T'.
  Proof.
    intros k c T HI. apply run_ok; [exact HI | exact I |]. unfold fuel_for. rewrite (inv_length T HI). simpl. lia.
  Qed.

  (* what a caller makes of the result of a lookup *)
  Lemma lookup_then : forall (P : option inst -> Prop) k c T, inv T -> P (dspec D c) ->
    exists T' v, lookup cn wiring skipnull reread k c T = ROk T' v /\ inv T' /\ P v.
  Proof. intros P k c T HI HP. destruct (lookup_ok k c T HI) as [T' [H HI']]. exists T', (dspec D c). auto. Qed.

  Definition log_ok (l : list (cls * option inst)) : Prop := Forall (fun e => snd e = dspec D (fst e)) l.

  Definition thread_ok (T : trec) (th : thread) : Prop :=
    match th_cur th with None => True | Some (c, p) => pc_ok T c p end /\ log_ok (th_log th).

  Lemma thread_ok_mono : forall T T' th, filled_stays T T' -> thread_ok T th -> thread_ok T' th.
  Proof.
    intros T T' th Hf [Hc Hl]. split; [|exact Hl].
    destruct (th_cur th) as [[c p]|]; [|exact I]. eapply pc_ok_mono; eauto.
  Qed.

  Definition sys_inv (s : sys) : Prop := inv (fst s) /\ Forall (thread_ok (fst s)) (snd s).

  Lemma sys_inv_cold : forall scripts, sys_inv (cold_type ncache D, map idle_thread scripts).
  Proof.
    intro scripts. split; [apply inv_cold_type | apply Forall_map, Forall_forall].
    intros scr _. split; simpl; [exact I | constructor].
  Qed.

  (* wait-freedom: the work left for a thread shrinks with each of its own steps and is not touched by the steps
     of others.  The classes of a thread's script, in order: answered, in progress, still to do *)
  Definition script (th : thread) : list cls :=
    map fst (th_log th) ++ match th_cur th with Some (c, _) => [c] | None => [] end ++ map snd (th_todo th).

  Definition tmeasure (th : thread) : nat :=
    match th_cur th with None => 0 | Some (_, p) => measure (List.length D) p + 1 end +
    List.length (th_todo th) * (2 * List.length D + 8).

  (* th' is th after k of its own steps, or has nothing left to do *)
  Definition advanced (k : nat) (th th' : thread) : Prop :=
    script th' = script th /\ tmeasure th' <= tmeasure th - k.

  Lemma advanced_refl : forall th, advanced 0 th th.
  Proof. intro th. split; [reflexivity | lia]. Qed.

  Lemma advanced_trans : forall a b th1 th2 th3, advanced a th1 th2 -> advanced b th2 th3 -> advanced (a + b) th1 th3.
  Proof. intros a b th1 th2 th3 [S1 M1] [S2 M2]. split; [congruence | lia]. Qed.

  Lemma thread_step_nd : forall T th c p, th_cur th = Some (c, p) -> (forall v, p <> PDone v) ->
    thread_step cn wiring skipnull reread T th =
    match step cn wiring skipnull reread c T p with
    | None => None
    | Some (T', p') => Some (T', mkThread (th_todo th) (Some (c, p')) (th_log th))
    end.
  Proof.
    intros T th c p E H. unfold thread_step. rewrite E.
    destruct p; try reflexivity. elim (H v); reflexivity.
  Qed.

  Definition turn_good (T : trec) (th : thread) (r : option (trec * thread)) : Prop :=
    exists T' th', r = Some (T', th') /\ inv T' /\ thread_ok T' th' /\ filled_stays T T' /\ advanced 1 th th'.

  Lemma turn_stays : forall T th th', inv T -> thread_ok T th' -> advanced 1 th th' -> turn_good T th (Some (T, th')).
  Proof. intros T th th' HI Ht Ha. exists T, th'. auto 6 using filled_stays_refl. Qed.

  Lemma thread_step_ok : forall T th, inv T -> thread_ok T th ->
    turn_good T th (thread_step cn wiring skipnull reread T th).
  Proof.
    intros T th HI [Hc Hl].
    destruct (th_cur th) as [[c p]|] eqn:E; [destruct (pc_done_dec p) as [[v ->]|Hnd]|].
    - unfold thread_step. rewrite E. apply turn_stays; auto; unfold advanced, script, tmeasure; rewrite ?E; simpl.
      + split; [exact I|]. apply Forall_app. split; [exact Hl|]. constructor; [exact Hc | constructor].
      + rewrite map_app, <- app_assoc. split; [reflexivity | lia].
    - rewrite (thread_step_nd T th c p E Hnd).
      destruct (step_ok c T p HI Hc Hnd) as [T' [p' [Hs [HI' [Hp' [Hf Hlt]]]]]]. rewrite Hs.
      eexists _, _. split; [reflexivity|]. split; [exact HI'|]. split; [split; assumption|]. split; [exact Hf|].
      unfold advanced, script, tmeasure. rewrite E. simpl. split; [reflexivity | lia].
    - unfold thread_step. rewrite E.
      destruct (th_todo th) as [|[k c] r] eqn:Et; apply turn_stays; auto; unfold thread_ok, advanced, script, tmeasure;
        rewrite ?E, ?Et; simpl; auto. split; [reflexivity | lia].
  Qed.

  Definition all_advanced (k : nat -> nat) (ths ths' : list thread) : Prop :=
    List.length ths' = List.length ths /\
    forall j th, nth_error ths j = Some th -> exists th', nth_error ths' j = Some th' /\ advanced (k j) th th'.

  Theorem sys_step_ok : forall s tid, sys_inv s ->
    exists s', sys_step cn wiring skipnull reread s tid = Some s' /\ sys_inv s' /\
      all_advanced (fun j => if Nat.eqb j tid then 1 else 0) (snd s) (snd s').
  Proof.
    intros [T ths] tid [HI HF]. simpl in *.
    destruct (nth_error ths tid) as [th|] eqn:E.
    - assert (Hth : thread_ok T th) by (eapply Forall_forall; eauto using nth_error_In).
      destruct (thread_step_ok T th HI Hth) as [T' [th' [-> [HI' [Hth' [Hf Ha]]]]]].
      exists (T', set_nth tid (fun _ => th') ths). split; [reflexivity|]. split; [split|split]; simpl.
      + exact HI'.
      + apply Forall_set_nth; auto. eapply Forall_impl; [|exact HF]. intro a. apply thread_ok_mono, Hf.
      + apply length_set_nth.
      + intros j th0 Hj. rewrite nth_error_set_nth. destruct (Nat.eqb_spec j tid) as [->|_].
        * rewrite E. exists th'. split; [reflexivity|]. congruence.
        * eauto using advanced_refl.
    - exists (T, ths). split; [reflexivity|]. split; [split; assumption|]. split; [reflexivity|].
      intros j th0 Hj. destruct (Nat.eqb_spec j tid) as [->|_]; [congruence | eauto using advanced_refl].
  Qed.

  (* under EVERY schedule: no corruption, the invariant kept, and each thread has advanced by the number of its turns *)
  Theorem run_sched_ok : forall sched s, sys_inv s ->
    exists s', run_sched cn wiring skipnull reread sched s = Some s' /\ sys_inv s' /\
      all_advanced (count_occ Nat.eq_dec sched) (snd s) (snd s').
  Proof.
    induction sched as [|tid r IH]; intros s HS; simpl run_sched.
    - exists s. split; [reflexivity|]. split; [exact HS|]. split; eauto using advanced_refl.
    - destruct (sys_step_ok s tid HS) as [s1 [-> [HS1 [Hl1 H1]]]].
      destruct (IH s1 HS1) as [s' [-> [HS' [Hl' H']]]].
      exists s'. split; [reflexivity|]. split; [exact HS'|]. split; [congruence|].
      intros j th Hj. destruct (H1 j th Hj) as [th1 [Hj1 A1]]. destruct (H' j th1 Hj1) as [th' [Hj' A']].
      exists th'. split; [exact Hj'|]. pose proof (advanced_trans _ _ _ _ _ A1 A') as A.
      simpl count_occ. destruct (Nat.eq_dec tid j), (Nat.eqb_spec j tid); try congruence; exact A.
  Qed.

  Definition finished (th : thread) : Prop := th_todo th = [] /\ th_cur th = None.

  Lemma tmeasure_0_finished : forall th, tmeasure th = 0 -> finished th.
  Proof.
    intros th H. unfold tmeasure in H. unfold finished.
    destruct (th_cur th) as [[c p]|]; [lia|].
    destruct (th_todo th); [auto|]. simpl in H. lia.
  Qed.

  Lemma finished_log : forall T th, thread_ok T th -> finished th ->
    th_log th = map (fun c => (c, dspec D c)) (script th).
  Proof.
    intros T th [_ Hl] [Ht Hc]. unfold script. rewrite Ht, Hc. simpl. rewrite app_nil_r.
    induction Hl as [|[c v] r Hv _ IH]; simpl in *; congruence.
  Qed.

  (* lookups are wait-free: a thread that is scheduled often enough (a bound that does not depend on the other threads)
     finishes its whole script with the declared answers, whatever the others do *)
  Theorem sched_complete : forall sched s, sys_inv s ->
    exists s', run_sched cn wiring skipnull reread sched s = Some s' /\ List.length (snd s') = List.length (snd s) /\
      forall tid th, nth_error (snd s) tid = Some th -> tmeasure th <= count_occ Nat.eq_dec sched tid ->
        exists th', nth_error (snd s') tid = Some th' /\ finished th' /\
                    th_log th' = map (fun c => (c, dspec D c)) (script th).
  Proof.
    intros sched s HS. destruct (run_sched_ok sched s HS) as [s' [Hr [[_ HF] [Hl H]]]].
    exists s'. split; [exact Hr|]. split; [exact Hl|]. intros tid th Hn Hle.
    destruct (H tid th Hn) as [th' [Hn' [Hs Hm]]]. exists th'. split; [exact Hn'|].
    assert (Hfin : finished th') by (apply tmeasure_0_finished; lia). split; [exact Hfin|].
    rewrite <- Hs. eapply finished_log; [|exact Hfin]. eapply Forall_forall; eauto using nth_error_In.
  Qed.
End Proofs.

Lemma dspec_decl_lookup : forall cn dl c,
  (forall c', In c' (map fst dl) -> cn c' = cn c -> c' = c) ->
  dspec cn (map (fun d => (cn (fst d), snd d)) dl) c = decl_lookup dl c.
Proof.
  unfold dspec. induction dl as [|[c' i] r IH]; intros c Hinj; simpl; auto.
  destruct (String.eqb_spec (cn c') (cn c)) as [E|E].
  - rewrite (Hinj c') by (simpl; auto). rewrite Nat.eqb_refl. reflexivity.
  - destruct (Nat.eqb_spec c' c) as [->|_]; [contradiction|]. apply IH. intros c'' Hin. apply Hinj. simpl; auto.
Qed.

Section FromCold.
  Variable cn : cls -> string.
  Variable wiring : list (nat * cls).
  Variable skipnull reread : bool.
  Variable ncache : nat.
  Hypothesis wiring_nodup : NoDup (map fst wiring).
  Hypothesis wiring_bound : forall i c, In (i, c) wiring -> i < ncache.
  Variable D : list (string * inst).

  Lemma every_history_from_reachable : forall T h, inv cn wiring ncache D T ->
    exists T', run_history cn wiring skipnull reread T h = Some (T', map (fun kc => dspec cn D (snd kc)) h)
               /\ inv cn wiring ncache D T'.
  Proof.
    intros T h. revert T. induction h as [|[k c] r IH]; intros T HI; simpl.
    - exists T; auto.
    - destruct (lookup_ok cn wiring skipnull reread ncache wiring_nodup wiring_bound D k c T HI) as [T1 [-> HI1]].
      destruct (IH T1 HI1) as [T2 [-> HI2]]. exists T2; auto.
  Qed.

  Lemma every_history_from_cold : forall h,
    exists T', run_history cn wiring skipnull reread (cold_type ncache D) h = Some (T', map (fun kc => dspec cn D (snd kc)) h)
               /\ inv cn wiring ncache D T'.
  Proof. intro h. apply every_history_from_reachable, inv_cold_type. Qed.
End FromCold.

Lemma method_absent_or_empty_raises : forall imem r m,
  (r = None \/ exists i, r = Some i /\ imem i m = false) -> method_result imem true r m = MRaise ClassError.
Proof. intros imem r m [->|[i [-> H]]]; simpl; [reflexivity | rewrite H; reflexivity]. Qed.

Lemma method_invokes_only_declared : forall imem r m i m',
  method_result imem true r m = MInvoke i m' -> r = Some i /\ m' = m /\ imem i m = true.
Proof.
  intros imem r m i m' H. unfold method_result in H. destruct r as [j|]; [|discriminate].
  destruct (imem j m) eqn:E; [|discriminate]. inversion H; subst. auto.
Qed.

Lemma cast_same_type_returns_self : forall imem r t,
  (r = None \/ exists i, r = Some i /\ imem i 0 = false) -> cast_result imem r t t = CSelf.
Proof.
  intros imem r t H. unfold cast_result.
  destruct H as [->|[i [-> Hi]]]; [|rewrite Hi]; rewrite Nat.eqb_refl; reflexivity.
Qed.

Section Names.
  Variable objs : list string.
  Hypothesis objs_nodup : NoDup objs.

  Lemma index_of_In : forall s, In s objs -> cn_of objs (index_of s objs) = s /\ index_of s objs < List.length objs.
  Proof.
    clear objs_nodup. unfold cn_of. induction objs as [|x r IH]; intros s Hin; [contradiction|]. simpl.
    destruct (String.eqb_spec x s) as [->|N].
    - split; [reflexivity | lia].
    - destruct Hin as [->|Hin]; [contradiction|].
      destruct (IH s Hin) as [H1 H2]. split; [exact H1 | lia].
  Qed.

  (* comparing class identities is comparing class names *)
  Lemma index_of_eqb : forall s c, In s objs -> c < List.length objs ->
    Nat.eqb (index_of s objs) c = String.eqb s (cn_of objs c).
  Proof.
    intros s c Hs Hc. destruct (index_of_In s Hs) as [E Hi].
    destruct (Nat.eqb_spec (index_of s objs) c) as [E1|N], (String.eqb_spec s (cn_of objs c)) as [E2|N'];
      try reflexivity; [congruence|].
    elim N. rewrite E2 in E at 2. eapply NoDup_nth; eauto.
  Qed.

  Lemma dspec_identity_objs : forall (names : list string) (ids : list inst) c,
    Forall (fun s => In s objs) names -> c < List.length objs ->
    dspec (cn_of objs) (combine names ids) c =
    decl_lookup (combine (map (fun s => index_of s objs) names) ids) c.
  Proof.
    unfold dspec. induction names as [|s r IH]; intros [|i ids] c HF Hc; simpl; auto. inversion HF; subst.
    rewrite index_of_eqb by assumption. destruct (String.eqb s (cn_of objs c)); auto.
  Qed.
End Names.

Lemma wiring_ids_fst : forall objs w, map fst (wiring_ids objs w) = map fst w.
Proof. intros. unfold wiring_ids. rewrite map_map. reflexivity. Qed.

Lemma wiring_ids_In : forall objs w i c, In (i, c) (wiring_ids objs w) -> exists n, In (i, n) w.
Proof. intros objs w i c H. apply in_map_iff in H. destruct H as [[j n] [[= <- _] H]]. eauto. Qed.

Definition cn_b : cls -> string := cn_of builtin_objects.
Definition wiring_b : list (nat * cls) := wiring_ids builtin_objects cache_wiring.
Definition builtin_decl_ids (insts : list (string * list bool)) : list (cls * inst) :=
  combine (map (fun s => index_of s builtin_objects) (map fst insts)) (seq 0 (List.length insts)).

Definition all_shapes_ok : bool :=
  disp_cache_entry_shape_ok && disp_type_instance_shape_ok && disp_type_scan_shape_ok && disp_implements_shape_ok &&
  disp_method_check_shape_ok && disp_implements_method_shape_ok && disp_cast_shape_ok && disp_declaration_shape_ok.

Lemma generated_checks :
  forallb (fun e => Nat.ltb (fst e) cello_cache_num) cache_wiring = true           (* slots lie inside the cache area *)
  /\ Nat.modulo cello_cache_num 3 = 0                                              (* the area is whole triples *)
  /\ forallb (fun e => existsb (fun c => String.eqb (fst c) (snd e)) builtin_classes) cache_wiring = true
  /\ forallb (fun c => existsb (String.eqb (fst c)) builtin_objects) builtin_classes = true
  /\ forallb (fun t => existsb (String.eqb (fst t)) builtin_objects) builtin_types = true
  /\ forallb (fun t => forallb (fun i => existsb (fun c => String.eqb (fst c) (fst i) &&
                                                           Nat.eqb (snd c) (List.length (snd i))) builtin_classes)
                                (snd t)) builtin_types = true                      (* instances are of class structs *)
  /\ all_shapes_ok = true.
Proof. repeat apply conj; vm_compute; reflexivity. Qed.

Lemma generated_facts :
  NoDup (map fst cache_wiring) /\
  (forall i n, In (i, n) cache_wiring -> i < cello_cache_num /\ exists k, In (n, k) builtin_classes) /\
  Nat.modulo cello_cache_num 3 = 0 /\
  NoDup builtin_objects /\
  (forall t insts, In (t, insts) builtin_types -> Forall (fun s => In s builtin_objects) (map fst insts)) /\
  all_shapes_ok = true.
Proof.
  destruct generated_checks as (Hslot & Hmod & Hcls & Hobj & _ & Hinst & Hshapes). rewrite forallb_forall in Hslot, Hcls, Hobj, Hinst.
  split; [exact (NoDup_nodup Nat.eq_dec (map fst cache_wiring) <: NoDup (map fst cache_wiring))|].     (* no two entries share a slot: nodup removes none *)
  split.
  { intros i n Hin. split; [apply Nat.ltb_lt, (Hslot _ Hin)|].
    apply Hcls, existsb_exists in Hin. destruct Hin as [[c k] [Hc He]].
    apply String.eqb_eq in He. cbn [fst snd] in He. subst. eauto. }
  split; [exact Hmod|].
  split; [exact (NoDup_nodup string_dec builtin_objects <: NoDup builtin_objects)|].     (* distinct classes, distinct names: likewise *)
  split; [|exact Hshapes].
  intros t insts Hin. apply Forall_map, Forall_forall. intros [s m] Hs.
  apply Hinst in Hin. cbn [snd] in Hin. rewrite forallb_forall in Hin. apply Hin, existsb_exists in Hs.
  destruct Hs as [[c k] [Hc He]]. apply andb_prop in He. destruct He as [He _]. apply String.eqb_eq in He. cbn [fst] in He. subst.
  apply Hobj, existsb_exists in Hc. destruct Hc as [o [Ho Heq]]. apply String.eqb_eq in Heq. subst. exact Ho.
Qed.

Lemma wiring_b_nodup : NoDup (map fst wiring_b).
Proof. unfold wiring_b. rewrite wiring_ids_fst. apply generated_facts. Qed.

Lemma wiring_b_bound : forall i c, In (i, c) wiring_b -> i < cello_cache_num.
Proof. intros i c Hin. apply wiring_ids_In in Hin. destruct Hin as [n Hin]. apply generated_facts in Hin. apply Hin. Qed.

(* run-time types: a new type starts cold whatever block it is built in *)
Lemma fresh_type_is_cold : forall zeroed cleared ncache garbage D,
  zeroed = true \/ ncache <= cleared -> List.length garbage = ncache ->
  fresh_type zeroed cleared ncache garbage D = cold_type ncache D.
Proof.
  intros zeroed cleared ncache garbage D H Hl. unfold fresh_type, cold_type.
  destruct zeroed; [reflexivity|]. destruct H as [H|H]; [discriminate|].
  rewrite Nat.min_r by exact H. rewrite skipn_all2 by lia. rewrite app_nil_r. reflexivity.
Qed.

Lemma generated_fresh_type_cold : forall garbage D, List.length garbage = cello_cache_num ->
  fresh_type type_alloc_zeroed type_new_cleared_words cello_cache_num garbage D = cold_type cello_cache_num D.
Proof.
  intros garbage D. apply fresh_type_is_cold.
  assert (H : type_alloc_zeroed || Nat.leb cello_cache_num type_new_cleared_words = true) by reflexivity.
  apply orb_true_iff in H. rewrite Nat.leb_le in H. exact H.
Qed.
