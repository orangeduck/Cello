(* SeqAccessProofs.v — what holds of the sequence models in EVERY state, invariant or not, by inspection
   of the branches of a step.  (1) No hidden access state: a read (get, mem) returns the state it
   got, so reads interleaved anywhere in an operation sequence change neither the final state nor the
   outcome of any other operation.  (An implementation that caches a cursor between indexed
   accesses, as List_At could, or re-balances on reads, must therefore be unobservable.)  Property C04.  (2) A raising step returns the state it got: the
   models' half of property C12.  (That outside a container's contract the models raise what the
   specification documents is part of the step theorems of SeqProofs.v and SeqTupleProofs.v.) *)
From Coq Require Import List Arith Bool ZArith Lia.
From CelloV Require Import SeqModels.
Import ListNotations.

(* every branch of a step returns a pair: decide the tests until the pair is visible (case rather than
   destruct: it leaves the context alone and is much quicker to check on terms of this size).  Goals about reads
   close by reflexivity.  In a goal about a raising step each branch leaves an equation
   (s', r) = (a', ORaise e): a branch that does not raise contradicts it, one that raises holds the state the
   step got, which is the first component of the equation.  The steps of the Table and Tree models
   (TableModel.t_step, RBTree.t_step) have the same form: Properties_C12.v uses the tactic for them too *)
Ltac branches :=
  repeat match goal with
         | |- context [match ?x with _ => _ end] => case x
         | |- forall _ : ?T, _ => lazymatch type of T with Prop => fail | _ => intro end
         end;
  try reflexivity; intros Hret; first [discriminate Hret | exact (eq_sym (f_equal fst Hret))].

Section EveryState.
  Variable E : Type.
  Variable eqb ltb same : E -> E -> bool.
  Variable zero : E.
  Variables gc sc : nat -> nat -> bool.
  Variables gs ss : nat -> nat -> nat.

  Lemma a_read_pure a o : is_read E o = true -> fst (a_step E eqb ltb gc sc gs ss a o) = a.
  Proof. destruct o; try discriminate; intros _; cbn [a_step]; branches. Qed.

  Lemma l_read_pure l o : is_read E o = true -> fst (l_step E eqb zero l o) = l.
  Proof. destruct o; try discriminate; intros _; cbn [l_step]; branches. Qed.

  Lemma t_read_pure t o : is_read E o = true -> fst (t_step E eqb ltb same t o) = t.
  Proof. destruct o; try discriminate; intros _; unfold t_step; branches. Qed.

  Lemma raise_unchanged (o : sop E) (e : cexn) :
    (forall a a', a_step E eqb ltb gc sc gs ss a o = (a', ORaise E e) -> a' = a) /\
    (forall l l', l_step E eqb zero l o = (l', ORaise E e) -> l' = l) /\
    (forall t t', t_step E eqb ltb same t o = (t', ORaise E e) -> t' = t).
  Proof.
    split; [|split]; intros s s'.
    - destruct o; cbn [a_step]; unfold a_pop_at, a_pop_pos; branches.
    - destruct o; cbn [l_step]; branches.
    - unfold t_step, t_pop_at, t_pop_pos; branches.
  Qed.
End EveryState.

Section Interleaving.
  Variable E : Type.
  Variable St : Type.
  Variable step : St -> sop E -> St * out E.
  Hypothesis read_pure : forall s o, is_read E o = true -> fst (step s o) = s.

  (* dropping every read from a history changes neither the final state nor what the remaining
     operations return *)
  Theorem reads_do_not_disturb : forall (ops : list (sop E)) (s : St),
    final E St step s ops = final E St step s (filter (is_write E) ops) /\
    filter (fun p => is_write E (fst p)) (trace E St step s ops) =
      trace E St step s (filter (is_write E) ops).
  Proof.
    induction ops as [|o ops IH]; intros s; [split; reflexivity|].
    unfold is_write in *. simpl. destruct (is_read E o) eqn:Hr; simpl.
    - rewrite (read_pure s o Hr). apply IH.
    - destruct (IH (fst (step s o))) as [H1 H2]. split; [exact H1 | f_equal; exact H2].
  Qed.

  (* hence two histories with the same writes in the same order end in the same state and give the
     same results for the writes, wherever their reads are *)
  Corollary same_writes_same_results (ops ops' : list (sop E)) (s : St) :
    filter (is_write E) ops = filter (is_write E) ops' ->
    final E St step s ops = final E St step s ops' /\
    filter (fun p => is_write E (fst p)) (trace E St step s ops) =
      filter (fun p => is_write E (fst p)) (trace E St step s ops').
  Proof.
    intros H. destruct (reads_do_not_disturb ops s) as [A1 A2].
    destruct (reads_do_not_disturb ops' s) as [B1 B2]. rewrite A1, A2, B1, B2, H. split; reflexivity.
  Qed.

  (* and a read returns the same whether or not other reads were made before it *)
  Corollary read_result_independent_of_reads (pre : list (sop E)) (o : sop E) (s : St) :
    snd (step (final E St step s pre) o) = snd (step (final E St step s (filter (is_write E) pre)) o).
  Proof. destruct (reads_do_not_disturb pre s) as [H _]. rewrite H. reflexivity. Qed.
End Interleaving.
