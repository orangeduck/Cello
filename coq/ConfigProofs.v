(* ConfigProofs.v — proofs about coq/Config.v (property C18), in this order.
   The method cache: a lookup through sound cache slots returns what the scan returns and keeps them sound.
   The abstract interpreter: an execution on which no switch-guarded test succeeds is independent of the
   configuration record (generic in state, values, API and history); how a specification met by the default
   build lifts to every build.
   The sequence API of Array.c: contract characterised arithmetically, every configuration meets the
   configuration-free specification inside the contract.
   The audits of the source facts re-extracted by tools/genx_cfg.py that other proofs or the tool refer to.
   Collector transparency on the register machine, for every collector that leaves reachable objects alone. *)
From Coq Require Import List Arith Bool ZArith String Lia.
From CelloV Require Import Generated Config.
Import ListNotations.
Local Open Scope Z_scope.

(* a filled slot holds what a scan for the class wired to it returns *)
Definition cache_ok (t : tyobj) : Prop :=
  forall c i x, slot_of c = Some i -> nth_error (tslots t) i = Some (Some x) -> scan (tinsts t) c = Some x.

Definition types_ok (T : types) : Prop := Forall cache_ok T.
Definition same_insts (T1 T2 : types) : Prop := map tinsts T1 = map tinsts T2.

Lemma cache_wiring_audited :
  nodupb (map fst cfg_cache_wiring) = true /\
  forallb (fun w : nat * nat => andb (Nat.ltb (fst w) cello_cache_num) (Nat.ltb (snd w) (List.length cfg_class_names))) cfg_cache_wiring = true /\
  List.length cfg_cache_wiring = cello_cache_num.
Proof. repeat apply conj; vm_compute; reflexivity. Qed.

Lemma nodupb_spec : forall l, nodupb l = true -> NoDup l.
Proof.
  induction l as [| x t IH]; simpl; intros H; [constructor |].
  apply andb_prop in H as [H1 H2]. constructor; [| auto].
  intro Hin. apply negb_true_iff, not_true_iff_false in H1. apply H1, existsb_exists.
  exists x. split; [exact Hin | apply Nat.eqb_refl].
Qed.

Lemma NoDup_map_inj {A B} (f : A -> B) l : NoDup (map f l) ->
  forall x y, In x l -> In y l -> f x = f y -> x = y.
Proof.
  induction l as [| a l IH]; simpl; intros Hn x y Hx Hy E; [contradiction |].
  inversion Hn as [| ? ? Hnot Hn']; subst.
  destruct Hx as [-> | Hx], Hy as [-> | Hy]; auto; exfalso; apply Hnot.
  - rewrite E. apply in_map, Hy.
  - rewrite <- E. apply in_map, Hx.
Qed.

Lemma slot_of_in : forall c i, slot_of c = Some i -> In (i, c) cfg_cache_wiring.
Proof.
  unfold slot_of. intros c i. destruct (find _ _) as [[j d] |] eqn:E; intros [= <-].
  apply find_some in E as [Hin Hd%Nat.eqb_eq]. cbn [fst snd] in Hd. subst d. exact Hin.
Qed.

Lemma slot_of_inj : forall c1 c2 i, slot_of c1 = Some i -> slot_of c2 = Some i -> c1 = c2.
Proof.
  intros c1 c2 i H1%slot_of_in H2%slot_of_in.
  exact (f_equal snd (NoDup_map_inj fst _ (nodupb_spec _ (proj1 cache_wiring_audited)) _ _ H1 H2 eq_refl)).
Qed.

Lemma nth_error_set_slot : forall l i (v : option inst) j x,
  nth_error (set_slot l i v) j = Some x -> (j = i /\ x = v) \/ nth_error l j = Some x.
Proof.
  induction l as [| y t IH]; intros [| i] v [| j] x H; simpl in *; auto; try discriminate.
  - injection H as <-. auto.
  - apply IH in H as [[-> ->] | H]; auto.
Qed.

Lemma lookup_sound : forall b t c, cache_ok t ->
  snd (lookup b t c) = scan (tinsts t) c /\ tinsts (fst (lookup b t c)) = tinsts t /\ cache_ok (fst (lookup b t c)).
Proof.
  intros b t c Hok. unfold lookup. destruct b; [| auto].
  destruct (slot_of c) as [i |] eqn:Hs; [| auto].
  destruct (nth_error (tslots t) i) as [[x |] |] eqn:Hn; simpl; auto.
  - split; [symmetry; eauto | auto].
  - repeat split. intros c' i' x' Hs' [[-> E] | Hn']%nth_error_set_slot; [| eauto].
    rewrite (slot_of_inj c' c i Hs' Hs). auto.
Qed.

Lemma set_type_sound : forall (T : types) n t t',
  types_ok T -> nth_error T n = Some t -> cache_ok t' -> tinsts t' = tinsts t ->
  types_ok (set_type T n t') /\ same_insts (set_type T n t') T.
Proof.
  unfold types_ok, same_insts.
  induction T as [| x r IH]; intros [| n] t t' HT Hn Hk He; inversion HT; subst; simpl in *; try discriminate.
  - injection Hn as ->. split; [constructor; assumption | congruence].
  - destruct (IH n t t') as [A B]; auto. split; [constructor; assumption | congruence].
Qed.

Lemma lookup_in_sound : forall b T ty c, types_ok T ->
  snd (lookup_in b T ty c) = scan_in T ty c /\
  types_ok (fst (lookup_in b T ty c)) /\ same_insts (fst (lookup_in b T ty c)) T.
Proof.
  intros b T ty c HT. unfold lookup_in, scan_in.
  destruct (nth_error T ty) as [t |] eqn:Hn; [| repeat split; auto].
  destruct (lookup_sound b t c) as (R & I & K).
  { eapply Forall_forall; [exact HT | eapply nth_error_In; exact Hn]. }
  destruct (lookup b t c) as [t' r]. split; [exact R | eapply set_type_sound; eassumption].
Qed.

Lemma lookup_in_result : forall b T ty c, types_ok T -> snd (lookup_in b T ty c) = scan_in T ty c.
Proof. intros b T ty c HT. apply (lookup_in_sound b T ty c HT). Qed.

Lemma lookup_in_ok : forall b T ty c, types_ok T -> types_ok (fst (lookup_in b T ty c)).
Proof. intros b T ty c HT. apply (lookup_in_sound b T ty c HT). Qed.

Lemma scan_in_insts : forall T1 T2 ty c, same_insts T1 T2 -> scan_in T1 ty c = scan_in T2 ty c.
Proof.
  intros T1 T2 ty c H. unfold scan_in. pose proof (nth_error_map tinsts ty T1) as E.
  rewrite H, nth_error_map in E.
  destruct (nth_error T1 ty), (nth_error T2 ty); simpl in E; congruence.
Qed.

(* sequences of lookups on one type: the cache is transparent (the statement about Type.c alone) *)
Fixpoint lookups (b : bool) (t : tyobj) (cs : list cls) : list (option inst) :=
  match cs with
  | [] => []
  | c :: r => let '(t', x) := lookup b t c in x :: lookups b t' r
  end.

Lemma lookups_transparent : forall cs t1 t2, cache_ok t1 -> tinsts t1 = tinsts t2 ->
  lookups true t1 cs = lookups false t2 cs.
Proof.
  induction cs as [| c r IH]; intros t1 t2 H1 He; [reflexivity |].
  cbn [lookups]. destruct (lookup_sound true t1 c H1) as (R1 & I1 & K1).
  destruct (lookup true t1 c) as [t1' x1]. cbn [fst snd] in *.
  change (lookup false t2 c) with (t2, scan (tinsts t2) c). cbn iota.
  rewrite R1, He. f_equal. apply IH; [exact K1 | congruence].
Qed.

Lemma fresh_type_ok : forall insts, cache_ok (fresh_type insts).
Proof.
  intros insts c i x _ Hn. unfold fresh_type in Hn. cbn [tslots] in Hn.
  apply nth_error_In in Hn. apply repeat_spec in Hn. discriminate.
Qed.

Section InterpProofs.
  Variables St Val : Type.
  Notation prog := (prog St Val).
  Notation run := (run St Val).
  Notation fires := (fires St Val).

  Lemma fires_insts : forall (p : prog) s T1 T2, same_insts T1 T2 -> fires p s T1 = fires p s T2.
  Proof.
    induction p as [o | k IH | s' k IH | sw b e k IH | ty cl k IH]; intros s T1 T2 H; simpl; auto.
    - destruct b; auto.
    - rewrite (scan_in_insts T1 T2 ty cl H). auto.
  Qed.

  Definition rst (r : St * types * outcome Val) : St := fst (fst r).
  Definition rty (r : St * types * outcome Val) : types := snd (fst r).
  Definition rout (r : St * types * outcome Val) : outcome Val := snd r.

  Lemma run_disp : forall c ty cl (k : option inst -> prog) s T, types_ok T ->
    exists T', run c (Disp ty cl k) s T = run c (k (scan_in T ty cl)) s T' /\ types_ok T' /\ same_insts T' T.
  Proof.
    intros c ty cl k s T HT. simpl. destruct (lookup_in_sound (cache c) T ty cl HT) as (R & K & I).
    destruct (lookup_in (cache c) T ty cl) as [T' r]. simpl in *. subst r. eauto.
  Qed.

  (* simulation: sound caches with the same instance lists, no guarded test succeeds ⇒ same state and
     outcome under every two configuration records, caches stay sound, instance lists untouched *)
  Lemma run_sim : forall (p : prog) s T1 T2 c1 c2,
    types_ok T1 -> types_ok T2 -> same_insts T1 T2 -> fires p s T1 = false ->
    rst (run c1 p s T1) = rst (run c2 p s T2) /\ rout (run c1 p s T1) = rout (run c2 p s T2) /\
    types_ok (rty (run c1 p s T1)) /\ types_ok (rty (run c2 p s T2)) /\
    same_insts (rty (run c1 p s T1)) (rty (run c2 p s T2)) /\ same_insts T1 (rty (run c1 p s T1)).
  Proof.
    induction p as [o | k IH | s' k IH | sw b e k IH | ty cl k IH]; intros s T1 T2 c1 c2 H1 H2 Hs Hf.
    - repeat split; auto.
    - apply IH; assumption.
    - apply IH; assumption.
    - simpl in *. destruct b; [discriminate Hf |]. rewrite !andb_false_r. apply IH; assumption.
    - destruct (run_disp c1 ty cl k s T1 H1) as (T1' & -> & K1 & I1).
      destruct (run_disp c2 ty cl k s T2 H2) as (T2' & -> & K2 & I2).
      rewrite <- (scan_in_insts T1 T2 ty cl Hs).
      simpl in Hf. rewrite <- (fires_insts _ s T1' T1 I1) in Hf. unfold same_insts in *.
      destruct (IH (scan_in T1 ty cl) s T1' T2' c1 c2 K1 K2) as (A & B & C & D & E & F); [congruence | exact Hf |].
      repeat split; auto; congruence.
  Qed.

  Lemma fires_raises : forall (p : prog) s T c,
    (forall sw, checks c sw = true) -> types_ok T -> fires p s T = true -> is_raise Val (rout (run c p s T)) = true.
  Proof.
    induction p as [o | k IH | s' k IH | sw b e k IH | ty cl k IH]; intros s T c Hc HT Hf; simpl in Hf.
    - discriminate.
    - apply IH; assumption.
    - apply IH; assumption.
    - simpl. rewrite Hc. destruct b; simpl; auto.
    - destruct (run_disp c ty cl k s T HT) as (T' & -> & K & I).
      apply IH; auto. rewrite (fires_insts _ s T' T I). exact Hf.
  Qed.

  (* a run consults `checks` and `cache` only: the collector field is not read by the interpreter
     (the collector switch is covered by gc_transparent below, on its own program model) *)
  Lemma run_reads_checks_cache : forall (p : prog) s T c1 c2,
    (forall sw, checks c1 sw = checks c2 sw) -> cache c1 = cache c2 -> run c1 p s T = run c2 p s T.
  Proof.
    induction p as [o | k IH | s' k IH | sw b e k IH | ty cl k IH]; intros s T c1 c2 Hc Hk; simpl; auto.
    - rewrite Hc. destruct (checks c2 sw && b); auto.
    - rewrite Hk. destruct (lookup_in (cache c2) T ty cl) as [T' r]. auto.
  Qed.

  Section HistoryProofs.
    Variable Op : Type.
    Variable body : Op -> prog.
    Notation run_history := (run_history St Val Op body).
    Notation history_fires := (history_fires St Val Op body).
    Notation no_error_path := (no_error_path St Val Op body).

    Definition hst (r : St * types * list (outcome Val)) : St := fst (fst r).
    Definition hty (r : St * types * list (outcome Val)) : types := snd (fst r).
    Definition hout (r : St * types * list (outcome Val)) : list (outcome Val) := snd r.

    Lemma run_history_cons : forall c o h s T,
      run_history c (o :: h) s T =
      let r := run c (body o) s T in
      if is_crash Val (rout r) then (rst r, rty r, [rout r])
      else let r' := run_history c h (rst r) (rty r) in (hst r', hty r', rout r :: hout r').
    Proof.
      intros c o h s T. simpl. destruct (run c (body o) s T) as [[s' T'] r]. unfold rst, rty, rout. simpl.
      destruct (is_crash Val r); [reflexivity |]. destruct (run_history c h s' T') as [[s'' T''] rs]. reflexivity.
    Qed.

    Lemma history_fires_cons : forall o h s T,
      history_fires (o :: h) s T =
      if fires (body o) s T then true
      else let r := run cfg_default (body o) s T in
           if is_crash Val (rout r) then false else history_fires h (rst r) (rty r).
    Proof. intros o h s T. simpl. destruct (run cfg_default (body o) s T) as [[s' T'] r]. reflexivity. Qed.

    Definition hsim (r1 r2 : St * types * list (outcome Val)) : Prop :=
      hst r1 = hst r2 /\ hout r1 = hout r2 /\ types_ok (hty r1) /\ types_ok (hty r2) /\ same_insts (hty r1) (hty r2).

    (* three type tables: T0 is the default build's, on which history_fires is evaluated; T1 and T2 are
       those of c1 and c2 *)
    Lemma history_sim : forall h s T0 T1 T2 c1 c2,
      types_ok T0 -> types_ok T1 -> types_ok T2 -> same_insts T0 T1 -> same_insts T0 T2 ->
      history_fires h s T0 = false ->
      hst (run_history c1 h s T1) = hst (run_history c2 h s T2) /\
      hout (run_history c1 h s T1) = hout (run_history c2 h s T2) /\
      types_ok (hty (run_history c1 h s T1)) /\ types_ok (hty (run_history c2 h s T2)) /\
      same_insts (hty (run_history c1 h s T1)) (hty (run_history c2 h s T2)).
    Proof.
      induction h as [| o h IH]; intros s T0 T1 T2 c1 c2 H0 H1 H2 S1 S2 Hf.
      - unfold same_insts in *. repeat split; auto. cbn. congruence.
      - rewrite history_fires_cons in Hf. destruct (fires (body o) s T0) eqn:Ho; [discriminate Hf |].
        destruct (run_sim (body o) s T0 T1 cfg_default c1 H0 H1 S1 Ho) as (A1 & B1 & C0 & C1 & E1 & _).
        destruct (run_sim (body o) s T0 T2 cfg_default c2 H0 H2 S2 Ho) as (A2 & B2 & _ & C2 & E2 & _).
        change (hsim (run_history c1 (o :: h) s T1) (run_history c2 (o :: h) s T2)).
        rewrite !run_history_cons. cbv zeta in *. rewrite <- A1, <- B1, <- A2, <- B2.
        destruct (is_crash Val (rout (run cfg_default (body o) s T0))).
        + unfold same_insts in *. repeat split; auto. cbn. congruence.
        + destruct (IH _ _ _ _ c1 c2 C0 C1 C2 E1 E2 Hf) as (A & B & C & D & E).
          unfold hsim, hst, hty, hout in *. simpl. rewrite B. auto.
    Qed.

    Lemma no_error_path_no_fire : forall h s T,
      types_ok T -> no_error_path h s T = true -> history_fires h s T = false.
    Proof.
      unfold Config.no_error_path. induction h as [| o h IH]; intros s T HT Hn; [reflexivity |].
      rewrite history_fires_cons. rewrite run_history_cons in Hn. cbv zeta in *.
      destruct (fires (body o) s T) eqn:Ho.
      - apply (fires_raises _ s T cfg_default (fun _ => eq_refl) HT) in Ho.
        destruct (is_crash Val (rout (run cfg_default (body o) s T))); simpl in Hn; rewrite Ho in Hn; discriminate.
      - destruct (is_crash Val (rout (run cfg_default (body o) s T))); [reflexivity |].
        simpl in Hn. apply andb_prop in Hn as [_ Hn]. apply IH; [| exact Hn].
        apply (run_sim (body o) s T T cfg_default cfg_default HT HT eq_refl Ho).
    Qed.

    Theorem history_config_independent : forall h s T c1 c2,
      types_ok T -> no_error_path h s T = true ->
      hst (run_history c1 h s T) = hst (run_history c2 h s T) /\
      hout (run_history c1 h s T) = hout (run_history c2 h s T).
    Proof.
      intros h s T c1 c2 HT Hn. pose proof (no_error_path_no_fire h s T HT Hn) as Hf.
      destruct (history_sim h s T T T c1 c2 HT HT HT eq_refl eq_refl Hf) as (A & B & _). split; assumption.
    Qed.
  End HistoryProofs.
End InterpProofs.

(* How C18 composes with the functional properties: if the DEFAULT build meets a configuration-free
   specification of an API (what C02–C04, C16 … establish), and the specification's domain is inside the
   contract (no guarded test succeeds where it is defined), then EVERY build meets it on every history the
   specification accepts. *)
Definition all_some {A} (l : list (option A)) : bool := forallb (fun x => match x with Some _ => true | None => false end) l.
Definition strip {A} (d : A) (l : list (option A)) : list A := map (fun x => match x with Some a => a | None => d end) l.

Section LiftSpec.
  Variables St Val Op : Type.
  Variable body : Op -> prog St Val.
  Variable spec : Op -> St -> option (St * outcome Val).

  (* specification transcript of a history; stops at the first call outside the specification's domain *)
  Fixpoint spec_history (h : list Op) (s : St) : St * list (option (outcome Val)) :=
    match h with
    | [] => (s, [])
    | o :: h' => match spec o s with
                 | None => (s, [None])
                 | Some (s', r) => let '(s'', rs) := spec_history h' s' in (s'', Some r :: rs)
                 end
    end.

  Hypothesis spec_in_contract : forall o s T r, types_ok T -> spec o s = Some r -> fires St Val (body o) s T = false.
  Hypothesis default_meets_spec : forall o s T s' r, types_ok T -> spec o s = Some (s', r) ->
    rst St Val (run St Val cfg_default (body o) s T) = s' /\ rout St Val (run St Val cfg_default (body o) s T) = r.
  Hypothesis spec_no_crash : forall o s s' r, spec o s = Some (s', r) -> is_crash Val r = false.

  Lemma accepted_history : forall h s T c,
    types_ok T -> all_some (snd (spec_history h s)) = true ->
    history_fires St Val Op body h s T = false /\
    hst St Val (run_history St Val Op body c h s T) = fst (spec_history h s) /\
    hout St Val (run_history St Val Op body c h s T) = strip OCrash (snd (spec_history h s)).
  Proof.
    induction h as [| o h IH]; intros s T c HT Ha; [repeat split |].
    rewrite history_fires_cons, run_history_cons. cbn [spec_history] in *. cbv zeta.
    destruct (spec o s) as [[s' r] |] eqn:E; [| discriminate Ha].
    pose proof (spec_in_contract o s T _ HT E) as Hf. rewrite Hf.
    destruct (run_sim St Val (body o) s T T c cfg_default HT HT eq_refl Hf) as (A & B & C & D & _).
    destruct (default_meets_spec o s T s' r HT E) as [D1 D2].
    rewrite A, B, D1, D2, (spec_no_crash o s s' r E).
    pose proof (IH s' _ c D) as I0. pose proof (IH s' _ c C) as I1.
    destruct (spec_history h s') as [s'' rs]. cbn in *.
    destruct (I0 Ha) as [F _]. destruct (I1 Ha) as (_ & X & Y). rewrite F, X, Y. auto.
  Qed.

End LiftSpec.

Definition in_contract (o : aop) (s : aseq) : Prop :=
  let n := zlen s in
  match o with
  | AGet i | ASet i _ | APopAt i => - n <= i < n
  | APushAt _ i => - (n + 1) <= i < n + 1
  | APop => 0 < n
  | APush _ | ALen | AMem _ | ARem _ => True
  end.

(* The bounds tests of Array.c all have one shape: the guard is "the normalised index is not in range", and the
   normalised index is in range exactly for the original indices of the contract. *)
Lemma oob_in_range : forall j n, (j <? 0) || (j >=? n) = negb (in_range j n).
Proof.
  intros j n. unfold in_range.
  rewrite Z.geb_leb, negb_andb, (Z.ltb_antisym 0 j), (Z.leb_antisym j n). reflexivity.
Qed.

Lemma wrap_range : forall i n, 0 <= n -> in_range (wrap i n) n = (- n <=? i) && (i <? n).
Proof.
  intros i n Hn. unfold in_range, wrap. apply eq_true_iff_eq.
  rewrite !andb_true_iff, !Z.leb_le, !Z.ltb_lt. destruct (Z.ltb_spec i 0); lia.
Qed.

Lemma in_range_spec : forall j n, in_range j n = true <-> 0 <= j < n.
Proof. intros j n. unfold in_range. rewrite andb_true_iff, Z.leb_le, Z.ltb_lt. reflexivity. Qed.

Lemma item_in_range : forall (s : aseq) j, in_range j (zlen s) = true ->
  exists v, nth_error s (Z.to_nat j) = Some v /\ item s j = Some v.
Proof.
  unfold item, zlen. intros s j H%in_range_spec. destruct (Z.ltb_spec j 0); [lia |].
  destruct (nth_error s (Z.to_nat j)) eqn:E; [eauto |]. apply nth_error_None in E. lia.
Qed.

Lemma in_rangeP : forall i n, 0 <= n -> reflect (- n <= i < n) (in_range (wrap i n) n).
Proof.
  intros i n Hn. rewrite (wrap_range i n Hn). apply iff_reflect.
  rewrite andb_true_iff, Z.leb_le, Z.ltb_lt. reflexivity.
Qed.

(* An index operation on length m: the guard becomes negb (in_range (wrap i m) m), the specification's test
   in_range (wrap i m) m; then the two cases. *)
Ltac index_case i m Hm :=
  fold (wrap i m); rewrite oob_in_range, <- (wrap_range i m Hm); destruct (in_rangeP i m Hm) as [C | C].

(* Where the specification is defined no test of the body fires and every build returns the specification's result;
   elsewhere a test fires and the default build raises, leaving the sequence as it is. *)
Lemma abody_cases : forall o s T,
  match aspec o s with
  | Some (s', r) => in_contract o s /\ fires aseq Z (abody o) s T = false /\ forall c, run aseq Z c (abody o) s T = (s', T, r)
  | None => ~ in_contract o s /\ fires aseq Z (abody o) s T = true /\
            run aseq Z cfg_default (abody o) s T = (s, T, ORaise XIndexOutOfBounds)
  end.
Proof.
  intros o s T. pose proof (Zle_0_nat (List.length s)) as Hn. fold (zlen s) in Hn.
  assert (Hn1 : 0 <= zlen s + 1) by lia.
  destruct o as [i | i v | v | v i | | i | | v | v]; unfold aspec, in_contract, abody; cbn [fires run];
    unfold cfg_Array_Get_guard, cfg_Array_Get_norm, cfg_Array_Set_guard, cfg_Array_Set_norm,
           cfg_Array_Push_At_guard, cfg_Array_Push_At_norm, cfg_Array_Pop_guard,
           cfg_Array_Pop_At_guard, cfg_Array_Pop_At_norm;
    [ pose proof (item_in_range s (wrap i (zlen s))) as X; index_case i (zlen s) Hn;
      [destruct (X eq_refl) as (v & -> & ->) |]
    | index_case i (zlen s) Hn | | index_case i (zlen s + 1) Hn1
    | destruct (Z.ltb_spec 0 (zlen s)), (Z.eqb_spec (zlen s) 0); try lia
    | index_case i (zlen s) Hn | | | destruct (index_of s v 0) ];
    (split; [auto; lia |]); (split; [reflexivity | try (intro c; destruct (checks c SwBound)); reflexivity]).
Qed.

Lemma aspec_defined : forall o s, in_contract o s <-> exists r, aspec o s = Some r.
Proof.
  intros o s. pose proof (abody_cases o s []) as H.
  destruct (aspec o s) as [[s' r] |]; destruct H as (C & _); split; eauto; [contradiction | intros [r H]; discriminate].
Qed.

(* inside the contract every configuration computes what the configuration-free specification says *)
Lemma array_meets_spec : forall o s s' r c T,
  aspec o s = Some (s', r) -> run aseq Z c (abody o) s T = (s', T, r).
Proof. intros o s s' r c T H. pose proof (abody_cases o s T) as M. rewrite H in M. apply M. Qed.

Lemma aspec_no_crash : forall o s s' r, aspec o s = Some (s', r) -> is_crash Z r = false.
Proof.
  intros o s s' r H. destruct o; simpl in H;
    (* per operation at most two tests stand in H: the range test, then nth_error or index_of *)
    repeat match type of H with
    | (if ?b then _ else _) = _ => destruct b
    | match ?x with _ => _ end = _ => destruct x
    end; try discriminate H; injection H as _ <-; reflexivity.
Qed.

(* hence the default build never runs into an access outside the array *)
Lemma abody_default_no_crash : forall o s T, is_crash Z (rout aseq Z (run aseq Z cfg_default (abody o) s T)) = false.
Proof.
  intros o s T. pose proof (abody_cases o s T) as M.
  destruct (aspec o s) as [[s' r] |] eqn:E; destruct M as (_ & _ & M); rewrite M;
    [exact (aspec_no_crash o s s' r E) | reflexivity].
Qed.

(* the Array API satisfies the three hypotheses of the lifting theorem *)
Lemma array_lift_hypotheses :
  (forall o s T r, types_ok T -> aspec o s = Some r -> fires aseq Z (abody o) s T = false) /\
  (forall o s T s' r, types_ok T -> aspec o s = Some (s', r) ->
     rst aseq Z (run aseq Z cfg_default (abody o) s T) = s' /\ rout aseq Z (run aseq Z cfg_default (abody o) s T) = r) /\
  (forall o s s' r, aspec o s = Some (s', r) -> is_crash Z r = false).
Proof.
  split; [| split; [| exact aspec_no_crash]].
  - intros o s T [s' r] _ E. pose proof (abody_cases o s T) as M. rewrite E in M. apply M.
  - intros o s T s' r _ E. rewrite (array_meets_spec o s s' r cfg_default T E). split; reflexivity.
Qed.

Lemma arun_eq : forall c h s,
  arun c h s = (hst aseq Z (run_history aseq Z aop abody c h s []), hout aseq Z (run_history aseq Z aop abody c h s [])).
Proof. intros c h s. unfold arun. destruct (run_history aseq Z aop abody c h s []) as [[s' T'] rs]. reflexivity. Qed.

(* histories: a history the specification accepts throughout is one on which no guarded test succeeds, and it is
   computed identically by every build (`aspec_history` is `spec_history aspec`; no type is dispatched on) *)
Lemma array_accepted_history : forall h s c,
  all_some (snd (aspec_history h s)) = true ->
  afires h s = false /\ arun c h s = (fst (aspec_history h s), strip OCrash (snd (aspec_history h s))).
Proof.
  intros h s c Ha. destruct array_lift_hypotheses as (H1 & H2 & H3). rewrite arun_eq.
  destruct (accepted_history aseq Z aop abody aspec H1 H2 H3 h s [] c (Forall_nil _) Ha) as (F & -> & ->). auto.
Qed.

Lemma array_spec_history_in_contract : forall h s,
  all_some (snd (aspec_history h s)) = true -> afires h s = false.
Proof. intros h s Ha. apply (array_accepted_history h s cfg_default Ha). Qed.

Theorem array_config_independent : forall h s c1 c2,
  afires h s = false -> arun c1 h s = arun c2 h s.
Proof.
  intros h s c1 c2 H. rewrite !arun_eq.
  destruct (history_sim aseq Z aop abody h s [] [] [] c1 c2 (Forall_nil _) (Forall_nil _) (Forall_nil _) eq_refl eq_refl H)
    as (-> & -> & _). reflexivity.
Qed.

Definition two_types : types :=
  [fresh_type [(11, 7); (10, 9)]%nat; fresh_type [(11, 3)]%nat].     (* 11 = Len, 10 = Hash *)

Lemma two_types_ok : types_ok two_types.
Proof. repeat constructor; apply fresh_type_ok. Qed.

Lemma dispatch_example :
  history_fires unit nat dop dbody [DCall 0 11; DCall 0 10; DCall 1 11; DCall 0 11]%nat tt two_types = false /\
  hout unit nat (run_history unit nat dop dbody (cfg_build true true true)
                   [DCall 0 11; DCall 0 10; DCall 1 11; DCall 0 11]%nat tt two_types)
    = [OVal 7; OVal 9; OVal 3; OVal 7]%nat.
Proof. split; vm_compute; reflexivity. Qed.

Lemma guarded_blocks_audited :
  forallb block_ok cfg_guarded_blocks = true /\
  forallb known_switch cfg_guarded_blocks = true /\
  list_eqb str4_eqb non_test_blocks audited_non_test = true.
Proof. repeat apply conj; vm_compute; reflexivity. Qed.

Definition b2n (b : bool) : nat := if b then 1%nat else 0%nat.

Lemma header_words_char : forall c,
  header_words c = (1 + b2n (checks c SwAlloc) + b2n (checks c SwMagic))%nat.
Proof.
  intro c. unfold header_words. vm_compute cfg_header_fields. simpl.
  destruct (checks c SwAlloc), (checks c SwMagic); reflexivity.
Qed.

Lemma box_del_agrees : forall c1 c2 x, owner_del cfg_box_del_guarded c1 x = owner_del cfg_box_del_guarded c2 x.
Proof. intros c1 c2 [a |]; reflexivity. Qed.

Lemma hget_upd : forall h a o x, hget (upd h a o) x = if Nat.eqb x a then Some o else hget h x.
Proof. reflexivity. Qed.

Inductive reach (h : heap) (rs : roots) : addr -> Prop :=
| reach_root : forall r a, nth_error rs r = Some (Some a) -> reach h rs a
| reach_field : forall a o i b, reach h rs a -> hget h a = Some o -> nth_error (fields o) i = Some b -> reach h rs b.

(* what C01 establishes for the real collector: a collection leaves every reachable object as it is *)
Definition collector_safe (collect : nat -> heap -> roots -> heap) : Prop :=
  forall n h rs a, reach h rs a -> hget (collect n h rs) a = hget h a.

(* h1 (heap of the run with collections) agrees with h2 (heap of the run without) on what h2 can reach *)
Definition agree (h1 h2 : heap) (rs : roots) : Prop := forall a, reach h2 rs a -> hget h1 a = hget h2 a.

#[local] Hint Constructors reach : core.

Lemma reach_transfer : forall h1 h2 rs a, agree h1 h2 rs -> reach h2 rs a -> reach h1 rs a.
Proof.
  intros h1 h2 rs a Hag H. induction H as [r a Hr | a o i b Ha IH Ho Hi]; eauto.
  rewrite <- (Hag a Ha) in Ho. eauto.
Qed.

Lemma deref_from_agree : forall h1 h2 rs is a, agree h1 h2 rs -> reach h2 rs a ->
  deref_from h1 a is = deref_from h2 a is.
Proof.
  induction is as [| i r IH]; intros a Hag Ha; simpl; auto.
  rewrite (Hag a Ha). destruct (hget h2 a) as [o |] eqn:Ho; auto.
  destruct (nth_error (fields o) i) as [b |] eqn:Hi; eauto.
Qed.

Lemma deref_agree : forall h1 h2 rs p, agree h1 h2 rs -> deref h1 rs p = deref h2 rs p.
Proof.
  intros h1 h2 rs [r is] Hag. unfold deref; simpl.
  destruct (nth_error rs r) as [[a |] |] eqn:Hr; eauto using deref_from_agree.
Qed.

Lemma deref_from_reach : forall h rs is a b, reach h rs a -> deref_from h a is = Some b -> reach h rs b.
Proof.
  induction is as [| i r IH]; intros a b Ha H; simpl in H; [congruence |].
  destruct (hget h a) as [o |] eqn:Ho; [| discriminate].
  destruct (nth_error (fields o) i) as [c |] eqn:Hi; [eauto | discriminate].
Qed.

Lemma deref_reach : forall h rs p b, deref h rs p = Some b -> reach h rs b.
Proof.
  intros h rs [r is] b H. unfold deref in H; simpl in H.
  destruct (nth_error rs r) as [[a |] |] eqn:Hr; try discriminate. eauto using deref_from_reach.
Qed.

Lemma deref_all_agree : forall h1 h2 rs ps, agree h1 h2 rs -> deref_all h1 rs ps = deref_all h2 rs ps.
Proof.
  induction ps as [| p r IH]; intros Hag; simpl; [reflexivity |].
  rewrite (deref_agree h1 h2 rs p Hag), (IH Hag). reflexivity.
Qed.

Lemma deref_all_reach : forall h rs ps l, deref_all h rs ps = Some l -> forall b, In b l -> reach h rs b.
Proof.
  induction ps as [| p r IH]; simpl; intros l H b Hb.
  - injection H as <-. contradiction.
  - destruct (deref h rs p) as [a |] eqn:Hp; [| discriminate].
    destruct (deref_all h rs r) as [l' |]; [| discriminate].
    injection H as <-. destruct Hb as [<- | Hb]; eauto using deref_reach.
Qed.

Lemma nth_error_set_field : forall l n v j c, nth_error (set_field l n v) j = Some c ->
  c = v \/ nth_error l j = Some c.
Proof.
  induction l as [| y t IH]; intros [| n] v [| j] c H; simpl in *; eauto; try discriminate.
  injection H as <-. auto.
Qed.

(* reachability after each kind of update is included in: the updated address, or what was reachable *)
Lemma reach_upd : forall h rs rs' a o,
  (forall r x, nth_error rs' r = Some (Some x) -> x = a \/ reach h rs x) ->
  (forall i b, nth_error (fields o) i = Some b -> reach h rs b) ->
  forall x, reach (upd h a o) rs' x -> x = a \/ reach h rs x.
Proof.
  intros h rs rs' a o Hroots Hfields x H.
  induction H as [r x Hr | x0 o0 i b Hx0 IH Ho0 Hi]; [eauto |].
  rewrite hget_upd in Ho0. destruct (Nat.eqb_spec x0 a) as [| E].
  - injection Ho0 as <-. eauto.
  - destruct IH; [contradiction | eauto].
Qed.

Lemma agree_upd : forall h1 h2 rs rs' a o, agree h1 h2 rs ->
  (forall r x, nth_error rs' r = Some (Some x) -> x = a \/ reach h2 rs x) ->
  (forall i b, nth_error (fields o) i = Some b -> reach h2 rs b) ->
  agree (upd h1 a o) (upd h2 a o) rs'.
Proof.
  intros h1 h2 rs rs' a o Hag Hr Hf x Hx. rewrite !hget_upd.
  destruct (Nat.eqb_spec x a) as [| E]; [reflexivity |].
  destruct (reach_upd h2 rs rs' a o Hr Hf x Hx); [contradiction | auto].
Qed.

Lemma agree_roots : forall h1 h2 rs rs', agree h1 h2 rs ->
  (forall r x, nth_error rs' r = Some (Some x) -> reach h2 rs x) -> agree h1 h2 rs'.
Proof. intros h1 h2 rs rs' Hag Hr x Hx. apply Hag. induction Hx; eauto. Qed.

Lemma set_root_roots : forall (P : addr -> Prop) rs n v,
  (forall x, v = Some x -> P x) -> (forall r x, nth_error rs r = Some (Some x) -> P x) ->
  forall r x, nth_error (set_root rs n v) r = Some (Some x) -> P x.
Proof. intros P rs n v Hv Hrs r x [[_ E] | E]%(nth_error_set_slot rs); eauto. Qed.   (* set_root is set_slot *)

Definition related (s1 s2 : gstate) : Prop :=
  agree (gheap s1) (gheap s2) (groots s2) /\ groots s1 = groots s2 /\ gnext s1 = gnext s2.

(* every operation reads through paths from the registers, hence reads the same in both heaps; what it then
   binds or puts into a register was reachable before, or is the new address *)
Lemma gstep_related : forall o s1 s2, related s1 s2 ->
  snd (gstep s1 o) = snd (gstep s2 o) /\ related (fst (gstep s1 o)) (fst (gstep s2 o)).
Proof.
  intros o [h1 rs1 n1] [h2 rs n] Hrel. pose proof Hrel as (Hag & Hr & Hn). simpl in Hag, Hr, Hn. subst rs1 n1.
  destruct o as [dst v fs | p | p v | p i q | dst p | dst]; unfold gstep; cbn [gheap groots gnext].
  - rewrite (deref_all_agree h1 h2 rs fs Hag). destruct (deref_all h2 rs fs) as [l |] eqn:Hl; [| now split].
    repeat split. cbn. apply (agree_upd h1 h2 rs); eauto.
    + apply set_root_roots; [intros x [= <-] |]; eauto.
    + eauto using deref_all_reach, nth_error_In.
  - rewrite (deref_agree h1 h2 rs p Hag). destruct (deref h2 rs p) as [a |] eqn:Hp; [| now split].
    rewrite (Hag a (deref_reach _ _ _ _ Hp)). destruct (hget h2 a); now split.
  - rewrite (deref_agree h1 h2 rs p Hag). destruct (deref h2 rs p) as [a |] eqn:Hp; [| now split].
    pose proof (deref_reach _ _ _ _ Hp) as Ra. rewrite (Hag a Ra).
    destruct (hget h2 a) as [ob |] eqn:Hob; [| now split].
    repeat split. cbn. apply (agree_upd h1 h2 rs); eauto.
  - rewrite (deref_agree h1 h2 rs p Hag), (deref_agree h1 h2 rs q Hag). destruct (deref h2 rs p) as [a |] eqn:Hp; [| now split].
    destruct (deref h2 rs q) as [b |] eqn:Hq; [| now split].
    pose proof (deref_reach _ _ _ _ Hp) as Ra. rewrite (Hag a Ra).
    destruct (hget h2 a) as [ob |] eqn:Hob; [| now split].
    repeat split. cbn. apply (agree_upd h1 h2 rs); eauto.
    intros j c [-> | Hc]%nth_error_set_field; eauto using deref_reach.
  - rewrite (deref_agree h1 h2 rs p Hag). destruct (deref h2 rs p) as [a |] eqn:Hp; [| now split].
    repeat split. cbn. apply (agree_roots h1 h2 rs); auto.
    apply set_root_roots; [intros x [= <-] |]; eauto using deref_reach.
  - repeat split. cbn. apply (agree_roots h1 h2 rs); auto.
    apply set_root_roots; [discriminate | eauto].
Qed.

Lemma collect_related : forall collect n s1 s2, collector_safe collect -> related s1 s2 ->
  related (mkG (collect n (gheap s1) (groots s1)) (groots s1) (gnext s1)) s2.
Proof.
  intros collect n [h1 rs1 n1] [h2 rs n2] Hsafe (Hag & Hr & Hn). simpl in *. subst rs1.
  repeat split; auto. intros a Ha. cbn. rewrite Hsafe; eauto using reach_transfer.
Qed.

Lemma grun_related : forall collect ops n1 n2 s1 s2 gc1,
  collector_safe collect -> related s1 s2 ->
  snd (grun gc1 collect n1 ops s1) = snd (grun false collect n2 ops s2) /\
  related (fst (grun gc1 collect n1 ops s1)) (fst (grun false collect n2 ops s2)).
Proof.
  induction ops as [| o r IH]; intros n1 n2 s1 s2 gc1 Hsafe Hrel; simpl; [auto |].
  set (s0 := if gc1 then _ else s1).
  assert (Hrel0 : related s0 s2) by (unfold s0; destruct gc1; auto using collect_related).
  destruct (gstep_related o s0 s2 Hrel0) as [Ho Hs].
  destruct (gstep s0 o) as [s1' o1], (gstep s2 o) as [s2' o2]. simpl in Ho, Hs.
  destruct (IH (S n1) (S n2) s1' s2' gc1 Hsafe Hs) as [A B].
  destruct (grun gc1 collect (S n1) r s1'), (grun false collect (S n2) r s2'). simpl in *.
  split; [congruence | exact B].
Qed.

(* collector transparency: with a collector that leaves reachable objects alone, a program that reaches
   objects only through its registers observes the same values whether the collector is compiled in or
   not, whatever the collection schedule *)
Theorem gc_transparent : forall collect ops s gc,
  collector_safe collect ->
  snd (grun gc collect 0 ops s) = snd (grun false collect 0 ops s).
Proof.
  intros collect ops s gc Hsafe. apply grun_related; [exact Hsafe |]. repeat split.
Qed.

Theorem gc_config_independent : forall collect ops s c1 c2,
  collector_safe collect ->
  snd (grun_cfg c1 collect 0%nat ops s) = snd (grun_cfg c2 collect 0%nat ops s).
Proof.
  intros collect ops s c1 c2 Hsafe. unfold grun_cfg.
  rewrite (gc_transparent collect ops s (gc c1) Hsafe). symmetry. apply gc_transparent, Hsafe.
Qed.

(* the concrete sweep is safe: whatever is reachable is in a register or pointed to by a heap entry *)
Lemma hget_In : forall h a o, hget h a = Some o -> In (a, o) h.
Proof.
  induction h as [| [x ob] t IH]; simpl; intros a o H; [discriminate |].
  destruct (Nat.eqb_spec a x) as [-> | _]; [left; congruence | auto].
Qed.

Lemma hget_filter : forall (P : addr -> bool) h a, P a = true ->
  hget (filter (fun e : addr * gobj => P (fst e)) h) a = hget h a.
Proof.
  induction h as [| [x ob] t IH]; simpl; intros a Ha; [reflexivity |].
  destruct (Nat.eqb a x) eqn:E.
  - apply Nat.eqb_eq in E as <-. rewrite Ha. simpl. rewrite Nat.eqb_refl. reflexivity.
  - destruct (P x); simpl; rewrite ?E; auto.
Qed.

Lemma sweep_unreferenced_safe : collector_safe (fun _ => sweep_unreferenced).
Proof.
  intros n h rs a Ha. apply (hget_filter (fun x => is_root rs x || pointed h x)), orb_true_iff.
  destruct Ha as [r a Hr | a0 o i b _ Ho Hi]; [left | right]; apply existsb_exists.
  - exists (Some a). split; [eapply nth_error_In; exact Hr | apply Nat.eqb_refl].
  - exists (a0, o). split; [apply hget_In; exact Ho |]. apply existsb_exists.
    exists b. split; [eapply nth_error_In; exact Hi | apply Nat.eqb_refl].
Qed.

Definition g_empty : gstate := mkG [] [None; None; None] 0%nat.

