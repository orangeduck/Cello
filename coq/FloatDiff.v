(* FloatDiff.v — binary64 (Flocq, single NaN), independent of the models: comparing the rounded
   difference x - y with +0 orders as comparing x with y (gradual underflow: the difference of two
   distinct doubles never rounds to 0; an overflowing difference has the sign of x; inf - inf and NaN
   operands compare as unordered, read as "equal"), and two non-NaN doubles compare equal exactly when
   they are the same double or both a zero.  Float_Cmp of C09 (Values.v) and of C10 (HashModel.v) both
   rest on these two facts. *)
From Coq Require Import ZArith Reals Lia Lra.
From Flocq Require Import Core Plus_error BinarySingleNaN.

Local Instance prec53 : Prec_gt_0 53 := eq_refl.
Local Instance emax1024 : Prec_lt_emax 53 1024 := eq_refl.

(* an unordered pair (a NaN is involved) is read as Eq: `c > 0 ? 1 : c < 0 ? -1 : 0` *)
Definition ord_of (o : option comparison) : comparison :=
  match o with Some c => c | None => Eq end.

Lemma Bsign_B2R (x : binary_float 53 1024) : is_finite x = true -> if Bsign x then (B2R x <= 0)%R else (0 <= B2R x)%R.
Proof.
  destruct x as [s|s| |s m e H]; try discriminate; intros _; simpl.
  - destruct s; lra.
  - destruct s; [apply F2R_le_0 | apply F2R_ge_0]; simpl; lia.
Qed.

Lemma round_minus_sign (x y : binary_float 53 1024) :
  Rcompare (round radix2 (SpecFloat.fexp 53 1024) (round_mode mode_NE) (B2R x - B2R y)) 0 = Rcompare (B2R x) (B2R y).
Proof.
  set (rnd := round radix2 (SpecFloat.fexp 53 1024) (round_mode mode_NE)).
  assert (R0 : rnd 0%R = 0%R) by (apply round_0; typeclasses eauto).
  assert (M : forall a b, (a <= b)%R -> (rnd a <= rnd b)%R) by (intros; apply round_le; try typeclasses eauto; assumption).
  assert (N : B2R x <> B2R y -> rnd (B2R x - B2R y)%R <> 0%R).
  { intros D. apply round_plus_neq_0; try typeclasses eauto.
    - apply generic_format_B2R.
    - apply generic_format_opp, generic_format_B2R.
    - lra. }
  destruct (Rcompare_spec (B2R x) (B2R y)) as [H|H|H].
  - apply Rcompare_Lt. destruct (M (B2R x - B2R y) 0)%R as [L|L]; [lra | lra | rewrite R0 in L; contradiction N; lra].
  - apply Rcompare_Eq. rewrite H, Rminus_diag_eq; auto.
  - apply Rcompare_Gt. destruct (M 0 (B2R x - B2R y))%R as [L|L]; [lra | lra | rewrite R0 in L; contradiction N; lra].
Qed.

Theorem Bminus_compare (x y : binary_float 53 1024) :
  ord_of (Bcompare (Bminus mode_NE x y) (B754_zero false)) = ord_of (Bcompare x y).
Proof.
  destruct (andb (is_finite x) (is_finite y)) eqn:F.
  (* an infinity or a NaN among the operands: by computation *)
  2: { destruct x as [|sx| |], y as [|sy| |]; try discriminate F; try reflexivity;
       destruct sy; try reflexivity; destruct sx; reflexivity. }
  apply andb_prop in F. destruct F as [Fx Fy].
  rewrite (Bcompare_correct _ _ x y Fx Fy).
  pose proof (Bminus_correct 53 1024 _ _ mode_NE x y Fx Fy) as C.
  destruct (Rlt_bool _ _) eqn:Ov.
  - destruct C as (Cv & Cf & _).
    rewrite (Bcompare_correct _ _ _ (B754_zero false) Cf eq_refl), Cv. apply round_minus_sign.
  - (* overflow: x and y have opposite signs, the result is the infinity of x's sign *)
    destruct C as (Co & Cs).
    assert (NZ : B2R x <> B2R y).
    { intros E. rewrite E, Rminus_diag_eq, round_0, Rabs_R0, Rlt_bool_true in Ov
        by (reflexivity || typeclasses eauto || apply bpow_gt_0).
      discriminate. }
    pose proof (Bsign_B2R x Fx) as Sx. pose proof (Bsign_B2R y Fy) as Sy.
    replace (Bminus mode_NE x y) with (B754_infinity (Bsign x) : binary_float 53 1024) by (apply B2SF_inj; rewrite Co; reflexivity).
    rewrite Cs in Sx |- *. destruct (Bsign y); simpl in *; [rewrite Rcompare_Gt | rewrite Rcompare_Lt]; trivial; lra.
Qed.

(* non-NaN doubles compare equal exactly when they are one double, or two zeros (of either sign) *)
Theorem Bcompare_Eq (x y : binary_float 53 1024) : is_nan x = false -> is_nan y = false ->
  (ord_of (Bcompare x y) = Eq <->
   match x, y with B754_zero _, B754_zero _ => True | _, _ => x = y end).
Proof.
  intros Nx Ny.
  destruct x as [sx|sx| |sx mx ex Hx]; try discriminate Nx;
    destruct y as [sy|sy| |sy my ey Hy]; try discriminate Ny; clear Nx Ny.
  1-8: split; intros E; simpl in E |- *; try discriminate E; trivial.
  (* what is left is decided by the signs *)
  1-8: destruct sx; try discriminate E; destruct sy; discriminate E || reflexivity.
  (* two finite non-zero doubles are compared as reals, and B2R is injective on them *)
  rewrite Bcompare_correct by reflexivity. split.
  - intros E. apply B2R_inj; try reflexivity. apply Rcompare_Eq_inv, E.
  - intros ->. apply Rcompare_Eq. reflexivity.
Qed.
