(* ErrorsGlue.v — C12 meets C07: a failed container operation inside try/catch.
   Programs over a container state S built from guarded operations (ErrorsModel.gop: "validate every
   argument, then mutate") and try/catch blocks.  [crun] is the direct reading of the two properties
   together: a failing operation leaves the state alone and the innermost matching handler continues
   from exactly that state.  [compile] resolves each operation against the state the execution has
   reached and yields a program of the exception MACHINE of Exn.v (the macro expansion over
   struct Exception); the theorems say the machine run of the compiled program ends as [crun] says.
   MODEL + PROOFS (a glue file: both sides are defined elsewhere). *)
From Coq Require Import List Arith Bool Lia.
From CelloV Require Import Generated Exn ExnProofs ErrorsModel ErrorsProofs.
Import ListNotations.

Section Glue.
Variable S : Type.

Inductive cprog : Type :=
| CSkip
| COp (n : nat) (o : gop S nat)          (* statement n: an operation raising the object its first failing guard returns *)
| CSeq (p q : cprog)
| CTry (b : cprog) (fs : list nat) (h : cprog).

Fixpoint crun (p : cprog) (s : S) : S * option nat :=
  match p with
  | CSkip => (s, None)
  | COp _ o => run_gop S nat o s
  | CSeq p q => let '(s1, r1) := crun p s in
                match r1 with None => crun q s1 | Some e => (s1, Some e) end
  | CTry b fs h => let '(s1, r1) := crun b s in
                   match r1 with
                   | None => (s1, None)
                   | Some e => if matches fs e then crun h s1 else (s1, Some e)
                   end
  end.

(* the operations a run performs successfully, in order (the statements that DID mutate) *)
Fixpoint cdone (p : cprog) (s : S) : list nat :=
  match p with
  | CSkip => []
  | COp n o => match first_failure S nat (guards S nat o) s with Some _ => [] | None => [n] end
  | CSeq p q => let '(s1, r1) := crun p s in
                cdone p s ++ match r1 with None => cdone q s1 | Some _ => [] end
  | CTry b fs h => let '(s1, r1) := crun b s in
                   cdone b s ++ match r1 with
                                | None => []
                                | Some e => if matches fs e then cdone h s1 else []
                                end
  end.

(* every throw of the library formats a message: message number 1 (any non-empty one); the message
   arguments of the library's own throws are Ints, Strings and Types, whose Show runs no try block: PSkip *)
Fixpoint compile (p : cprog) (s : S) : prog :=
  match p with
  | CSkip => PSkip
  | COp n o => match first_failure S nat (guards S nat o) s with
               | Some e => PThrow e 1 PSkip
               | None => PTick n
               end
  | CSeq p q => PSeq (compile p s) (compile q (fst (crun p s)))
  | CTry b fs h => PTry (compile b s) fs (compile h (fst (crun b s)))
  end.

Fixpoint cnesting (p : cprog) : nat :=
  match p with
  | CSkip | COp _ _ => 0
  | CSeq p q => Nat.max (cnesting p) (cnesting q)
  | CTry b _ h => Nat.max (Datatypes.S (cnesting b)) (cnesting h)
  end.

Lemma compile_nesting p : forall s, nesting (compile p s) = cnesting p.
Proof.
  induction p as [|n o|p IHp q IHq|b IHb fs h IHh]; intros s; cbn [compile nesting cnesting];
    rewrite ?IHp, ?IHq, ?IHb, ?IHh; try destruct (first_failure S nat (guards S nat o) s); reflexivity.
Qed.

(* compiled programs contain no break / continue / return *)
Lemma compile_exits_ok p : forall s ret brk, exits_ok ret brk (compile p s) = true.
Proof.
  induction p as [|n o|p IHp q IHq|b IHb fs h IHh]; intros s ret brk; cbn [compile exits_ok];
    rewrite ?IHp, ?IHq, ?IHb, ?IHh; try destruct (first_failure S nat (guards S nat o) s); reflexivity.
Qed.

Definition ticks (t : list event) : list nat :=
  flat_map (fun e => match e with ETick n _ => [n] | EHandler _ _ _ => [] end) t.

Lemma ticks_app a b : ticks (a ++ b) = ticks a ++ ticks b.
Proof. unfold ticks. apply flat_map_app. Qed.

(* the structured reference semantics of the compiled program ends as crun says; a raised exception
   carries message 1; the ticks of the trace are the operations that succeeded *)
Lemma ref_run_compile p : forall s d c,
  let '(t, r, c') := ref_run d c (compile p s) in
  ticks t = cdone p s /\
  match snd (crun p s) with
  | None => r = RNormal
  | Some e => r = RRaised e 1 /\ c' = 1
  end.
Proof.
  induction p as [|n o|p IHp q IHq|b IHb fs h IHh]; intros s d c; cbn [compile ref_run crun cdone].
  - split; reflexivity.
  - unfold run_gop. destruct (first_failure S nat (guards S nat o) s) as [e|]; cbn; auto.
  - specialize (IHp s d c). destruct (ref_run d c (compile p s)) as [[t1 r1] c1].
    destruct (crun p s) as [s1 [e|]] eqn:E; cbn [snd fst] in *.
    + destruct IHp as [Ht [-> ->]]. cbn. rewrite Ht, app_nil_r. auto.
    + destruct IHp as [Ht ->].
      specialize (IHq s1 d c1). destruct (ref_run d c1 (compile q s1)) as [[t2 r2] c2].
      destruct IHq as [Ht2 Hr2]. split; [rewrite ticks_app, Ht, Ht2; reflexivity | exact Hr2].
  - specialize (IHb s (Datatypes.S d) c). destruct (ref_run (Datatypes.S d) c (compile b s)) as [[t1 r1] c1].
    destruct (crun b s) as [s1 [e|]] eqn:E; cbn [snd fst] in *.
    + destruct IHb as [Ht [-> ->]].
      destruct (matches fs e) eqn:M.
      * specialize (IHh s1 d 1). destruct (ref_run d 1 (compile h s1)) as [[t2 r2] c2].
        destruct IHh as [Ht2 Hr2]. split.
        -- rewrite ticks_app, Ht. cbn [ticks flat_map app]. fold (ticks t2). rewrite Ht2. reflexivity.
        -- (* compiled programs contain no break/continue/return: the handler ends as itself *)
           destruct (snd (crun h s1)); [destruct Hr2 as [-> ->] | subst r2]; cbn; auto.
      * cbn. rewrite Ht, app_nil_r. auto.
    + destruct IHb as [Ht ->]. cbn. rewrite Ht, app_nil_r. auto.
Qed.

Lemma crun_op_fails n o s e : snd (crun (COp n o) s) = Some e -> fst (crun (COp n o) s) = s.
Proof.
  cbn [crun]. destruct (run_gop S nat o s) as [s' r] eqn:R. cbn. intros ->.
  apply run_gop_atomic in R. tauto.
Qed.

(* whole program on the C machine (macro expansion over struct Exception), from a fresh thread *)
Theorem machine_runs_compiled p s :
  cnesting p <= exc_max_depth ->
  let '(tr, r, st') := mach (compile p s) st_init in
  ticks tr = cdone p s /\ depth st' = 0 /\
  r = match snd (crun p s) with None => MNormal | Some e => MDied (Some e) 1 end.
Proof.
  intros Hn. pose proof (whole_program (compile p s) (compile_exits_ok p s true false)) as W.
  rewrite compile_nesting in W. specialize (W Hn).
  pose proof (ref_run_compile p s 0 0) as R.
  destruct (mach (compile p s) st_init) as [[tr r] st'].
  destruct (ref_run 0 0 (compile p s)) as [[t0 r0] c0].
  destruct W as [-> [Hd ->]]. destruct R as [Ht Hr].
  split; [exact Ht | split; [exact Hd|]].
  destruct (snd (crun p s)) as [e|]; [destruct Hr as [-> ->]|rewrite Hr]; reflexivity.
Qed.

End Glue.
