(* Properties_C04.v — property C04: Array, List and Tuple behave as sequences.
   Statements closed by `exact` or by a few lines in place (what the specification says about a negative
   index and about rem: unfolding plus one lemma of SeqProofs.v), each followed by Print Assumptions;
   Examples show that the hypotheses are satisfiable and that the models compute.  Vocabulary (SeqModels.v):
   a_step / l_step / t_step = one operation on the model of src/Array.c / List.c / Tuple.c;
   a_abs / l_abs / t_abs = the abstract sequence a model state stands for; in_range c l o = the
   in-range contract of operation o for container c on sequence l, exactly as implemented;
   spec_ok c l o l' r = "o takes the abstract sequence l to l' with outcome r" (sort: any sorted
   permutation; everything else: the list function spec_step);
   refines ... s ops = along the history ops, as long as every operation is in range, each step
   keeps the invariant and satisfies spec_ok. *)
From CelloV Require Import Generated SeqModels SeqCmps SeqProofs SortProofs SeqTupleProofs SeqAccessProofs SeqTheorems.
From Coq Require Import List ZArith Bool Lia Permutation Sorted.
Import ListNotations.

(* the growth / shrink rules re-extracted from Array_Reserve_More / Array_Reserve_Less always leave
   room for every item (re-proved whenever the source changes them) *)
Theorem array_capacity_rules_ok :
  grow_ok array_grow_cond array_grow_size /\ shrink_ok array_shrink_cond array_shrink_size.
Proof. exact (conj SeqProofs.array_grow_ok SeqProofs.array_shrink_ok). Qed.
Print Assumptions array_capacity_rules_ok.

(* Array: every history of in-range operations keeps nitems <= nslots = |cells| with the first
   nitems cells initialised (a_inv), and outcome and contents are those of the abstract sequence *)
Theorem array_refines_list :
  forall (E : Type) (eqb ltb : E -> E -> bool) (zero : E),
  (forall x y, ltb x y = true -> ltb y x = false) ->
  (forall x y z, ltb x y = true -> ltb y z = true -> ltb x z = true) ->
  forall (ops : list (sop E)) (a : array E),
  a_inv E a ->
  refines E eqb ltb zero (array E)
    (a_step E eqb ltb array_grow_cond array_shrink_cond array_grow_size array_shrink_size)
    (a_abs E) (a_inv E) KArray (fun _ _ => True) a ops.
Proof. exact SeqTheorems.array_refines_list. Qed.
Print Assumptions array_refines_list.

(* List: same statement; List_At reaches the addressed node from whichever end it starts *)
Theorem list_refines_list :
  forall (E : Type) (eqb ltb : E -> E -> bool) (zero : E)
         (ops : list (sop E)) (l : llist E),
  l_inv E l ->
  refines E eqb ltb zero (llist E) (l_step E eqb zero) (l_abs E) (l_inv E) KList (fun _ _ => True) l ops.
Proof. exact SeqTheorems.list_refines_list. Qed.
Print Assumptions list_refines_list.

(* Tuple: same statement for heap tuples whose stored pointers are pairwise distinct and stay so
   (t_fresh: every pointer an operation stores is new to the tuple) — the hypothesis excluding
   finding F3 *)
Theorem tuple_refines_list :
  forall (E : Type) (eqb ltb same : E -> E -> bool) (zero : E),
  (forall x y, ltb x y = true -> ltb y x = false) ->
  (forall x y z, ltb x y = true -> ltb y z = true -> ltb x z = true) ->
  (forall x, same x x = true) ->
  (forall x y, eqb x y = eqb y x) ->
  forall (ops : list (sop E)) (t : tuple E),
  t_inv E same t ->
  refines E eqb ltb zero (tuple E) (t_step E eqb ltb same) (t_abs E) (t_inv E same) KTuple
          (t_fresh E same) t ops.
Proof. exact SeqTheorems.tuple_refines_list. Qed.
Print Assumptions tuple_refines_list.

(* growth / shrink crossings: the invariant kept by every in-range history bounds nitems by the
   capacity, and an outcome the specification allows is never a crash (out-of-block access, read of
   an uninitialised cell) nor fuel exhaustion — so along such histories every touched index is
   inside the backing store and every loop of the models terminates within its fuel *)
Theorem array_invariant_capacity :
  forall (E : Type) (a : array E),
  a_inv E a -> nitems E a <= nslots E a /\ length (cells E a) = nslots E a.
Proof. exact SeqTheorems.array_invariant_capacity. Qed.
Print Assumptions array_invariant_capacity.

Theorem in_range_outcome_never_crash :
  forall (E : Type) (eqb ltb : E -> E -> bool) (zero : E) (c : kind) (l : list E) (o : sop E)
         (l' : list E) (r : out E),
  spec_ok E eqb ltb zero c l o l' r -> r <> OCrash E /\ r <> OFuel E.
Proof. exact SeqProofs.spec_ok_no_crash. Qed.
Print Assumptions in_range_outcome_never_crash.

(* F3 is real: with the same pointer stored twice, iteration runs out of every fuel *)
Theorem tuple_repeated_pointer_refuted :
  forall (E : Type) (same : E -> E -> bool) (p : E),
  same p p = true ->
  forall fuel, t_iter_fuel E same fuel (mkTu E [TObj E p; TObj E p; TTerm E] true) = Fuel.
Proof. exact SeqTheorems.tuple_repeated_pointer_refuted. Qed.
Print Assumptions tuple_repeated_pointer_refuted.

(* len and iteration agree with the abstract sequence in every invariant state *)
Theorem array_len_iter :
  forall (E : Type) (a : array E),
  a_inv E a -> nitems E a = length (a_abs E a) /\ a_iter E a = Ok (a_abs E a).
Proof. exact SeqProofs.a_observe. Qed.
Print Assumptions array_len_iter.

Theorem list_len_iter :
  forall (E : Type) (l : llist E),
  l_inv E l -> lnitems E l = length (l_abs E l) /\ l_iter E l = Ok (l_abs E l).
Proof. exact SeqProofs.l_observe. Qed.
Print Assumptions list_len_iter.

Theorem tuple_len_iter :
  forall (E : Type) (same : E -> E -> bool),
  (forall x, same x x = true) ->
  forall t : tuple E,
  t_inv E same t -> t_len E t = Some (length (t_abs E t)) /\ t_iter E same t = Ok (t_abs E t).
Proof. exact SeqTupleProofs.t_observe. Qed.
Print Assumptions tuple_len_iter.

(* the quicksort as coded (Lomuto partition around the middle element, fuel = length) returns a
   permutation ordered by the comparison, for every total preorder leq (sort() hands over lt) *)
Theorem sort_perm_sorted :
  forall (E : Type) (leq : E -> E -> bool),
  (forall x y, leq x y = true \/ leq y x = true) ->
  (forall x y z, leq x y = true -> leq y z = true -> leq x z = true) ->
  forall xs : list E,
  exists ys, qsort (lt_of E leq) xs = Ok ys /\ Permutation xs ys /\
             StronglySorted (fun x y => leq x y = true) ys /\
             Sorted (fun x y => leq x y = true) ys.
Proof. exact SeqTheorems.sort_perm_sorted. Qed.
Print Assumptions sort_perm_sorted.

(* sort_by(t, f): the result is ordered by the GIVEN function f — whatever asymmetric, transitive f the
   caller hands over (lt, gt, a custom order, a key with ties), not by the built-in order: a permutation
   in which no element is f-before an element that precedes it.  (In array_refines_list and
   tuple_refines_list the parameter ltb IS that function: the sort step of a history is specified by
   spec_ok's SSort clause with the same ltb.) *)
Theorem sort_by_ordered_by_given_function :
  forall (E : Type) (f : E -> E -> bool),
  (forall x y, f x y = true -> f y x = false) ->
  (forall x y z, f x y = true -> f y z = true -> f x z = true) ->
  forall xs : list E,
  exists ys, qsort f xs = Ok ys /\ Permutation xs ys /\
             StronglySorted (fun x y => f y x = false) ys.
Proof. exact SortProofs.qsort_correct. Qed.
Print Assumptions sort_by_ordered_by_given_function.

(* the comparisons the harness hands to sort_by and lets the specification judge (lt, gt, |a|<|b|,
   |a|/4<|b|/4, never) meet these hypotheses; le, ge and always do not and are compared with the model only *)
Theorem driver_comparisons_in_contract :
  forall k : nat, cmp_in_contract k = true ->
  (forall a b, e_cmp k a b = true -> e_cmp k b a = false) /\
  (forall a b c, e_cmp k a b = true -> e_cmp k b c = true -> e_cmp k a c = true).
Proof. exact SeqTheorems.driver_comparisons_in_contract. Qed.
Print Assumptions driver_comparisons_in_contract.

(* what the specification says about negative indices and rem *)
Theorem get_negative_counts_from_end :
  forall (E : Type) (eqb ltb : E -> E -> bool) (zero : E) (c : kind) (l : list E) (i : nat) (v : E),
  1 <= i <= length l -> nth_error l (length l - i) = Some v ->
  in_range E eqb c l (SGet E (- Z.of_nat i)) = true /\
  spec_step E eqb ltb zero c l (SGet E (- Z.of_nat i)) = (l, OVal E v).
Proof.
  intros E eqb ltb zero c l i v Hi. apply spec_get_at.
  unfold norm. destruct (Z.ltb_spec (- Z.of_nat i) 0); lia.
Qed.
Print Assumptions get_negative_counts_from_end.

Theorem rem_removes_first_equal :
  forall (E : Type) (eqb ltb : E -> E -> bool) (zero : E) (c : kind) (l1 : list E) (x : E) (l2 : list E) (v : E),
  eqb x v = true -> (forall y, In y l1 -> eqb y v = false) ->
  in_range E eqb c (l1 ++ x :: l2) (SRem E v) = true /\
  spec_step E eqb ltb zero c (l1 ++ x :: l2) (SRem E v) = (l1 ++ l2, OUnit E).
Proof.
  intros E eqb ltb zero c l1 x l2 v Hx Hl.
  assert (Hin : in_range E eqb c (l1 ++ x :: l2) (SRem E v) = true).
  { simpl. rewrite existsb_app. simpl. rewrite Hx. apply orb_true_r. }
  split; [exact Hin|]. unfold SeqModels.spec_step. rewrite Hin. cbn. rewrite remove_first_app; auto.
Qed.
Print Assumptions rem_removes_first_equal.

(* beyond the in-range contract (the models' half of C12): an operation outside the contract raises
   the documented exception and changes nothing, so the refinement holds along EVERY history
   (refines_all = refines without the in-range premise; spec_ok then demands spec_step's
   `(l, ORaise e)`), and a raising step of a model never changes its state, whatever the state *)
Theorem array_refines_list_all_histories :
  forall (E : Type) (eqb ltb : E -> E -> bool) (zero : E),
  (forall x y, ltb x y = true -> ltb y x = false) ->
  (forall x y z, ltb x y = true -> ltb y z = true -> ltb x z = true) ->
  forall (ops : list (sop E)) (a : array E),
  a_inv E a ->
  refines_all E eqb ltb zero (array E)
    (a_step E eqb ltb array_grow_cond array_shrink_cond array_grow_size array_shrink_size)
    (a_abs E) (a_inv E) KArray (fun _ _ => True) a ops.
Proof. exact SeqTheorems.array_refines_list_all. Qed.
Print Assumptions array_refines_list_all_histories.

Theorem list_refines_list_all_histories :
  forall (E : Type) (eqb ltb : E -> E -> bool) (zero : E)
         (ops : list (sop E)) (l : llist E),
  l_inv E l ->
  refines_all E eqb ltb zero (llist E) (l_step E eqb zero) (l_abs E) (l_inv E) KList (fun _ _ => True) l ops.
Proof. exact SeqTheorems.list_refines_list_all. Qed.
Print Assumptions list_refines_list_all_histories.

Theorem tuple_refines_list_all_histories :
  forall (E : Type) (eqb ltb same : E -> E -> bool) (zero : E),
  (forall x y, ltb x y = true -> ltb y x = false) ->
  (forall x y z, ltb x y = true -> ltb y z = true -> ltb x z = true) ->
  (forall x, same x x = true) ->
  (forall x y, eqb x y = eqb y x) ->
  forall (ops : list (sop E)) (t : tuple E),
  t_inv E same t ->
  refines_all E eqb ltb zero (tuple E) (t_step E eqb ltb same) (t_abs E) (t_inv E same) KTuple
              (t_fresh E same) t ops.
Proof. exact SeqTheorems.tuple_refines_list_all. Qed.
Print Assumptions tuple_refines_list_all_histories.

Theorem raising_step_changes_nothing :
  forall (E : Type) (eqb ltb same : E -> E -> bool) (zero : E)
         (gc sc : nat -> nat -> bool) (gs ss : nat -> nat -> nat) (o : sop E) (e : cexn),
  (forall a a', a_step E eqb ltb gc sc gs ss a o = (a', ORaise E e) -> a' = a) /\
  (forall l l', l_step E eqb zero l o = (l', ORaise E e) -> l' = l) /\
  (forall t t', t_step E eqb ltb same t o = (t', ORaise E e) -> t' = t).
Proof.
  exact SeqAccessProofs.raise_unchanged.
Qed.
Print Assumptions raising_step_changes_nothing.

(* no hidden access state: reads (get, mem) interleaved anywhere in a history, from any start state,
   change neither the final state nor what any other operation returns (final = state after the
   history, trace = (operation, outcome) pairs, is_write = not get/mem).  Together with the refinement
   theorems: what get returns after an operation sequence does not depend on which elements were
   looked at before, and in which order — the obligation a cursor cache in List_At must meet *)
Theorem reads_never_disturb :
  forall (E : Type) (eqb ltb same : E -> E -> bool) (zero : E)
         (gc sc : nat -> nat -> bool) (gs ss : nat -> nat -> nat) (ops : list (sop E)),
  (forall a : array E,
     final E _ (a_step E eqb ltb gc sc gs ss) a ops =
       final E _ (a_step E eqb ltb gc sc gs ss) a (filter (is_write E) ops) /\
     filter (fun p => is_write E (fst p)) (trace E _ (a_step E eqb ltb gc sc gs ss) a ops) =
       trace E _ (a_step E eqb ltb gc sc gs ss) a (filter (is_write E) ops)) /\
  (forall l : llist E,
     final E _ (l_step E eqb zero) l ops = final E _ (l_step E eqb zero) l (filter (is_write E) ops) /\
     filter (fun p => is_write E (fst p)) (trace E _ (l_step E eqb zero) l ops) =
       trace E _ (l_step E eqb zero) l (filter (is_write E) ops)) /\
  (forall t : tuple E,
     final E _ (t_step E eqb ltb same) t ops = final E _ (t_step E eqb ltb same) t (filter (is_write E) ops) /\
     filter (fun p => is_write E (fst p)) (trace E _ (t_step E eqb ltb same) t ops) =
       trace E _ (t_step E eqb ltb same) t (filter (is_write E) ops)).
Proof. exact SeqTheorems.reads_never_disturb. Qed.
Print Assumptions reads_never_disturb.

(* the repaired error-path defects of this area were real: witnesses on the pre-repair variants of
   the models (D13 cab8f5d, D14 9c281b5, D15 898595c; they concern C12, recorded here because the
   sequence models live here) *)
Theorem array_push_at_pre_repair_refuted :
  exists (a : array Z) (k v : Z),
    in_range Z Z.eqb KArray (a_abs Z a) (SPushAt Z k v) = false /\
    snd (a_push_at_old Z array_grow_cond array_grow_size a k v) = ORaise Z IndexError /\
    nitems Z (fst (a_push_at_old Z array_grow_cond array_grow_size a k v)) = S (nitems Z a).
Proof. exact SeqTheorems.array_push_at_pre_repair_refuted. Qed.
Print Assumptions array_push_at_pre_repair_refuted.

Theorem tuple_pop_at_pre_repair_refuted :
  exists (t : tuple Z) (k : Z),
    theap Z t = false /\
    snd (t_pop_at_old Z t 3 k) = ORaise Z ValueError /\
    t_abs Z (fst (t_pop_at_old Z t 3 k)) <> t_abs Z t.
Proof. exact SeqTheorems.tuple_pop_at_pre_repair_refuted. Qed.
Print Assumptions tuple_pop_at_pre_repair_refuted.

Theorem tuple_rem_pre_repair_refuted :
  exists (t : tuple Z) (v : Z),
    in_range Z Z.eqb KTuple (t_abs Z t) (SRem Z v) = false /\
    snd (t_rem_old Z Z.eqb t 3 v) = OUnit Z.
Proof. exact SeqTheorems.tuple_rem_pre_repair_refuted. Qed.
Print Assumptions tuple_rem_pre_repair_refuted.

Definition zops : list (sop Z) :=
  [SPush Z 5; SPushAt Z (-1) 7; SPushAt Z 0 9; SGet Z (-2); SSort Z; SPopAt Z (-1); SRem Z 3;
   SConcat Z [4; 4]; SResize Z 3; SSet Z (-1) 0; SPop Z; SCopy Z]%Z.
Definition za_step := a_step Z Z.eqb Z.ltb array_grow_cond array_shrink_cond array_grow_size array_shrink_size.
Fixpoint run {S : Type} (step : S -> sop Z -> S * out Z) (s : S) (ops : list (sop Z)) : S :=
  match ops with [] => s | o :: r => run step (fst (step s o)) r end.
Fixpoint all_in_range {S : Type} (c : kind) (step : S -> sop Z -> S * out Z) (abs : S -> list Z)
         (s : S) (ops : list (sop Z)) : bool :=
  match ops with
  | [] => true
  | o :: r => in_range Z Z.eqb c (abs s) o && all_in_range c step abs (fst (step s o)) r
  end.

(* Z.ltb satisfies the order hypotheses, an Array built by new satisfies the invariant, the sample
   history stays in range and ends in the expected sequence with capacity 2 *)
Example array_hypotheses_hold :
  (forall x y, Z.ltb x y = true -> Z.ltb y x = false) /\
  (forall x y z, Z.ltb x y = true -> Z.ltb y z = true -> Z.ltb x z = true) /\
  a_inv Z (a_new Z [3; 1; 2]%Z) /\
  all_in_range KArray za_step (a_abs Z) (a_new Z [3; 1; 2]%Z) zops = true /\
  a_abs Z (run za_step (a_new Z [3; 1; 2]%Z) zops) = [1; 2]%Z /\
  nslots Z (run za_step (a_new Z [3; 1; 2]%Z) zops) = 2.
Proof.
  split; [intros x y H; apply Z.ltb_lt in H; apply Z.ltb_ge; apply Z.lt_le_incl; exact H|].
  split; [intros x y z H1 H2; apply Z.ltb_lt in H1, H2; apply Z.ltb_lt; eapply Z.lt_trans; eauto|].
  split; [exists [3; 1; 2]%Z, []; repeat split|].
  vm_compute. repeat split.
Qed.

Definition zlops : list (sop Z) :=
  [SPush Z 5; SPushAt Z (-1) 7; SPushAt Z 0 9; SGet Z (-2); SPopAt Z (-1); SRem Z 3;
   SConcat Z [4; 4]; SResize Z 9; SSet Z (-1) 8; SPop Z; SCopy Z]%Z.
Example list_hypotheses_hold :
  l_inv Z (l_new Z [3; 1; 2]%Z) /\
  all_in_range KList (l_step Z Z.eqb 0%Z) (l_abs Z) (l_new Z [3; 1; 2]%Z) zlops = true /\
  l_abs Z (run (l_step Z Z.eqb 0%Z) (l_new Z [3; 1; 2]%Z) zlops) = [9; 1; 2; 7; 4; 4; 0; 0]%Z.
Proof. split; [reflexivity|]. vm_compute. repeat split. Qed.

(* Tuple elements are pointers: distinct identities 0.. with identity = the value here *)
Definition ztops : list (sop Z) :=
  [SPush Z 5; SPushAt Z (-1) 7; SPushAt Z 0 9; SGet Z (-2); SSort Z; SPopAt Z (-1); SRem Z 3;
   SConcat Z [4; 6]; SResize Z 3; SSet Z (-1) 0; SPop Z; SCopy Z; SMem Z 2]%Z.
Example tuple_hypotheses_hold :
  (forall x, Z.eqb x x = true) /\ (forall x y, Z.eqb x y = Z.eqb y x) /\
  t_inv Z Z.eqb (t_new Z [3; 1; 2]%Z true) /\
  all_in_range KTuple (t_step Z Z.eqb Z.ltb Z.eqb) (t_abs Z) (t_new Z [3; 1; 2]%Z true) ztops = true /\
  t_abs Z (run (t_step Z Z.eqb Z.ltb Z.eqb) (t_new Z [3; 1; 2]%Z true) ztops) = [1; 2]%Z /\
  t_iter Z Z.eqb (run (t_step Z Z.eqb Z.ltb Z.eqb) (t_new Z [3; 1; 2]%Z true) ztops) = Ok [1; 2]%Z.
Proof.
  split; [apply Z.eqb_refl|]. split; [apply Z.eqb_sym|].
  split.
  - split; [reflexivity|]. exists [3; 1; 2]%Z. split; [reflexivity|].
    simpl. split; [|split; [|split; [|exact I]]]; intros y0 Hy; simpl in Hy;
      repeat (destruct Hy as [<-|Hy]; [split; reflexivity|]); destruct Hy.
  - vm_compute. repeat split.
Qed.

(* Z.leb is a total preorder; quicksort of a list with duplicates *)
Example sort_hypotheses_hold :
  (forall x y, Z.leb x y = true \/ Z.leb y x = true) /\
  (forall x y z, Z.leb x y = true -> Z.leb y z = true -> Z.leb x z = true) /\
  qsort (lt_of Z Z.leb) [5; 1; 5; 0; 1; 5; -3]%Z = Ok [-3; 0; 1; 1; 5; 5; 5]%Z.
Proof.
  split; [intros x y; destruct (Z.leb_spec x y); [left; reflexivity | right; apply Z.leb_le, Z.lt_le_incl; assumption]|].
  split; [intros x y z H1 H2; apply Z.leb_le in H1, H2; apply Z.leb_le; eapply Z.le_trans; eauto|].
  vm_compute. reflexivity.
Qed.

(* sort_by with gt on ascending input, and with a key that creates ties, through the Tuple model *)
Example sort_by_given_function_runs :
  t_abs elt (fst (t_step elt e_eqb (e_cmp 1) e_same (t_new elt [(1,1);(2,2);(3,3);(4,4)]%Z true) (SSort elt)))
    = [(4,4);(3,3);(2,2);(1,1)]%Z /\
  map snd (t_abs elt (fst (t_step elt e_eqb (e_cmp 5) e_same (t_new elt [(1,9);(2,1);(3,5);(4,2);(5,8)]%Z true) (SSort elt))))
    = [1;2;5;9;8]%Z.
Proof. vm_compute. split; reflexivity. Qed.
